(* C06 (a) — JobServerSemaphore.  A step only moves bytes between pipe, token
   stack and foreign holders ([perm_step], both accounting protocols); under
   the current accounting the counters and the stack are tied together by one
   inductive invariant ([sinv], [sreach_inv]).  At the end, the configuration
   and the schedule of the witness against the earlier accounting. *)
From Coq Require Import List Arith Bool NArith Lia Permutation.
Require Import BobV.C06.Model.
Import ListNotations.

Inductive sreach (c : semcfg) (p0 : list N) : sem -> Prop :=
| sr_init : sreach c p0 (sem_init p0)
| sr_step : forall s l s', sreach c p0 s -> sem_step c s l = SOk s' -> sreach c p0 s'.

Definition implicit (c : semcfg) : nat := if recursive c then 1 else 0.

(* the invariant of the current accounting (slots counted when granted): the
   stack holds one token per slot in use beyond the implicit one, and tasks
   wait only while the implicit slot is taken *)
Record sinv (c : semcfg) (s : sem) : Prop := {
  i_blocked : blocked s = waiters s + grants s;
  i_reader : reader s = negb (waiters s =? 0);
  i_acct : acquired s = inside s + grants s;
  i_tok : length (tokens s) = acquired s - implicit c;
  i_wait : waiters s > 0 -> implicit c <= acquired s
}.

Lemma cb_loop_spec : forall atg w p t g a,
  exists k w' p' t',
    cb_loop w p t g a atg = (w', p', t', g + k, if atg then a + k else a) /\
    w = w' + k /\ length t' = length t + k /\ Permutation (p' ++ t') (p ++ t) /\ (k = 0 -> w = 0 \/ p = []).
Proof.
  intros atg. induction w as [|w IH]; intros p t g a.
  - exists 0, 0, p, t. rewrite !Nat.add_0_r. destruct atg; auto 6.
  - destruct p as [|b p].
    + exists 0, (S w), [], t. rewrite !Nat.add_0_r. destruct atg; auto 6.
    + destruct (IH p (t ++ [b]) (S g) (if atg then S a else a)) as (k & w' & p' & t' & E & Hw & Hl & Hp & _).
      exists (S k), w', p', t'. rewrite app_length in Hl. cbn [length] in Hl. repeat apply conj; try lia.
      * cbn [cb_loop]. rewrite E, <- !Nat.add_succ_comm. destruct atg; reflexivity.
      * rewrite Hp, app_assoc. symmetry. apply Permutation_cons_append.
Qed.

Lemma perm_remove_nth : forall (l : list N) i b,
  nth_error l i = Some b -> Permutation l (b :: remove_nth i l).
Proof.
  induction l as [|x l IH]; intros [|i] b H; cbn in *; try discriminate.
  - inversion H; subst. reflexivity.
  - rewrite (IH _ _ H) at 1. apply perm_swap.
Qed.

Lemma perm_step : forall c s l s',
  sem_step c s l = SOk s' -> Permutation (pipe s' ++ tokens s' ++ ext s') (pipe s ++ tokens s ++ ext s).
Proof.
  intros c s l s' H. destruct l; cbn [sem_step] in H.
  - destruct (recursive c && (acquired s =? 0)); [|destruct (pipe s) as [|b p]]; injection H as <-; cbn [pipe tokens ext]; auto.
    rewrite <- Permutation_cons_append. symmetry. apply Permutation_middle.
  - destruct (reader s); [|discriminate].
    destruct (cb_loop_spec (at_grant c) (waiters s) (pipe s) (tokens s) (grants s) (acquired s))
      as (k & w' & p' & t' & E & _ & _ & P & _).
    rewrite E in H. injection H as <-. cbn [pipe tokens ext]. rewrite !app_assoc. apply Permutation_app_tail, P.
  - destruct (grants s), (blocked s); try discriminate. injection H as <-. reflexivity.
  - destruct (acquired s) as [|a], (inside s), (waiters s); try discriminate; [|injection H as <-; reflexivity].
    destruct (negb (recursive c) || (1 <? S a)); [|injection H as <-; reflexivity].
    rewrite <- (rev_involutive (tokens s)). destruct (rev (tokens s)) as [|b r]; [discriminate|].
    injection H as <-. cbn [pipe tokens ext rev].
    rewrite <- !app_assoc. apply Permutation_app_head, (Permutation_middle (rev r)).
  - destruct (pipe s) as [|b p]; [discriminate|]. injection H as <-. cbn [pipe tokens ext].
    rewrite !app_assoc. symmetry. apply Permutation_cons_append.
  - destruct (nth_error (ext s) i) as [b|] eqn:E; [|discriminate]. injection H as <-. cbn [pipe tokens ext].
    rewrite (perm_remove_nth _ _ _ E) at 2. rewrite <- app_assoc, <- Permutation_middle.
    reflexivity.
Qed.

Lemma sinv_init : forall c p0, sinv c (sem_init p0).
Proof. intros c p0. constructor; cbn; auto; lia. Qed.

(* every clause of [sinv] for the successor state is linear arithmetic over the fields *)
Local Ltac by_fields := constructor; cbn -[Nat.sub]; rewrite ?app_length; cbn -[Nat.sub]; auto; lia.

Lemma sinv_step : forall c s l s',
  at_grant c = true -> sinv c s -> sem_step c s l = SOk s' -> sinv c s'.
Proof.
  intros c s l s' AG [Hb Hr Ha Ht Hw] H.
  assert (Im : implicit c = if recursive c then 1 else 0) by reflexivity.
  destruct l; cbn [sem_step] in H; rewrite ?AG in H.
  - destruct (recursive c); cbn [andb] in H.
    + destruct (Nat.eqb_spec (acquired s) 0).
      * injection H as <-. by_fields.
      * destruct (pipe s); injection H as <-; by_fields.
    + destruct (pipe s); injection H as <-; by_fields.
  - destruct (reader s); [|discriminate].
    destruct (cb_loop_spec true (waiters s) (pipe s) (tokens s) (grants s) (acquired s))
      as (k & w' & p' & t' & E & Hk & Hl & _).
    rewrite E in H. injection H as <-. by_fields.
  - destruct (grants s), (blocked s); try discriminate. injection H as <-. rewrite Nat.add_succ_r in Hb, Ha. by_fields.
  - destruct (acquired s) as [|a'], (inside s), (waiters s) as [|w']; try discriminate.
    + destruct (negb (recursive c) || (1 <? S a')) eqn:Cnd.
      * rewrite <- (rev_involutive (tokens s)) in Ht. destruct (rev (tokens s)) as [|b r]; [discriminate|]. injection H as <-.
        cbn [rev] in Ht. rewrite app_length in Ht.
        constructor; cbn -[Nat.sub] in *; auto; lia.
      * injection H as <-. destruct (recursive c); [|discriminate]. apply Nat.ltb_ge in Cnd.
        by_fields.
    + injection H as <-. constructor; cbn -[Nat.sub] in *; rewrite ?Nat.add_succ_r; auto. rewrite Hr. apply andb_true_r.
  - destruct (pipe s); [discriminate|]. injection H as <-. by_fields.
  - destruct (nth_error (ext s) i); [|discriminate]. injection H as <-. by_fields.
Qed.

Lemma sreach_inv : forall c p0 s, at_grant c = true -> sreach c p0 s -> sinv c s.
Proof.
  intros c p0 s AG R. induction R; [apply sinv_init|eapply sinv_step; eauto].
Qed.

(* why commit 0a01ba7 was needed: with the slot accounted only when the
   waiter resumes, a recursive semaphore hands its implicit slot out twice *)
Definition old_sem : semcfg := {| recursive := true; at_grant := false |}.
Definition extjs_schedule : list slabel := [SAcquire; SAcquire; SRelease; SAcquire; SWake].
