(* C06 (b) — cook scheduler: invariants of the transition system.

   [tstep] cuts the step function into six shapes of state change
   ([step_sound]).  What a step changes is stated once ([tstep_st] and the
   facts after it, [tstep_visible]); each invariant then looks at the node that
   moves only.  [unfinished_can_step]: the invariants leave a step enabled
   while a task is unfinished, by induction along what a task waits for. *)
From Coq Require Import List Arith Bool Lia.
Require BobV.Common.ListFacts.
Require Import BobV.C06.Model.
Import ListNotations.

Arguments st {T}.
Arguments free {T}.
Arguments lock {T}.
Arguments wasRun {T}.
Arguments failedW {T}.
Arguments out {T}.
Arguments running {T}.
Arguments awaiting {T}.
Arguments trace {T}.
Arguments mkState {T}.
Arguments set_st {T}.
Arguments set_free {T}.
Arguments set_lock {T}.
Arguments set_awaiting {T}.
Arguments add_event {T}.

Lemma upd_same : forall A (f : nat -> A) k v, upd f k v k = v.
Proof. intros. unfold upd. rewrite Nat.eqb_refl. reflexivity. Qed.
Lemma upd_other : forall A (f : nat -> A) k v x, x <> k -> upd f k v x = f x.
Proof. intros. unfold upd. destruct (Nat.eqb_spec x k); [contradiction|reflexivity]. Qed.

Lemma mem_In : forall x l, mem x l = true <-> In x l.
Proof. exact (ListFacts.existsb_eqb_In _ _ Nat.eqb_spec). Qed.

Lemma mem_false_In : forall x l, mem x l = false <-> ~ In x l.
Proof. intros. rewrite <- mem_In. symmetry. apply not_true_iff_false. Qed.

Lemma remove1_In : forall x w l, NoDup l -> (In x (remove1 w l) <-> In x l /\ x <> w).
Proof.
  intros x w l. induction l as [|y l IH]; intros ND; cbn.
  - split; [contradiction|intros (F & _); exact F].
  - inversion ND as [|? ? NI ND']; subst. destruct (Nat.eqb_spec y w) as [->|NE]; cbn; [|rewrite (IH ND')]; split.
    + intros I. split; [auto|]. intros ->. contradiction.
    + intros ([->|I] & N); [contradiction|exact I].
    + intros [->|(I & N)]; auto.
    + intros ([->|I] & N); auto.
Qed.

Lemma remove1_NoDup : forall w l, NoDup l -> NoDup (remove1 w l).
Proof.
  intros w l. induction l as [|y l IH]; intros ND; cbn; auto. inversion ND; subst.
  destruct (y =? w); auto. constructor; auto. rewrite remove1_In by assumption. intros (I & _). contradiction.
Qed.

Lemma remove1_length : forall w l, In w l -> S (length (remove1 w l)) = length l.
Proof.
  intros w l. induction l as [|y l IH]; intros I; cbn; [contradiction|].
  destruct (Nat.eqb_spec y w) as [->|NE]; auto. destruct I as [->|I]; [contradiction|].
  cbn. rewrite IH; auto.
Qed.

Lemma existsb_false_In : forall A (f : A -> bool) l, existsb f l = false -> forall x, In x l -> f x = false.
Proof.
  intros A f l H x I. apply not_true_is_false. intros E.
  rewrite (proj2 (existsb_exists f l)) in H by eauto. discriminate.
Qed.

Lemma forallb_false : forall A (f : A -> bool) l, forallb f l = false -> exists x, In x l /\ f x = false.
Proof.
  intros A f. induction l as [|a l IH]; cbn; [discriminate|]. destruct (f a) eqn:E; [|eauto].
  intros H. destruct (IH H) as (x & I & F). eauto.
Qed.

Lemma existsb_seq : forall (f : nat -> bool) n nn, n < nn -> f n = true -> existsb f (seq 0 nn) = true.
Proof. intros f n nn L F. apply existsb_exists. exists n. split; auto. apply in_seq. lia. Qed.

Section Monitor.
  Variables (C : cfg) (nn : nat) (once : bool).

  Lemma mon_run_snoc : forall tr m e,
    mon_run C nn once m (tr ++ [e]) =
    match mon_run C nn once m tr with Some m' => mon_step C nn once m' e | None => None end.
  Proof.
    induction tr as [|x tr IH]; intros m e; cbn.
    - destruct (mon_step C nn once m e); reflexivity.
    - destruct (mon_step C nn once m x); auto.
  Qed.

  Lemma mon_step_grows : forall m e m', mon_step C nn once m e = Some m' ->
    m_failed m' = (m_failed m || match e with EvEnd _ false => true | _ => false end) /\
    m_started m' = match e with EvStart w => w :: m_started m | _ => m_started m end.
  Proof.
    intros m [w|w ok] m' H; cbn [mon_step] in H.
    - destruct (start_ok C nn once m w); [|discriminate]. injection H as <-. cbn. rewrite orb_false_r. auto.
    - destruct (mem w (m_open m) && Bool.eqb ok (negb (failsW C w))); [|discriminate]. injection H as <-.
      destruct ok; cbn; rewrite ?orb_false_r; auto.
  Qed.

  Lemma mon_failed_mono : forall tr m m' w,
    mon_run C nn once m tr = Some m' -> (m_failed m = true \/ In (EvEnd w false) tr) -> m_failed m' = true.
  Proof.
    induction tr as [|e tr IH]; intros m m' w R H; cbn in R.
    - injection R as <-. destruct H; [auto|contradiction].
    - destruct (mon_step C nn once m e) as [m1|] eqn:MS; [|discriminate]. apply (IH m1 m' w R).
      apply mon_step_grows in MS as (F & _). rewrite F.
      destruct H as [H|[->|H]]; auto; left; [rewrite H; reflexivity|apply orb_true_r].
  Qed.

  Lemma mon_started_starts : forall tr m m',
    mon_run C nn once m tr = Some m' -> m_started m' = rev (starts tr) ++ m_started m.
  Proof.
    induction tr as [|e tr IH]; intros m m' R; cbn in R.
    - injection R as <-. reflexivity.
    - destruct (mon_step C nn once m e) as [m1|] eqn:MS; [|discriminate]. rewrite (IH m1 m' R).
      apply mon_step_grows in MS as (_ & S). rewrite S.
      destruct e; cbn [starts rev]; auto. rewrite <- app_assoc. reflexivity.
  Qed.
End Monitor.

(* the pcs from taking the workspace lock to giving it back: what [inv_lock] ties to the lock table *)
Definition holds_lock (p : pc) : bool :=
  match p with Want2 | WaitBid | Want3 | Running => true | _ => false end.
(* a task that exists and has not ended (the complement of the test in [final_upto]): whom [progress] promises a step *)
Definition nonfinal (p : pc) : bool :=
  match p with Absent | Done | Failed => false | _ => true end.

Section Sched.
  Variable T : Type.
  Variable run : nat -> list (option T) -> T.
  Variable C : cfg.

  Notation state := (state T).
  Notation step := (step T run C).
  Notation init := (init T C).
  Notation spawn1 := (spawn1 T C).
  Notation spawn_all := (spawn_all T C).

  Inductive reach : state -> Prop :=
  | r_init : reach init
  | r_step : forall s l s', reach s -> step s l = Some s' -> reach s'.

  Lemma init_st : forall n, st init n = if mem n (roots C) then Want0 else Absent.
  Proof. reflexivity. Qed.

  Lemma init_st_cases : forall n, st init n = Want0 \/ st init n = Absent.
  Proof. intros n. rewrite init_st. destruct (mem n (roots C)); auto. Qed.

  (* projections of a state that is written with the setters *)
  Ltac simp_s :=
    cbn [st free lock wasRun failedW out running awaiting trace
         set_st set_free set_lock set_awaiting add_event Model.start].

  Lemma spawn_all_cons : forall s d ds, spawn_all s (d :: ds) = spawn_all (spawn1 s d) ds.
  Proof. reflexivity. Qed.

  Lemma spawn1_cases : forall s d, spawn1 s d = s \/ exists p, spawn1 s d = set_st s d p.
  Proof. intros s d. unfold Model.spawn1. destruct (st s d); eauto. Qed.

  Lemma spawn_all_eq : forall ds s,
    spawn_all s ds = mkState (st (spawn_all s ds)) (free s) (lock s) (wasRun s) (failedW s) (out s)
                             (running s) (awaiting s) (trace s).
  Proof.
    induction ds as [|d ds IH]; intros s; [destruct s; reflexivity|].
    rewrite spawn_all_cons. etransitivity; [apply IH|].
    destruct (spawn1_cases s d) as [E|(p & E)]; rewrite E; reflexivity.
  Qed.

  Lemma spawn1_st : forall s d n,
    st (spawn1 s d) n = st s n \/
    (n = d /\ st s n = Absent /\ (st (spawn1 s d) n = Want0 \/ st (spawn1 s d) n = Fenced)).
  Proof.
    intros s d n. unfold Model.spawn1. destruct (st s d) eqn:E; auto.
    simp_s. unfold upd. destruct (Nat.eqb_spec n d) as [->|]; auto.
    right. destruct (match alt C d with Some a => in_table (st s a) | None => false end); auto.
  Qed.

  Lemma spawn1_spawned : forall s d, st (spawn1 s d) d <> Absent.
  Proof.
    intros s d. unfold Model.spawn1. destruct (st s d) eqn:E; try congruence.
    simp_s. rewrite upd_same. destruct (match alt C d with Some a => in_table (st s a) | None => false end); discriminate.
  Qed.

  Lemma spawn_all_st : forall ds s n,
    st (spawn_all s ds) n = st s n \/
    (In n ds /\ st s n = Absent /\ (st (spawn_all s ds) n = Want0 \/ st (spawn_all s ds) n = Fenced)).
  Proof.
    induction ds as [|d ds IH]; intros s n; [left; reflexivity|]. rewrite spawn_all_cons.
    destruct (IH (spawn1 s d) n) as [E'|(I & A' & W')], (spawn1_st s d n) as [E|(D & A & W)]; cbn [In].
    - left. congruence.
    - right. rewrite E'. auto.
    - right. rewrite <- E. auto.
    - destruct W; congruence.
  Qed.

  Lemma spawn_all_keep : forall ds s n, st s n <> Absent -> st (spawn_all s ds) n = st s n.
  Proof. intros ds s n H. destruct (spawn_all_st ds s n) as [E|(_ & A & _)]; [exact E|contradiction]. Qed.

  Lemma spawn_all_spawned : forall ds s d, In d ds -> st (spawn_all s ds) d <> Absent.
  Proof.
    induction ds as [|x ds IH]; intros s d H; [contradiction|]. rewrite spawn_all_cons.
    destruct H as [->|H]; [|apply IH; auto]. rewrite spawn_all_keep; apply spawn1_spawned.
  Qed.

  Local Opaque Model.spawn_all.

  Definition todo_of (s : state) (n : nat) : list nat :=
    filter (fun d => negb (wasRun s (ws C d))) (deps C n).

  (* moves that change the pc of n and nothing else; [unlock_move]: those that also give back the
     workspace lock.  Two relations, as [inv_lock] has a different argument for each. *)
  Inductive pc_move (s : state) (n : nat) : pc -> pc -> Prop :=
  | M_fence_ok : forall a, alt C n = Some a -> st s a = Done -> pc_move s n Fenced Want0
  | M_fence_fail : forall a, alt C n = Some a -> st s a = Failed -> pc_move s n Fenced Failed
  | M_cancel0 : 1 <= free s -> running s = false -> pc_move s n Want0 Failed
  | M_skip0 : 1 <= free s -> running s = true -> virt C n = false -> wasRun s (ws C n) = true -> pc_move s n Want0 Done
  | M_nodeps_virt : 1 <= free s -> running s = true -> todo_of s n = [] ->
                    virt C n = true -> pc_move s n Want0 Done
  | M_nodeps : 1 <= free s -> running s = true -> todo_of s n = [] ->
               virt C n = false -> pc_move s n Want0 WaitLock
  | M_deps : (forall d, In d (awaiting s n) -> finished (st s d) = true) -> pc_move s n WaitDeps Want1
  | M_cancel1 : 1 <= free s -> running s = false -> pc_move s n Want1 Failed
  | M_depfail : forall d, 1 <= free s -> running s = true -> In d (awaiting s n) -> st s d = Failed ->
                pc_move s n Want1 Failed
  | M_depsok_virt : 1 <= free s -> running s = true -> (forall d, In d (awaiting s n) -> st s d <> Failed) ->
                    virt C n = true -> pc_move s n Want1 Done
  | M_depsok : 1 <= free s -> running s = true -> (forall d, In d (awaiting s n) -> st s d <> Failed) ->
               virt C n = false -> pc_move s n Want1 WaitLock
  | M_bid : 1 <= free s -> running s = true -> (memfail C = true -> failedW s (ws C n) = false) ->
            wasRun s (ws C n) = false -> bid C n = true -> pc_move s n Want2 WaitBid
  | M_bidrun : 1 <= free s -> pc_move s n WaitBid Want3.

  Inductive unlock_move (s : state) (n : nat) : pc -> pc -> Prop :=
  | U_cancel2 : 1 <= free s -> running s = false -> unlock_move s n Want2 Failed
  | U_memfail : 1 <= free s -> running s = true -> memfail C = true -> failedW s (ws C n) = true ->
                unlock_move s n Want2 Failed
  | U_skip : 1 <= free s -> running s = true -> wasRun s (ws C n) = true -> unlock_move s n Want2 Done
  | U_cancel3 : 1 <= free s -> running s = false -> unlock_move s n Want3 Failed.

  (* the transition relation, one constructor per shape of state change
     (current protocol: yieldlock = true) *)
  Inductive tstep (s : state) : state -> Prop :=
  | T_pc : forall n p0 p, st s n = p0 -> pc_move s n p0 p -> tstep s (set_st s n p)
  | T_spawn : forall n, st s n = Want0 -> 1 <= free s -> running s = true ->
      todo_of s n <> [] ->
      tstep s (set_awaiting (set_st (spawn_all s (todo_of s n)) n WaitDeps) n (todo_of s n))
  | T_lock : forall n, st s n = WaitLock -> lock s (ws C n) = None ->
      tstep s (set_st (set_lock s (ws C n) (Some n)) n Want2)
  | T_unlock : forall n p0 p, st s n = p0 -> unlock_move s n p0 p ->
      tstep s (set_st (set_lock s (ws C n) None) n p)
  | T_start : forall n,
      (st s n = Want2 /\ bid C n = false /\ wasRun s (ws C n) = false /\
       (memfail C = true -> failedW s (ws C n) = false)) \/ st s n = Want3 ->
      1 <= free s -> running s = true ->
      tstep s (start T C s n)
  | T_finish : forall n, st s n = Running -> tstep s (finish T run C s n).

  Lemma finish_eq : forall s n,
    let w := ws C n in
    let ok := negb (failsW C w) in
    finish T run C s n =
    mkState (upd (st s) n (if ok then Done else Failed)) (S (free s)) (upd (lock s) w None)
            (if ok then upd (wasRun s) w true else wasRun s)
            (if ok then failedW s else upd (failedW s) w true)
            (if ok then upd (out s) w (Some (run w (map (fun d => out s (ws C d)) (deps C n)))) else out s)
            (if ok then running s else running s && keep C) (awaiting s) (EvEnd w ok :: trace s).
  Proof. intros. unfold Model.finish. subst w ok. destruct (failsW C (ws C n)); reflexivity. Qed.

  Lemma finish_st : forall s n, st (finish T run C s n) = upd (st s) n (if failsW C (ws C n) then Failed else Done).
  Proof. intros. rewrite finish_eq. destruct (failsW C (ws C n)); reflexivity. Qed.

  Lemma finish_lock : forall s n, lock (finish T run C s n) = upd (lock s) (ws C n) None.
  Proof. intros. unfold Model.finish. destruct (failsW C (ws C n)); reflexivity. Qed.

  Lemma pc_move_ends : forall s n p0 p, pc_move s n p0 p -> nonfinal p0 = true /\ p <> Absent /\ p <> Fenced.
  Proof. intros s n p0 p M. destruct M; repeat split; discriminate. Qed.

  Lemma unlock_move_ends : forall s n p0 p, unlock_move s n p0 p -> holds_lock p0 = true /\ holds_lock p = false.
  Proof. intros s n p0 p M. destruct M; auto. Qed.

  Lemma tstep_st : forall s s' x, tstep s s' ->
    st s' x = st s x \/
    (nonfinal (st s x) = true /\ st s' x <> Absent) \/
    (st s x = Absent /\ (st s' x = Want0 \/ st s' x = Fenced) /\ exists n, st s n <> Absent /\ In x (deps C n)).
  Proof.
    intros s s' x ST. destruct ST; rewrite ?finish_st; simp_s; unfold upd;
      (destruct (Nat.eqb_spec x n) as [->|NE]; [right; left; split|auto]); try discriminate.
    - rewrite H. apply (pc_move_ends _ _ _ _ H0).
    - apply (pc_move_ends _ _ _ _ H0).
    - rewrite H. reflexivity.
    - destruct (spawn_all_st (todo_of s n) s x) as [E|(I & A & W)]; auto.
      apply filter_In in I as (I & _). right. right. split; [exact A|split; [exact W|]].
      exists n. split; [congruence|exact I].
    - rewrite H. reflexivity.
    - rewrite H. destruct H0; reflexivity.
    - destruct H0; discriminate.
    - destruct H as [(H & _)|H]; rewrite H; reflexivity.
    - rewrite H. reflexivity.
    - destruct (failsW C (ws C n)); discriminate.
  Qed.

  Lemma tstep_final_stable : forall s s' x, tstep s s' -> finished (st s x) = true -> st s' x = st s x.
  Proof.
    intros s s' x ST F. destruct (tstep_st s s' x ST) as [E|[(NF & _)|(A & _)]]; auto.
    - destruct (st s x); discriminate.
    - rewrite A in F. discriminate.
  Qed.

  Lemma tstep_nonabsent : forall s s' x, tstep s s' -> st s x <> Absent -> st s' x <> Absent.
  Proof.
    intros s s' x ST F.
    destruct (tstep_st s s' x ST) as [E|[(_ & NA)|(A & _)]]; [rewrite E; exact F|exact NA|contradiction].
  Qed.

  Lemma tstep_wasRun_mono : forall s s' w, tstep s s' -> wasRun s w = true -> wasRun s' w = true.
  Proof.
    intros s s' w ST H. destruct ST; try rewrite spawn_all_eq; rewrite ?finish_eq; simp_s; auto.
    destruct (failsW C (ws C n)); cbn [negb]; auto. unfold upd. destruct (w =? ws C n); auto.
  Qed.

  Lemma tstep_awaiting : forall s s' x, tstep s s' -> st s x <> Want0 -> awaiting s' x = awaiting s x.
  Proof.
    intros s s' x ST H. destruct ST; try rewrite spawn_all_eq; rewrite ?finish_eq; simp_s; auto.
    apply upd_other. congruence.
  Qed.

  (* only the start and the end of a script change what the monitor and the
     contents see; every other step is silent *)
  Record silent (s s' : state) : Prop := {
    sl_free : free s' = free s;
    sl_wasRun : wasRun s' = wasRun s;
    sl_failedW : failedW s' = failedW s;
    sl_out : out s' = out s;
    sl_running : running s' = running s;
    sl_trace : trace s' = trace s;
    sl_st : forall x, st s' x = Running <-> st s x = Running
  }.

  Lemma upd_not_running : forall (f : nat -> pc) n p,
    f n <> Running -> p <> Running -> forall x, upd f n p x = Running <-> f x = Running.
  Proof.
    intros f n p A B x. unfold upd.
    destruct (Nat.eqb_spec x n) as [->|]; [split; intros; contradiction|reflexivity].
  Qed.

  Lemma tstep_visible : forall s s', tstep s s' ->
    silent s s' \/
    (exists n, s' = start T C s n /\ (st s n = Want2 \/ st s n = Want3) /\ 1 <= free s /\ running s = true) \/
    (exists n, s' = finish T run C s n /\ st s n = Running).
  Proof.
    intros s s' ST. destruct ST.
    - left. constructor; simp_s; auto. apply upd_not_running; [rewrite H|]; destruct H0; discriminate.
    - left. rewrite spawn_all_eq. constructor; simp_s; auto. intros x. rewrite upd_not_running; try discriminate.
      + destruct (spawn_all_st (todo_of s n) s x) as [E|(_ & A & [W|W])]; rewrite ?E, ?A, ?W; [reflexivity|split; discriminate..].
      + rewrite spawn_all_keep; congruence.
    - left. constructor; simp_s; auto. apply upd_not_running; [congruence|discriminate].
    - left. constructor; simp_s; auto. apply upd_not_running; [rewrite H|]; destruct H0; discriminate.
    - right. left. exists n. repeat split; auto. destruct H as [(H & _)|H]; auto.
    - right. right. eauto.
  Qed.

  Lemma start_needs_running : forall s s' w, tstep s s' -> trace s' = EvStart w :: trace s -> running s = true.
  Proof.
    intros s s' w ST TR. destruct (tstep_visible s s' ST) as [SL|[(n & _ & _ & _ & R)|(n & -> & _)]]; auto.
    - rewrite (sl_trace s s' SL) in TR. apply (f_equal (@length event)) in TR. cbn in TR. lia.
    - rewrite finish_eq in TR. discriminate.
  Qed.

  Definition inv_lock (s : state) : Prop :=
    (forall w n, lock s w = Some n -> ws C n = w /\ holds_lock (st s n) = true) /\
    (forall n, holds_lock (st s n) = true -> lock s (ws C n) = Some n).

  Lemma holder_unique : forall s x y,
    inv_lock s -> holds_lock (st s x) = true -> holds_lock (st s y) = true -> ws C x = ws C y -> x = y.
  Proof.
    intros s x y [_ L] Hx Hy E. apply L in Hx. apply L in Hy. rewrite E in Hx. congruence.
  Qed.

  Lemma upd_holds : forall (f : nat -> pc) n p,
    holds_lock p = holds_lock (f n) -> forall x, holds_lock (upd f n p x) = holds_lock (f x).
  Proof. intros f n p E x. unfold upd. destruct (Nat.eqb_spec x n) as [->|]; auto. Qed.

  Lemma inv_lock_same : forall s s',
    inv_lock s -> lock s' = lock s -> (forall x, holds_lock (st s' x) = holds_lock (st s x)) -> inv_lock s'.
  Proof.
    intros s s' [L1 L2] EL EH. split.
    - intros w n H. rewrite EL in H. rewrite EH. auto.
    - intros n H. rewrite EH in H. rewrite EL. auto.
  Qed.

  Lemma inv_lock_release : forall s s' n p,
    inv_lock s -> holds_lock (st s n) = true -> holds_lock p = false ->
    st s' = upd (st s) n p -> lock s' = upd (lock s) (ws C n) None -> inv_lock s'.
  Proof.
    intros s s' n p IL H0 Hp ES EL. pose proof IL as [L1 L2]. unfold inv_lock. rewrite ES, EL. split.
    - intros w x H. unfold upd in H. destruct (Nat.eqb_spec w (ws C n)); [discriminate|].
      destruct (L1 _ _ H) as [W HX]. rewrite upd_other; [auto|congruence].
    - intros x H. unfold upd in H. destruct (Nat.eqb_spec x n); [congruence|].
      rewrite upd_other; auto. intros EW. apply (holder_unique s x n) in EW; auto.
  Qed.

  Lemma spawn_all_holds : forall ds s x, holds_lock (st (spawn_all s ds) x) = holds_lock (st s x).
  Proof.
    intros ds s x. destruct (spawn_all_st ds s x) as [E|(_ & A & [W|W])]; rewrite ?E, ?A, ?W; reflexivity.
  Qed.

  Lemma inv_lock_step : forall s s', inv_lock s -> tstep s s' -> inv_lock s'.
  Proof.
    intros s s' IL ST. destruct ST.
    - apply inv_lock_same with (s := s); auto. apply upd_holds. subst p0. destruct H0; reflexivity.
    - rewrite spawn_all_eq. apply inv_lock_same with (s := s); auto. intros x. simp_s.
      rewrite upd_holds; rewrite spawn_all_holds; [|rewrite H]; reflexivity.
    - destruct IL as [L1 L2]. split; simp_s.
      + intros w x HL. unfold upd in HL. destruct (Nat.eqb_spec w (ws C n)) as [->|].
        * injection HL as <-. rewrite upd_same. auto.
        * destruct (L1 _ _ HL) as [W HX]. rewrite upd_other; [auto|]. intros ->. rewrite H in HX. discriminate.
      + intros x HX. unfold upd in HX. destruct (Nat.eqb_spec x n) as [E|NE]; [subst x; apply upd_same|].
        pose proof (L2 _ HX) as A. rewrite upd_other; [auto|congruence].
    - destruct (unlock_move_ends _ _ _ _ H0) as [A B].
      apply inv_lock_release with (s := s) (n := n) (p := p); auto. congruence.
    - apply inv_lock_same with (s := s); auto. apply upd_holds. destruct H as [(H & _)|H]; rewrite H; reflexivity.
    - apply inv_lock_release with (s := s) (n := n) (p := if failsW C (ws C n) then Failed else Done).
      + exact IL.
      + rewrite H. reflexivity.
      + destruct (failsW C (ws C n)); reflexivity.
      + apply finish_st.
      + apply finish_lock.
  Qed.

  (* from the check under the lock to the end of the script the workspace stays
     as the check found it: only the holder of its lock ends a script in it *)
  Definition past_check (p : pc) : bool :=
    match p with WaitBid | Want3 | Running => true | _ => false end.

  Definition unrun (s : state) (w : nat) : Prop :=
    wasRun s w = false /\ (memfail C = true -> failedW s w = false).

  Definition inv_held (s : state) : Prop := forall n, past_check (st s n) = true -> unrun s (ws C n).

  Lemma finish_unrun : forall s n w, w <> ws C n -> unrun s w -> unrun (finish T run C s n) w.
  Proof.
    intros s n w NE (A & B). rewrite finish_eq. destruct (failsW C (ws C n)); split; simp_s; cbn [negb]; rewrite ?upd_other; auto.
  Qed.

  Lemma inv_held_step : forall s s', inv_lock s -> inv_held s -> tstep s s' -> inv_held s'.
  Proof.
    intros s s' IL IH ST x. pose proof (IH x) as Hx.
    destruct ST; try rewrite spawn_all_eq; rewrite ?finish_st; simp_s;
      unfold upd at 1; (destruct (Nat.eqb_spec x n) as [E|NE]; [subst x|auto]); try discriminate.
    - destruct H0; try discriminate; intros _; [split; auto|apply Hx; rewrite H; reflexivity].
    - destruct (spawn_all_st (todo_of s n) s x) as [E|(_ & _ & [W|W])]; rewrite ?E, ?W; trivial; discriminate.
    - destruct H0; discriminate.
    - intros _. destruct H as [(_ & _ & A & B)|H]; [split; auto|apply Hx; rewrite H; reflexivity].
    - destruct (failsW C (ws C n)); discriminate.
    - (* another node ends its script: it holds a different lock *)
      intros P. apply finish_unrun; auto. intros EW. apply NE, (holder_unique s x n IL); auto.
      + destruct (st s x); try discriminate; reflexivity.
      + rewrite H. reflexivity.
  Qed.

  Hypothesis YL : yieldlock C = true.

  Lemma step_sound : forall s l s', step s l = Some s' -> tstep s s'.
  Proof.
    intros s l s' H.
    assert (TOK : forall o : option state, (if 1 <=? free s then o else None) = Some s' -> 1 <= free s /\ o = Some s').
    { intros o. destruct (Nat.leb_spec 1 (free s)); [auto|discriminate]. }
    destruct l; cbn [Model.step] in H; destruct (st s n) eqn:P; try discriminate H;
      try apply TOK in H as (F & H).
    - destruct (alt C n) as [a|] eqn:A; try discriminate.
      destruct (st s a) eqn:Pa; try discriminate; injection H as <-.
      + apply (T_pc s n _ _ P), (M_fence_ok s n a); assumption.
      + apply (T_pc s n _ _ P), (M_fence_fail s n a); assumption.
    - injection H as <-. unfold Model.after_tok0, Model.enter_lock. rewrite YL. fold (todo_of s n).
      destruct (running s) eqn:R; [|apply (T_pc s n _ _ P), M_cancel0; assumption]. cbn [negb].
      destruct (negb (virt C n) && wasRun s (ws C n)) eqn:W.
      { apply andb_prop in W as (V & W). apply negb_true_iff in V.
        apply (T_pc s n _ _ P), M_skip0; assumption. }
      destruct (todo_of s n) eqn:TD.
      + destruct (virt C n) eqn:V; [apply (T_pc s n _ _ P), M_nodeps_virt|apply (T_pc s n _ _ P), M_nodeps]; assumption.
      + rewrite <- TD. apply T_spawn; auto. rewrite TD. discriminate.
    - destruct (forallb _ _) eqn:F; [|discriminate]. injection H as <-.
      apply (T_pc s n _ _ P), M_deps. apply forallb_forall. exact F.
    - injection H as <-. unfold Model.enter_lock. rewrite YL.
      destruct (running s) eqn:R; [|apply (T_pc s n _ _ P), M_cancel1; assumption]. cbn [negb].
      destruct (existsb _ _) eqn:E.
      + apply existsb_exists in E as (d & I & Fd).
        apply (T_pc s n _ _ P), (M_depfail s n d); auto. destruct (st s d); try discriminate; reflexivity.
      + assert (NF : forall d, In d (awaiting s n) -> st s d <> Failed).
        { intros d I Fd. apply (existsb_false_In _ _ _ E) in I. rewrite Fd in I. discriminate. }
        destruct (virt C n) eqn:V; [apply (T_pc s n _ _ P), M_depsok_virt|apply (T_pc s n _ _ P), M_depsok]; assumption.
    - destruct (lock s (ws C n)) eqn:L; try discriminate.
      rewrite YL in H. injection H as <-. apply T_lock; assumption.
    - injection H as <-. unfold Model.after_lock. cbn [andb].
      destruct (running s) eqn:R; [|apply (T_unlock s n _ _ P), U_cancel2; assumption]. cbn [negb].
      destruct (memfail C && failedW s (ws C n)) eqn:MF.
      { apply andb_prop in MF. destruct MF. apply (T_unlock s n _ _ P), U_memfail; assumption. }
      destruct (wasRun s (ws C n)) eqn:W; [apply (T_unlock s n _ _ P), U_skip; assumption|].
      assert (MF' : memfail C = true -> failedW s (ws C n) = false) by (intros M; rewrite M in MF; exact MF).
      destruct (bid C n) eqn:B; [apply (T_pc s n _ _ P), M_bid; assumption|apply T_start; auto 6].
    - injection H as <-. apply (T_pc s n _ _ P), M_bidrun; assumption.
    - injection H as <-. destruct (running s) eqn:R; [apply T_start; auto|apply (T_unlock s n _ _ P), U_cancel3; assumption].
    - injection H as <-. apply T_finish; assumption.
  Qed.

  Lemma reach_ind' : forall (P : state -> Prop),
    P init -> (forall s s', reach s -> P s -> tstep s s' -> P s') -> forall s, reach s -> P s.
  Proof.
    intros P H0 HS s R. induction R; auto. eapply HS; eauto. eapply step_sound; eauto.
  Qed.

  Lemma reach_lock : forall s, reach s -> inv_lock s.
  Proof.
    apply reach_ind'; [|intros s s' _ I ST; eapply inv_lock_step; eauto].
    split; [discriminate|]. intros n. destruct (init_st_cases n) as [->| ->]; discriminate.
  Qed.

  Lemma reach_held : forall s, reach s -> inv_held s.
  Proof.
    apply reach_ind'; [|intros s s' R I ST; apply (inv_held_step s s'); auto using reach_lock].
    intros n. destruct (init_st_cases n) as [->| ->]; discriminate.
  Qed.

  Lemma root_present : forall s r, In r (roots C) -> reach s -> st s r <> Absent.
  Proof.
    intros s r Ir. revert s. apply reach_ind'; [|eauto using tstep_nonabsent].
    rewrite init_st, (proj2 (mem_In r (roots C)) Ir). discriminate.
  Qed.

  Variable nn : nat.

  Record wf : Prop := {
    wf_deps_lt : forall n d, In d (deps C n) -> d < n;
    wf_deps_nv : forall n d, In d (deps C n) -> virt C d = false;
    wf_alt_sym : forall n a, alt C n = Some a -> alt C a = Some n /\ a <> n;
    wf_alt_deps : forall n a d, alt C n = Some a -> In d (deps C a) -> d < n;
    wf_roots : forall r, In r (roots C) -> r < nn /\ virt C r = true;
    wf_jobs : 1 <= jobs C
  }.

  Hypothesis WF : wf.

  Definition deps_ran (s : state) (n : nat) : Prop :=
    forall d, In d (deps C n) -> wasRun s (ws C d) = true.

  Definition covers (s : state) (n : nat) : Prop :=
    (forall d, In d (deps C n) -> wasRun s (ws C d) = true \/ In d (awaiting s n)) /\
    (forall d, In d (awaiting s n) -> In d (deps C n) /\ st s d <> Absent).

  (* what the pc of a node certifies about its dependencies *)
  Definition cert (s : state) (n : nat) (p : pc) : Prop :=
    match p with
    | WaitDeps => covers s n
    | Want1 => covers s n /\ forall d, In d (awaiting s n) -> finished (st s d) = true
    | WaitLock | Want2 | WaitBid | Want3 | Running => virt C n = false /\ deps_ran s n
    | Done => if virt C n then deps_ran s n else wasRun s (ws C n) = true
    | Absent | Fenced | Want0 | Failed => True
    end.

  Definition inv_deps (s : state) : Prop := forall n, cert s n (st s n).

  Lemma holder_cert : forall s n,
    inv_deps s -> holds_lock (st s n) = true -> virt C n = false /\ deps_ran s n.
  Proof. intros s n I A. specialize (I n). destruct (st s n); try discriminate; exact I. Qed.

  Lemma cert_stable : forall s s' n p,
    tstep s s' -> awaiting s' n = awaiting s n -> cert s n p -> cert s' n p.
  Proof.
    intros s s' n p ST EA. pose proof (tstep_wasRun_mono s s') as MONO.
    assert (RAN : deps_ran s n -> deps_ran s' n) by (intros D d I; apply MONO; auto).
    assert (COV : covers s n -> covers s' n).
    { intros (A & B). unfold covers. rewrite EA. split; intros d I.
      - destruct (A d I); auto.
      - destruct (B d I) as (B1 & B2). split; [exact B1|]. apply (tstep_nonabsent s s' d ST B2). }
    destruct p; cbn [cert]; trivial; try (intros (V & D); auto; fail).
    - intros (CV & F). split; auto. rewrite EA. intros d I. rewrite (tstep_final_stable s s' d ST); auto.
    - destruct (virt C n); auto.
  Qed.

  Lemma todo_nil_all : forall s n, todo_of s n = [] -> deps_ran s n.
  Proof.
    intros s n E d I. apply not_false_is_true. intros W.
    assert (X : In d (todo_of s n)) by (apply filter_In; rewrite W; auto). rewrite E in X. contradiction.
  Qed.

  Lemma awaited_all_ran : forall s n,
    inv_deps s -> covers s n ->
    (forall d, In d (awaiting s n) -> finished (st s d) = true) ->
    (forall d, In d (awaiting s n) -> st s d <> Failed) -> deps_ran s n.
  Proof.
    intros s n I (A & _) F NF d Hd. destruct (A d Hd) as [R|Aw]; auto.
    specialize (F d Aw). specialize (NF d Aw). specialize (I d).
    destruct (st s d); try discriminate; [|congruence]. cbn in I. rewrite (wf_deps_nv WF n d Hd) in I. exact I.
  Qed.

  Lemma pc_move_cert : forall s n p0 p, inv_deps s -> cert s n p0 -> pc_move s n p0 p -> cert s n p.
  Proof.
    intros s n p0 p I Cn M. destruct M; cbn [cert] in *; auto.
    - rewrite H1. exact H2.
    - rewrite H2. apply todo_nil_all; auto.
    - split; auto using todo_nil_all.
    - rewrite H2. destruct Cn. apply awaited_all_ran; auto.
    - destruct Cn. split; auto. apply awaited_all_ran; auto.
  Qed.

  Lemma cert_frame : forall s s' x, inv_deps s -> tstep s s' -> st s' x = st s x -> cert s' x (st s' x).
  Proof.
    intros s s' x ID ST E. rewrite E.
    assert (W : st s x = Want0 \/ st s x <> Want0) by (destruct (st s x); auto; right; discriminate).
    destruct W as [W|W]; [rewrite W; exact I|].
    apply (cert_stable s s' x _ ST); auto using tstep_awaiting.
  Qed.

  (* for the mover, certify the new pc in the old state and carry that over *)
  Lemma inv_deps_step : forall s s', inv_deps s -> tstep s s' -> inv_deps s'.
  Proof.
    intros s s' ID ST x. pose proof (cert_frame s s' x ID ST) as FRAME.
    pose proof (cert_stable s s' x) as MOVE. specialize (fun p => MOVE p ST). pose proof (ID x) as Cx.
    destruct ST; [|rewrite spawn_all_eq in *| | | |rewrite finish_st in *];
      cbn [st awaiting set_st set_free set_lock set_awaiting add_event Model.start] in FRAME, MOVE |- *;
      unfold upd at 1; unfold upd in FRAME; (destruct (Nat.eqb_spec x n) as [E|NE]; [subst x|auto]).
    - apply MOVE; auto. apply pc_move_cert with (p0 := p0); auto. rewrite <- H. exact Cx.
    - split; simp_s; rewrite upd_same; intros d Hd.
      + destruct (wasRun s (ws C d)) eqn:WR; auto. right. apply filter_In. rewrite WR. auto.
      + pose proof (proj1 (filter_In _ _ _) Hd) as (Hd' & _). split; [exact Hd'|].
        rewrite upd_other; [apply spawn_all_spawned; exact Hd|]. apply Nat.lt_neq, (wf_deps_lt WF n d Hd').
    - destruct (spawn_all_st (todo_of s n) s x) as [E|(_ & _ & [W|W])]; auto; rewrite W; exact I.
    - apply MOVE; auto. rewrite H in Cx. exact Cx.
    - apply MOVE; auto. rewrite H in Cx. destruct H0; cbn [cert] in *; auto.
      destruct Cx as (V & _). rewrite V. assumption.
    - apply MOVE; auto. destruct H as [(H & _)|H]; rewrite H in Cx; exact Cx.
    - rewrite H in Cx. destruct Cx as (V & _). rewrite finish_eq.
      destruct (failsW C (ws C n)); cbn [cert]; auto. rewrite V. apply upd_same.
  Qed.

  Lemma reach_deps : forall s, reach s -> inv_deps s.
  Proof.
    apply reach_ind'; [|intros s s' _ I ST; eapply inv_deps_step; eauto].
    intros n. destruct (init_st_cases n) as [->| ->]; exact I.
  Qed.

  Definition fence_ok (f : nat -> pc) : Prop :=
    forall n, f n = Fenced -> exists a, alt C n = Some a /\ f a <> Absent /\ f a <> Fenced.
  Definition inv_fence (s : state) : Prop := fence_ok (st s).

  Lemma fence_ok_upd : forall f n p, fence_ok f -> p <> Absent /\ p <> Fenced -> fence_ok (upd f n p).
  Proof.
    intros f n p I (PA & PF) x F. unfold upd in F. destruct (x =? n); [congruence|].
    destruct (I x F) as (a & AL & NA & NF). exists a. split; trivial. unfold upd. destruct (a =? n); auto.
  Qed.

  Lemma fence_ok_spawn1 : forall s d, inv_fence s -> inv_fence (spawn1 s d).
  Proof.
    intros s d I. unfold inv_fence, Model.spawn1. destruct (st s d) eqn:A; auto.
    destruct (alt C d) as [a|] eqn:AL; [destruct (in_table (st s a)) eqn:IT|]; simp_s;
      try (apply fence_ok_upd; [exact I|split; discriminate]).
    (* d waits for the task a of its alternate key; a is not fenced itself, as its alternate d is absent *)
    destruct (wf_alt_sym WF _ _ AL) as (SY & NE).
    intros x F. unfold upd in F. destruct (Nat.eqb_spec x d) as [E|NE']; [subst x|].
    - exists a. rewrite upd_other by exact NE. repeat split; trivial.
      + intros X. rewrite X in IT. discriminate.
      + intros X. destruct (I a X) as (b & ALb & NAb & _). congruence.
    - destruct (I x F) as (b & ALb & NAb & NFb). exists b. rewrite upd_other; [auto|congruence].
  Qed.

  Lemma fence_ok_spawn_all : forall ds s, inv_fence s -> inv_fence (spawn_all s ds).
  Proof.
    induction ds as [|d ds IH]; intros s I; [exact I|]. rewrite spawn_all_cons. apply IH, fence_ok_spawn1, I.
  Qed.

  Lemma inv_fence_step : forall s s', inv_fence s -> tstep s s' -> inv_fence s'.
  Proof.
    intros s s' I ST. unfold inv_fence.
    destruct ST; rewrite ?finish_st; simp_s; apply fence_ok_upd; trivial; try (split; discriminate).
    - apply (pc_move_ends _ _ _ _ H0).
    - apply fence_ok_spawn_all, I.
    - destruct H0; split; discriminate.
    - destruct (failsW C (ws C n)); split; discriminate.
  Qed.

  Lemma reach_fence : forall s, reach s -> inv_fence s.
  Proof.
    apply reach_ind'; [|intros s s' _ I ST; eapply inv_fence_step; eauto].
    intros n F. destruct (init_st_cases n); congruence.
  Qed.

  Definition inv_bound (s : state) : Prop := forall n, st s n <> Absent -> n < nn.

  Lemma inv_bound_init : inv_bound init.
  Proof.
    intros n H. rewrite init_st in H. destruct (mem n (roots C)) eqn:E; [|congruence].
    apply mem_In in E. apply (wf_roots WF n E).
  Qed.

  Lemma inv_bound_step : forall s s', inv_bound s -> tstep s s' -> inv_bound s'.
  Proof.
    intros s s' I ST x NA. destruct (tstep_st s s' x ST) as [E|[(NF & _)|(_ & _ & n & Hn & D)]].
    - apply I. congruence.
    - apply I. intros A. rewrite A in NF. discriminate.
    - apply (Nat.lt_trans _ n); [apply (wf_deps_lt WF _ _ D)|apply I, Hn].
  Qed.

  Lemma reach_bound : forall s, reach s -> inv_bound s.
  Proof. apply reach_ind'; [apply inv_bound_init|]. intros s s' _ I ST. eapply inv_bound_step; eauto. Qed.

  (* whether the monitor may demand that no workspace is started twice: failures are remembered, or the
     first one stops the build ([workspace_once], [traces_accepted]) *)
  Definition once_flag : bool := memfail C || negb (keep C).

  Definition runs (s : state) (w : nat) : Prop := exists n, st s n = Running /\ ws C n = w.

  Lemma runs_silent : forall s s' w, silent s s' -> (runs s' w <-> runs s w).
  Proof.
    intros s s' w SL. split; intros (n & R & W); exists n; split; auto; apply (sl_st s s' SL); auto.
  Qed.

  Lemma runs_add : forall s s' n l,
    st s n <> Running -> st s' = upd (st s) n Running -> (forall w, In w l <-> runs s w) ->
    forall w, In w (ws C n :: l) <-> runs s' w.
  Proof.
    intros s s' n l NR ES K w. unfold runs. rewrite ES. split.
    - intros [<-|I]; [exists n; split; auto; apply upd_same|].
      apply K in I as (x & R & W). exists x. split; auto. rewrite upd_other; auto. congruence.
    - intros (x & R & W). unfold upd in R. destruct (Nat.eqb_spec x n) as [E|NE]; [left; congruence|].
      right. apply K. exists x. auto.
  Qed.

  Lemma runs_remove : forall s s' n p l,
    inv_lock s -> st s n = Running -> p <> Running -> st s' = upd (st s) n p ->
    NoDup l -> (forall w, In w l <-> runs s w) ->
    forall w, In w (remove1 (ws C n) l) <-> runs s' w.
  Proof.
    intros s s' n p l IL HR NR ES ND K w. unfold runs. rewrite ES. split.
    - intros I. apply remove1_In in I; auto. destruct I as (I & NE). apply K in I as (x & R & W).
      exists x. split; auto. rewrite upd_other; auto. congruence.
    - intros (x & R & W). unfold upd in R. destruct (Nat.eqb_spec x n) as [E|NE]; [contradiction|].
      apply remove1_In; auto. split; [apply K; exists x; auto|]. intros ->.
      apply NE, (holder_unique s x n IL); trivial; rewrite ?R, ?HR; reflexivity.
  Qed.

  (* the monitor state reached on the trace of s describes s *)
  Record link (s : state) (m : mon) : Prop := {
    k_open : forall w, In w (m_open m) <-> runs s w;
    k_nodup : NoDup (m_open m);
    k_free : free s + length (m_open m) = jobs C;
    k_ok : forall w, mem w (m_ok m) = wasRun s w;
    k_run : running s = (keep C || negb (m_failed m));
    k_started : forall w, In w (m_started m) -> In w (m_open m) \/ wasRun s w = true \/ failedW s w = true;
    k_failed : forall w, failedW s w = true -> m_failed m = true;
    k_once : once_flag = true -> NoDup (m_started m)
  }.

  Definition inv_mon (s : state) : Prop :=
    exists m, mon_run C nn once_flag mon_init (rev (trace s)) = Some m /\ link s m.

  Lemma inv_mon_init : inv_mon init.
  Proof.
    exists mon_init. split; [reflexivity|]. constructor; cbn; auto using NoDup_nil; try contradiction; try discriminate.
    - intros w. split; [contradiction|]. intros (n & R & _). destruct (init_st_cases n); congruence.
    - symmetry. apply orb_true_r.
  Qed.

  Lemma link_silent : forall s s' m, link s m -> silent s s' -> link s' m.
  Proof.
    intros s s' m [] SL. pose proof SL as [].
    constructor; rewrite ?sl_free0, ?sl_wasRun0, ?sl_failedW0, ?sl_running0; auto.
    intros w. rewrite k_open0. symmetry. apply runs_silent, SL.
  Qed.

  Lemma inv_mon_step : forall s s',
    inv_lock s -> inv_deps s -> inv_held s -> inv_bound s -> inv_mon s -> tstep s s' -> inv_mon s'.
  Proof.
    intros s s' IL ID IH IB (m & RUN & L) ST. pose proof (inv_held_step s s' IL IH ST) as IH'.
    pose proof L as [KO KD KF KK KR KS KL KN].
    destruct (tstep_visible s s' ST) as [SL|[(n & -> & HS & F & R)|(n & -> & HR)]].
    - exists m. split; [rewrite (sl_trace s s' SL); exact RUN|]. apply link_silent with (s := s); auto.
    - (* start: the workspace is not open (n holds its lock), has not been run, and
         where it matters has not been started before *)
      set (w := ws C n).
      assert (HL : holds_lock (st s n) = true) by (destruct HS as [H|H]; rewrite H; reflexivity).
      destruct (holder_cert s n ID HL) as (NV & DEPS).
      destruct (IH' n) as (WR & FW); [cbn; rewrite upd_same; reflexivity|]. cbn in WR, FW. fold w in WR, FW.
      assert (NOPEN : ~ In w (m_open m)).
      { intros I. apply KO in I as (n' & R' & W').
        assert (n' = n) by (apply (holder_unique s n' n IL); auto; rewrite R'; reflexivity).
        subst n'. destruct HS; congruence. }
      assert (NOTSTARTED : once_flag = true -> ~ In w (m_started m)).
      { intros O I. destruct (KS w I) as [X|[X|X]]; [contradiction|rewrite WR in X; discriminate|].
        (* w has failed: excluded if failures are remembered, and otherwise the build has stopped *)
        unfold once_flag in O. destruct (memfail C); [rewrite FW in X; auto; discriminate|].
        rewrite R, (KL w X) in KR. destruct (keep C); discriminate. }
      assert (SOK : start_ok C nn once_flag m w = true).
      { unfold start_ok. repeat (apply andb_true_intro; split).
        - apply Nat.ltb_lt. lia.
        - apply negb_true_iff, mem_false_In, NOPEN.
        - apply negb_true_iff. rewrite KK. exact WR.
        - destruct once_flag; auto. apply negb_true_iff, mem_false_In; auto.
        - rewrite <- KR. exact R.
        - apply existsb_seq with (n := n).
          + apply IB. intros A. rewrite A in HL. discriminate.
          + fold w. rewrite Nat.eqb_refl, NV. apply forallb_forall. intros d Hd. rewrite KK. auto. }
      eexists. split.
      + simp_s. cbn [rev]. rewrite mon_run_snoc, RUN. cbn [mon_step]. fold w. rewrite SOK. reflexivity.
      + constructor; simp_s; cbn [m_open m_ok m_started m_failed]; trivial.
        * apply (runs_add s _ n); auto. destruct HS; congruence.
        * constructor; auto.
        * cbn. lia.
        * intros w' [<-|I]; [left; left; reflexivity|]. destruct (KS w' I) as [X|X]; auto. left. right. auto.
        * intros O. constructor; auto.
    - set (w := ws C n).
      assert (OPEN : In w (m_open m)) by (apply KO; exists n; auto).
      rewrite finish_eq. cbv zeta. fold w. eexists. split.
      + simp_s. cbn [rev]. rewrite mon_run_snoc, RUN. cbn [mon_step].
        apply mem_In in OPEN. rewrite OPEN, eqb_reflx. reflexivity.
      + constructor; simp_s; cbn [m_open m_ok m_started m_failed].
        * apply (runs_remove s _ n (if negb (failsW C w) then Done else Failed)); auto.
          destruct (negb (failsW C w)); discriminate.
        * apply remove1_NoDup; auto.
        * pose proof (remove1_length w _ OPEN). lia.
        * intros w'. destruct (failsW C w); cbn [negb]; auto. unfold mem. cbn [existsb].
          fold (mem w' (m_ok m)). rewrite KK. unfold upd. destruct (w' =? w); reflexivity.
        * rewrite KR. destruct (failsW C w), (keep C), (m_failed m); reflexivity.
        * intros w' I. destruct (Nat.eq_dec w' w) as [->|NE].
          -- right. destruct (failsW C w); [right|left]; apply upd_same.
          -- destruct (KS w' I) as [X|[X|X]]; [left; apply remove1_In; auto|right..];
               destruct (failsW C w); cbn [negb]; rewrite ?upd_other; auto.
        * intros w' F. destruct (failsW C w); cbn [negb] in *;
            [apply orb_true_r|rewrite orb_false_r; exact (KL w' F)].
        * exact KN.
  Qed.

  Lemma reach_mon : forall s, reach s -> inv_mon s.
  Proof.
    apply reach_ind'; [apply inv_mon_init|]. intros s s' R I ST.
    apply (inv_mon_step s s' (reach_lock s R) (reach_deps s R) (reach_held s R) (reach_bound s R) I ST).
  Qed.

  (* scripts that run at the same time run in different workspaces, all of them open in the monitor *)
  Lemma running_bounded : forall s ns,
    inv_lock s -> inv_mon s -> NoDup ns -> (forall n, In n ns -> st s n = Running) ->
    length ns + free s <= jobs C.
  Proof.
    intros s ns IL (m & _ & L) ND ALL.
    assert (INJ : NoDup (map (ws C) ns)).
    { induction ND as [|x ns NI ND IH]; cbn; constructor; auto using in_cons.
      intros I. apply in_map_iff in I as (y & E & Iy).
      assert (y = x); [|congruence].
      apply (holder_unique s y x IL); auto; rewrite ALL; cbn; auto. }
    assert (INC : incl (map (ws C) ns) (m_open m)).
    { intros w I. apply in_map_iff in I as (y & E & Iy). apply (k_open s m L). exists y. auto. }
    pose proof (NoDup_incl_length INJ INC) as LE. rewrite map_length in LE.
    pose proof (k_free s m L). lia.
  Qed.

  Lemma started_once : forall s, inv_mon s -> once_flag = true -> NoDup (starts (rev (trace s))).
  Proof.
    intros s (m & RUN & L) OF. pose proof (k_once s m L OF) as ND.
    rewrite (mon_started_starts _ _ _ _ _ _ RUN), app_nil_r in ND.
    apply NoDup_rev in ND. rewrite rev_involutive in ND. exact ND.
  Qed.

  Lemma failed_stops : forall s w, inv_mon s -> keep C = false -> In (EvEnd w false) (trace s) -> running s = false.
  Proof.
    intros s w (m & RUN & L) K I.
    rewrite (k_run s m L), K, (mon_failed_mono _ _ _ _ _ _ w RUN); [reflexivity|]. right. apply in_rev in I. exact I.
  Qed.

  Notation spec := (spec T run C).

  Lemma spec_stable : forall n f, n < f -> spec f n = spec (S n) n.
  Proof.
    induction n as [n IH] using lt_wf_ind. intros f L. destruct f as [|f]; [lia|]. cbn [Model.spec].
    f_equal. f_equal. apply map_ext_in. intros d Hd. pose proof (wf_deps_lt WF _ _ Hd) as LT.
    rewrite (IH d LT f) by lia. rewrite (IH d LT n) by lia. reflexivity.
  Qed.

  (* task keys that share a workspace prescribe the same content for it (one step under several keys):
     without it [out], kept per workspace, could not agree with [spec], given per node ([inv_out]) *)
  Definition coherent : Prop :=
    forall n1 n2, ws C n1 = ws C n2 -> virt C n1 = false -> virt C n2 = false -> spec (S n1) n1 = spec (S n2) n2.

  Definition inv_out (s : state) : Prop :=
    forall n, virt C n = false -> wasRun s (ws C n) = true -> out s (ws C n) = spec (S n) n.

  Lemma inv_out_step : forall s s', coherent -> inv_deps s -> inv_out s -> tstep s s' -> inv_out s'.
  Proof.
    intros s s' COH ID IO ST. destruct (tstep_visible s s' ST) as [SL|[(n & -> & _)|(n & -> & HR)]].
    - intros x. rewrite (sl_wasRun s s' SL), (sl_out s s' SL). apply IO.
    - exact IO.
    - destruct (holder_cert s n ID) as (NV & DEPS); [rewrite HR; reflexivity|].
      intros x V. rewrite finish_eq. simp_s. destruct (failsW C (ws C n)); cbn [negb]; [apply IO; auto|].
      unfold upd. destruct (Nat.eqb_spec (ws C x) (ws C n)) as [E|NE]; [|apply IO; auto].
      (* the inputs read are the contents prescribed for the dependencies *)
      intros _. rewrite (COH x n E V NV). cbn [Model.spec]. f_equal. f_equal.
      apply map_ext_in. intros d Hd.
      rewrite (IO d (wf_deps_nv WF _ _ Hd) (DEPS d Hd)). symmetry. apply spec_stable, (wf_deps_lt WF _ _ Hd).
  Qed.

  Lemma reach_out : forall s, coherent -> reach s -> inv_out s.
  Proof.
    intros s COH. revert s. apply reach_ind'; [discriminate|].
    intros s s' R I ST. apply (inv_out_step s s' COH (reach_deps s R) I ST).
  Qed.

  (* [cone n d]: d is n or one of its transitive dependencies; [dirty n]: a script in the cone of n fails,
     the one reason for n to fail while the build goes on ([failure_confined]) *)
  Inductive cone : nat -> nat -> Prop :=
  | cone_refl : forall n, cone n n
  | cone_dep : forall n m d, In m (deps C n) -> cone m d -> cone n d.

  Definition dirty (n : nat) : Prop := exists d, cone n d /\ failsW C (ws C d) = true.

  (* a fenced task fails with the task of its alternate key ([M_fence_fail]), whose cone is not its own:
     the hypothesis under which that failure too has its reason in the task's cone *)
  Definition alt_dirty : Prop := forall n a, alt C n = Some a -> dirty a -> dirty n.

  (* the invariant behind [failure_confined], while no failure stops the build (keep-going, or nothing fails) *)
  Record inv_clean (s : state) : Prop := {
    c_running : running s = true;
    c_failed : forall n, st s n = Failed -> dirty n;
    c_failedW : forall w, failedW s w = true -> failsW C w = true
  }.

  Lemma dirty_self : forall n, failsW C (ws C n) = true -> dirty n.
  Proof. intros n F. exists n. split; auto. constructor. Qed.
  Lemma dirty_dep : forall n d, In d (deps C n) -> dirty d -> dirty n.
  Proof. intros n d I (x & Cx & F). exists x. split; auto. econstructor; eauto. Qed.

  Lemma inv_clean_step : forall s s',
    alt_dirty -> (keep C = true \/ forall w, failsW C w = false) ->
    inv_deps s -> inv_clean s -> tstep s s' -> inv_clean s'.
  Proof.
    intros s s' AD KN ID [CR CF CW] ST.
    assert (RW : running s' = true /\ forall w, failedW s' w = true -> failsW C w = true).
    { destruct (tstep_visible s s' ST) as [SL|[(n & -> & _)|(n & -> & _)]]; auto.
      - rewrite (sl_running s s' SL), (sl_failedW s s' SL). auto.
      - rewrite finish_eq. simp_s. destruct (failsW C (ws C n)) eqn:F; cbn [negb]; auto. split.
        + destruct KN as [K|K]; [rewrite K, CR; reflexivity|]. rewrite K in F. discriminate.
        + intros w. unfold upd. destruct (Nat.eqb_spec w (ws C n)) as [->|]; auto. }
    destruct RW as (R' & W'). constructor; auto.
    intros x. destruct ST; try rewrite spawn_all_eq; rewrite ?finish_st; simp_s;
      unfold upd at 1; (destruct (Nat.eqb_spec x n) as [E|NE]; [subst x|auto]); try discriminate.
    - (* a task fails without running its script: cancelled, or because of the alternate key or a dependency *)
      pose proof (ID n) as Cn. destruct H0; try discriminate; intros _; try congruence.
      + apply (AD n a); auto.
      + rewrite H in Cn. destruct Cn as ((_ & B) & _). apply (dirty_dep n d); [apply (B d)|apply CF]; assumption.
    - destruct (spawn_all_st (todo_of s n) s x) as [E|(_ & _ & [W|W])]; rewrite ?E, ?W; auto; discriminate.
    - destruct H0; try discriminate; intros _; try congruence. apply dirty_self. auto.
    - destruct (failsW C (ws C n)) eqn:F; [intros _; apply dirty_self, F|discriminate].
  Qed.

  Lemma reach_clean : forall s,
    alt_dirty -> (keep C = true \/ forall w, failsW C w = false) -> reach s -> inv_clean s.
  Proof.
    intros s AD KN. revert s. apply reach_ind'.
    - constructor; try discriminate; auto. intros n F. destruct (init_st_cases n); congruence.
    - intros s s' R I ST. apply (inv_clean_step s s' AD KN (reach_deps s R) I ST).
  Qed.

  Definition wants_token (p : pc) : bool :=
    match p with Want0 | Want1 | Want2 | WaitBid | Want3 => true | _ => false end.

  Definition can_step (s : state) : Prop := exists l s', step s l = Some s'.

  Lemma finish_enabled : forall s n, st s n = Running -> can_step s.
  Proof. intros s n P. exists (LFinish n). eexists. cbn [Model.step]. rewrite P. reflexivity. Qed.

  Lemma take_enabled : forall s n, 1 <= free s -> wants_token (st s n) = true -> can_step s.
  Proof.
    intros s n F%Nat.leb_le W. destruct (st s n) eqn:P; try discriminate;
      [exists (LTake0 n)|exists (LTake1 n)|exists (LTake2 n)|exists (LBid n)|exists (LTake3 n)];
      eexists; cbn [Model.step]; rewrite P, F; reflexivity.
  Qed.

  (* a task that waits for no other task can move, or a script can end, or the
     holder of the lock it waits for can move *)
  Lemma active_moves : forall s n, inv_lock s -> inv_mon s ->
    nonfinal (st s n) = true -> st s n <> Fenced -> st s n <> WaitDeps -> can_step s.
  Proof.
    intros s n [L1 _] (m & _ & L) NF NFe NW.
    (* all tokens are in the pipe unless a script runs *)
    destruct (m_open m) as [|w r] eqn:O.
    2:{ destruct (proj1 (k_open s m L w)) as (x & Rx & _); [rewrite O; left; reflexivity|]. apply (finish_enabled s x Rx). }
    assert (FREE : 1 <= free s).
    { pose proof (k_free s m L) as KF. rewrite O in KF. cbn in KF. pose proof (wf_jobs WF). lia. }
    destruct (st s n) eqn:P; try discriminate; try congruence;
      try (apply (take_enabled s n FREE); rewrite P; reflexivity); [|apply (finish_enabled s n P)].
    destruct (lock s (ws C n)) as [h|] eqn:LK.
    - destruct (L1 _ _ LK) as (_ & HH). destruct (st s h) eqn:Ph; try discriminate;
        try (apply (take_enabled s h FREE); rewrite Ph; reflexivity). apply (finish_enabled s h Ph).
    - exists (LLock n). eexists. cbn [Model.step]. rewrite P, LK, YL. reflexivity.
  Qed.

  (* a task waits only for tasks with smaller numbers (or, fenced, for its alternate,
     which does): by induction a step is enabled below every unfinished task *)
  Lemma unfinished_can_step : forall s,
    inv_lock s -> inv_deps s -> inv_fence s -> inv_mon s -> forall n, nonfinal (st s n) = true -> can_step s.
  Proof.
    intros s IL ID IF IM. induction n as [n IHn] using lt_wf_ind. intros NF.
    assert (GATHER : forall x, st s x = WaitDeps -> (forall d, In d (deps C x) -> d < n) -> can_step s).
    { intros x P LT. destruct (forallb (fun d => finished (st s d)) (awaiting s x)) eqn:F.
      - exists (LDeps x). eexists. cbn [Model.step]. rewrite P, F. reflexivity.
      - apply forallb_false in F as (d & Id & Fd). pose proof (ID x) as Cx. rewrite P in Cx.
        destruct (proj2 Cx d Id) as (Dd & NA). apply (IHn d (LT d Dd)).
        destruct (st s d); try discriminate; auto; congruence. }
    destruct (st s n) eqn:P; try discriminate NF;
      try (apply (active_moves s n IL IM); rewrite P; [reflexivity|discriminate..]).
    - destruct (IF n P) as (a & AL & NA & NFa). destruct (nonfinal (st s a)) eqn:NFA.
      + destruct (st s a) eqn:Pa; try congruence; try discriminate;
          try (apply (active_moves s a IL IM); rewrite Pa; [reflexivity|discriminate..]).
        apply (GATHER a Pa). intros d Hd. apply (wf_alt_deps WF n a d AL Hd).
      + exists (LFence n). cbn [Model.step]. rewrite P, AL.
        destruct (st s a); try discriminate; try congruence; eexists; reflexivity.
    - apply (GATHER n P). intros d Hd. apply (wf_deps_lt WF _ _ Hd).
  Qed.

  Definition terminal (s : state) : Prop := forall l, step s l = None.

  Lemma terminal_all_final : forall s n, reach s -> terminal s -> nonfinal (st s n) = false.
  Proof.
    intros s n R TM. apply not_true_is_false. intros E.
    destruct (unfinished_can_step s (reach_lock s R) (reach_deps s R) (reach_fence s R) (reach_mon s R) n E)
      as (l & s' & ST).
    rewrite (TM l) in ST. discriminate.
  Qed.

  Lemma terminal_done : forall s n,
    alt_dirty -> (keep C = true \/ forall w, failsW C w = false) ->
    reach s -> terminal s -> st s n <> Absent -> ~ dirty n -> st s n = Done.
  Proof.
    intros s n AD KN R TM NA ND. pose proof (terminal_all_final s n R TM) as F.
    destruct (st s n) eqn:E; try discriminate; auto; try congruence.
    destruct (ND (c_failed s (reach_clean s AD KN R) n E)).
  Qed.

  Lemma terminal_results : forall s r d,
    coherent -> alt_dirty -> (keep C = true \/ forall w, failsW C w = false) ->
    reach s -> terminal s -> In r (roots C) -> ~ dirty r -> In d (deps C r) ->
    wasRun s (ws C d) = true /\ out s (ws C d) = spec (S d) d.
  Proof.
    intros s r d COH AD KN R TM Ir ND Id. pose proof (reach_deps s R r) as X.
    rewrite (terminal_done s r AD KN R TM (root_present s r Ir R) ND) in X. cbn in X.
    rewrite (proj2 (wf_roots WF r Ir)) in X.
    split; auto. apply (reach_out s COH R d (wf_deps_nv WF _ _ Id)). auto.
  Qed.

End Sched.

Lemma cfg_wf_sound : forall C nn,
  cfg_wf C nn = true -> (forall n, nn <= n -> deps C n = [] /\ alt C n = None) -> wf C nn.
Proof.
  intros C nn H BEY. unfold cfg_wf in H. apply andb_prop in H as [[NODE RT]%andb_prop J].
  rewrite forallb_forall in NODE, RT.
  assert (N : forall n,
    (forall d, In d (deps C n) -> d < n /\ virt C d = false) /\
    (forall a, alt C n = Some a -> (alt C a = Some n /\ a <> n) /\ forall d, In d (deps C a) -> d < n)).
  { intros n. destruct (Nat.lt_ge_cases n nn) as [L|G].
    - assert (I : In n (seq 0 nn)) by (apply in_seq; lia).
      apply NODE, andb_prop in I as (D & A). rewrite forallb_forall in D. split.
      + intros d I. apply D, andb_prop in I as [I1%Nat.ltb_lt I2%negb_true_iff]. auto.
      + intros a E. rewrite E in A. apply andb_prop in A as [[[_ A2]%andb_prop A3]%andb_prop A4].
        rewrite forallb_forall in A4.
        destruct (alt C a); [|discriminate]. apply Nat.eqb_eq in A3. subst.
        rewrite negb_true_iff, Nat.eqb_neq in A2. repeat split; auto. intros d I. apply Nat.ltb_lt; auto.
    - destruct (BEY n G) as (E1 & E2). rewrite E1, E2. split; [contradiction|discriminate]. }
  constructor.
  - intros n d I. apply (N n), I.
  - intros n d I. apply (N n), I.
  - intros n a A. apply (N n), A.
  - intros n a d A. apply (proj2 (N n) a A).
  - intros r I. apply RT, andb_true_iff in I. rewrite Nat.ltb_lt in I. exact I.
  - apply Nat.leb_le, J.
Qed.

Lemma mk_cfg_wf : forall nodes failing rts j kp yl mf,
  cfg_wf (mk_cfg nodes failing rts j kp yl mf) (length nodes) = true ->
  wf (mk_cfg nodes failing rts j kp yl mf) (length nodes).
Proof. intros. apply cfg_wf_sound; auto. intros n L. cbn. rewrite nth_overflow; auto. Qed.
