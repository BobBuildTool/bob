(* C06 — executions given as label lists, and the concrete configurations and
   schedules of the witnesses (refutations of the old protocols, non-vacuity). *)
From Coq Require Import List Arith Bool NArith.
Require Export BobV.C06.Model BobV.C06.ProofsSem BobV.C06.ProofsSched.
Import ListNotations.

(* a run that is evaluated: its result need not be written down *)
Lemma ex_some : forall A (o : option A) (P : A -> Prop),
  match o with Some a => P a | None => False end -> exists a, o = Some a /\ P a.
Proof. intros A [a|] P H; [eauto|contradiction]. Qed.

Lemma ex_some2 : forall A (o1 o2 : option A) (P : A -> A -> Prop),
  match o1, o2 with Some a, Some b => P a b | _, _ => False end ->
  exists a b, o1 = Some a /\ o2 = Some b /\ P a b.
Proof. intros A [a|] [b|] P H; try contradiction; eauto. Qed.

Lemma sem_exec_reach : forall c p0 ls s s',
  sreach c p0 s -> sem_exec c s ls = Some s' -> sreach c p0 s'.
Proof.
  intros c p0 ls. induction ls as [|l ls IH]; intros s s' R E; cbn in E.
  - injection E as <-. exact R.
  - destruct (sem_step c s l) eqn:S; try discriminate.
    + apply (IH s0 s'); auto. econstructor; eauto.
    + apply (IH s s'); auto.
Qed.

Lemma exec_reach : forall T run C ls s s',
  reach T run C s -> exec T run C s ls = Some s' -> reach T run C s'.
Proof.
  intros T run C ls. induction ls as [|l ls IH]; intros s s' R E; cbn in E.
  - injection E as <-. exact R.
  - destruct (step T run C s l) eqn:S; try discriminate. apply (IH s0 s'); auto. econstructor; eauto.
Qed.

(* F7: one workspace (10) reached under three sandboxes = three task keys
   0,1,2; build step (Build-Id computed under the lock); node 3 = dispatcher
   task; two job tokens. *)
Definition f7_nodes : list nodeinfo :=
  [ mkNode 10 [] None false true; mkNode 10 [] None false true; mkNode 10 [] None false true;
    mkNode 99 [0; 1; 2] None true false ].
Definition f7_cfg (yl : bool) : cfg := mk_cfg f7_nodes [] [3] 2 false yl false.
(* old protocol: the two tokens are parked at the workspace lock, the holder
   of the lock waits for a token for its Build-Id sub-task: nothing is enabled *)
Definition f7_schedule : list label := [LTake0 3; LTake0 0; LLock 0; LTake0 1; LTake0 2].

(* the same prefix under the current protocol goes on to the end *)
Definition f7_schedule_new : list label :=
  [LTake0 3; LTake0 0; LLock 0; LTake0 1; LTake0 2; LTake2 0; LBid 0; LTake3 0; LFinish 0;
   LLock 1; LTake2 1; LLock 2; LTake2 2; LDeps 3; LTake1 3].

(* keep-going: a failing workspace reached under two task keys is started twice *)
Definition kg_nodes : list nodeinfo :=
  [ mkNode 10 [] None false false; mkNode 10 [] None false false; mkNode 99 [0; 1] None true false ].
Definition kg_cfg (mf : bool) : cfg := mk_cfg kg_nodes [10] [2] 2 true true mf.
Definition kg_schedule : list label :=
  [LTake0 2; LTake0 0; LLock 0; LTake2 0; LTake0 1; LFinish 0; LLock 1; LTake2 1].

(* a diamond: d(0) <- b(1), c(2) <- a(3), dispatcher 4; two complete
   executions with different schedules and job counts *)
Definition dia_nodes : list nodeinfo :=
  [ mkNode 10 [] None false false; mkNode 11 [0] None false true; mkNode 12 [0] None false false;
    mkNode 13 [1; 2] None false true; mkNode 99 [3] None true false ].
Definition dia_cfg (j : nat) : cfg := mk_cfg dia_nodes [] [4] j false true false.

Definition dia_seq : list label :=       (* -j1: strictly one after the other *)
  [LTake0 4; LTake0 3; LTake0 1; LTake0 0; LLock 0; LTake2 0; LFinish 0; LTake0 2; LDeps 1; LTake1 1; LLock 1;
   LTake2 1; LBid 1; LTake3 1; LFinish 1; LLock 2; LTake2 2; LFinish 2; LDeps 3; LTake1 3; LLock 3; LTake2 3;
   LBid 3; LTake3 3; LFinish 3; LDeps 4; LTake1 4].
Definition dia_par : list label :=       (* -j2: b and c run concurrently, c finishes first *)
  [LTake0 4; LTake0 3; LTake0 2; LTake0 1; LTake0 0; LLock 0; LTake2 0; LFinish 0; LDeps 2; LDeps 1; LTake1 2;
   LTake1 1; LLock 2; LLock 1; LTake2 1; LTake2 2; LBid 1; LFinish 2; LTake3 1; LFinish 1; LDeps 3; LTake1 3;
   LLock 3; LTake2 3; LBid 3; LTake3 3; LFinish 3; LDeps 4; LTake1 4].

Definition new_sem (r : bool) : semcfg := {| recursive := r; at_grant := true |}.

(* two tokens 7,8; three tasks; the third blocks, is handed the slot of the
   first, a child process borrows and returns a token *)
Definition sem_demo : list slabel :=
  [SAcquire; SAcquire; SAcquire; SRelease; SWake; SRelease; SExtTake; SExtPut 0; SRelease].
