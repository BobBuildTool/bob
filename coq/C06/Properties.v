(* C06 — property theorems and non-vacuity examples; each follows in a few
   lines from the invariants of ProofsSem.v and ProofsSched.v.

   (a) JobServerSemaphore (pym/bob/builder.py) as a transition system over any
       number of tasks and tokens; [sreach c p0 s]: s is reachable from the
       initial state with pipe content p0 by any sequence of acquire /
       reader-callback / wake / release / foreign take and put.
   (b) the cook scheduler as a transition system over any dependency graph;
       [reach T run C s]: s is reachable by any interleaving. *)
From Coq Require Import List Arith Bool NArith Lia Permutation.
Require Import BobV.C06.Model BobV.C06.Proofs.
Import ListNotations.

(* No token is lost or duplicated: pipe, token stack and the tokens held by the
   other processes sharing the pipe are always a permutation of the initial
   pipe content.  (Holds for both accounting protocols.) *)
Theorem tokens_conserved : forall c p0 s,
  sreach c p0 s -> Permutation (pipe s ++ tokens s ++ ext s) p0.
Proof.
  intros c p0 s R. induction R as [|s l s' R IH H]; [|exact (Permutation_trans (perm_step c s l s' H) IH)].
  cbn. rewrite app_nil_r. reflexivity.
Qed.

(* Slots in use (tasks inside plus granted-but-not-resumed wake-ups) are exactly
   __acquired and never exceed the tokens held, plus the implicit slot in
   recursive mode; the tokens held never exceed the initial pipe content. *)
Theorem acquired_bounded : forall c p0 s,
  at_grant c = true -> sreach c p0 s ->
  inside s + grants s = acquired s /\
  acquired s <= length (tokens s) + implicit c /\
  length (tokens s) <= length p0.
Proof.
  intros c p0 s AG R. destruct (sreach_inv _ _ _ AG R) as [_ _ Ha Ht _].
  pose proof (Permutation_length (tokens_conserved c p0 s R)) as Hp. rewrite !app_length in Hp. lia.
Qed.

(* When no task is inside and no wake-up is pending every token has been
   written back: nothing is kept, and pipe + foreign holders have them all. *)
Theorem quiescent_all_returned : forall c p0 s,
  at_grant c = true -> sreach c p0 s -> inside s = 0 -> grants s = 0 ->
  acquired s = 0 /\ tokens s = [] /\ Permutation (pipe s ++ ext s) p0.
Proof.
  intros c p0 s AG R I G. destruct (sreach_inv _ _ _ AG R) as [_ _ Ha Ht _].
  assert (T : tokens s = []) by (apply length_zero_iff_nil; lia).
  pose proof (tokens_conserved c p0 s R) as Hp. rewrite T in Hp. split; [lia|auto].
Qed.

(* release() without a matching acquire() is rejected (ValueError) ... *)
Theorem release_without_acquire_rejected : forall c s,
  acquired s = 0 -> sem_step c s SRelease = SRejected.
Proof. intros c s A. cbn. rewrite A. reflexivity. Qed.

(* ... and a release() in a reachable state never pops from an empty token stack. *)
Theorem release_never_crashes : forall c p0 s,
  at_grant c = true -> sreach c p0 s -> sem_step c s SRelease <> SCrash.
Proof.
  intros c p0 s AG R. destruct (sreach_inv _ _ _ AG R) as [_ _ _ Ht _]. unfold implicit in Ht.
  cbn [sem_step]. destruct (acquired s) as [|a']; [discriminate|].
  destruct (inside s); [discriminate|]. destruct (waiters s); [|discriminate].
  destruct (negb (recursive c) || (1 <? S a')) eqn:Cnd; [|discriminate].
  rewrite <- (rev_involutive (tokens s)) in Ht. destruct (rev (tokens s)); [|discriminate].
  (* the stack is empty although a slot other than the implicit one is taken *)
  destruct (recursive c); cbn [negb orb] in Cnd; [apply Nat.ltb_lt in Cnd|]; cbn in Ht; lia.
Qed.

(* No lost wake-up: a blocked task is either already granted a slot (and can
   resume), or counted as waiter with the pipe reader registered, and then a
   token arriving in the pipe is turned into a grant by the callback. *)
Theorem no_lost_wakeup : forall c p0 s,
  at_grant c = true -> sreach c p0 s ->
  blocked s = waiters s + grants s /\
  (waiters s > 0 -> reader s = true /\
     (pipe s <> [] -> exists s', sem_step c s SCallback = SOk s' /\ grants s' > grants s /\ blocked s' = blocked s)) /\
  (grants s > 0 -> exists s', sem_step c s SWake = SOk s' /\ inside s' = S (inside s)).
Proof.
  intros c p0 s AG R. destruct (sreach_inv _ _ _ AG R) as [Hb Hr _ _ _].
  split; [exact Hb|]. split.
  - intros W. assert (RD : reader s = true) by (rewrite Hr; destruct (waiters s); [lia|reflexivity]).
    split; [exact RD|]. intros P. cbn. rewrite RD, AG.
    destruct (cb_loop_spec true (waiters s) (pipe s) (tokens s) (grants s) (acquired s))
      as (k & w' & p' & t' & E & _ & _ & _ & Hk0).
    rewrite E. eexists. split; [reflexivity|]. cbn. split; [|reflexivity].
    destruct k; [|lia]. destruct Hk0; [reflexivity|lia|contradiction].
  - intros G. cbn. destruct (grants s), (blocked s); try lia. eexists. split; reflexivity.
Qed.

(* Documentation of why commit 0a01ba7 was needed: with the slot accounted only
   when the waiter resumes, a recursive semaphore on an empty pipe lets two
   tasks in on the single implicit slot and the next release() raises IndexError. *)
Theorem acquired_accounting_old_protocol_refuted :
  exists s, sem_exec old_sem (sem_init []) extjs_schedule = Some s /\
            inside s = 2 /\ tokens s = [] /\ pipe s = [] /\
            sem_step old_sem s SRelease = SCrash.
Proof. apply ex_some. vm_compute. repeat apply conj; reflexivity. Qed.

(* Never more scripts run than there are job tokens. *)
Theorem jobs_bounded : forall T run C nn,
  yieldlock C = true -> wf C nn ->
  forall (s : state T) ns, reach T run C s -> NoDup ns -> (forall n, In n ns -> st s n = Running) ->
  length ns + free s <= jobs C.
Proof.
  intros T run C nn YL WF s ns R. apply (running_bounded T C nn); eauto using reach_lock, reach_mon.
Qed.

(* A script runs only when every dependency has finished successfully ... *)
Theorem deps_before_start : forall T run C nn,
  yieldlock C = true -> wf C nn ->
  forall (s : state T) n, reach T run C s -> st s n = Running ->
  virt C n = false /\ forall d, In d (deps C n) -> wasRun s (ws C d) = true.
Proof.
  intros T run C nn YL WF s n R H.
  apply (holder_cert T C); [apply (reach_deps T run C YL nn WF s R)|rewrite H; reflexivity].
Qed.

(* ... and then reads exactly the contents the dependency graph prescribes. *)
Theorem deps_contents : forall T run C nn,
  yieldlock C = true -> wf C nn ->
  forall (s : state T) n d, coherent T run C -> reach T run C s -> st s n = Running ->
  In d (deps C n) -> out s (ws C d) = spec T run C (S d) d.
Proof.
  intros T run C nn YL WF s n d COH R H I.
  destruct (deps_before_start T run C nn YL WF s n R H) as (_ & D).
  apply (reach_out T run C YL nn WF s COH R d (wf_deps_nv C nn WF _ _ I) (D d I)).
Qed.

(* No workspace is executed by two jobs at once. *)
Theorem workspace_exclusive : forall T run C,
  yieldlock C = true ->
  forall (s : state T) n1 n2, reach T run C s ->
  st s n1 = Running -> st s n2 = Running -> ws C n1 = ws C n2 -> n1 = n2.
Proof.
  intros T run C YL s n1 n2 R R1 R2. apply (holder_unique T C s n1 n2 (reach_lock T run C YL s R)).
  - rewrite R1. reflexivity.
  - rewrite R2. reflexivity.
Qed.

(* No workspace is executed twice: a script never runs in a workspace that has
   been run successfully (and that stays so), and -- with failed workspaces
   remembered (memfail, the current code) or when a failure stops the build (no
   keep-going) -- no workspace is started twice at all. *)
Theorem workspace_once : forall T run C nn,
  yieldlock C = true -> wf C nn ->
  forall (s : state T), reach T run C s ->
  (forall n, st s n = Running -> wasRun s (ws C n) = false) /\
  (forall l s' w, step T run C s l = Some s' -> wasRun s w = true -> wasRun s' w = true) /\
  (memfail C = true \/ keep C = false -> NoDup (starts (rev (trace s)))).
Proof.
  intros T run C nn YL WF s R. split; [|split].
  - intros n H. apply (reach_held T run C YL s R n). rewrite H. reflexivity.
  - intros l s' w ST. apply (tstep_wasRun_mono T run C s s' w), (step_sound T run C YL s l s' ST).
  - intros O. apply (started_once T C nn s (reach_mon T run C YL nn WF s R)).
    unfold once_flag. destruct O as [O|O]; rewrite O; auto using orb_true_r.
Qed.

(* Documentation of why __failedWorkspaces (commit 475b4f9, finding F31) was
   needed: with keep-going and without remembering failures (memfail = false)
   a failing workspace that is reached under two task keys is started twice. *)
Theorem workspace_once_old_protocol_refuted :
  exists s, exec tree run_tree (kg_cfg false) (init tree (kg_cfg false)) kg_schedule = Some s /\
            starts (rev (trace s)) = [10; 10].
Proof. apply ex_some. vm_compute. repeat apply conj; reflexivity. Qed.

(* Without keep-going a failure stops the build: nothing is started any more. *)
Theorem failure_stops : forall T run C nn,
  yieldlock C = true -> wf C nn -> keep C = false ->
  forall (s : state T) w, reach T run C s -> In (EvEnd w false) (trace s) ->
  running s = false /\
  forall l s' w', step T run C s l = Some s' -> trace s' <> EvStart w' :: trace s.
Proof.
  intros T run C nn YL WF K s w R I.
  pose proof (failed_stops T C nn s w (reach_mon T run C YL nn WF s R) K I) as RF. split; trivial.
  intros l s' w' ST TR. apply (step_sound T run C YL) in ST.
  rewrite (start_needs_running T run C s s' w' ST TR) in RF. discriminate.
Qed.

(* With keep-going (or without failures) the build keeps running, a task fails
   only if its dependency cone contains a failing script, and in a complete
   execution every task whose cone is clean has finished successfully.  A
   fenced task fails with the task of its alternate key, hence [alt_dirty]: if
   the alternate's cone contains a failing script, so does the task's own. *)
Theorem failure_confined : forall T run C nn,
  yieldlock C = true -> wf C nn ->
  forall (s : state T) n, alt_dirty C -> keep C = true \/ (forall w, failsW C w = false) ->
  reach T run C s ->
  running s = true /\
  (st s n = Failed -> dirty C n) /\
  (terminal T run C s -> st s n <> Absent -> ~ dirty C n -> st s n = Done).
Proof.
  intros T run C nn YL WF s n AD KN R. destruct (reach_clean T run C YL nn WF s AD KN R) as [CR CF CW].
  repeat split; auto. apply (terminal_done T run C YL nn WF s n AD KN R).
Qed.

(* Schedule independence: whatever the interleaving, a workspace that was run
   holds the content prescribed by the graph ([spec]), and two complete
   executions of the same configuration deliver the same contents for every
   requested package with a clean cone.  Both executions have the job count of
   [C]; runs under different job counts are related through [spec] only, which
   reads [ws] and [deps] and not [jobs].  [coherent]: task keys that share a
   workspace prescribe the same content for it. *)
Theorem schedule_independent : forall T run C nn,
  yieldlock C = true -> wf C nn ->
  forall (s1 s2 : state T), coherent T run C -> alt_dirty C ->
  keep C = true \/ (forall w, failsW C w = false) ->
  reach T run C s1 -> reach T run C s2 ->
  (forall n, virt C n = false -> wasRun s1 (ws C n) = true -> wasRun s2 (ws C n) = true ->
             out s1 (ws C n) = out s2 (ws C n) /\ out s1 (ws C n) = spec T run C (S n) n) /\
  (terminal T run C s1 -> terminal T run C s2 -> forall r d, In r (roots C) -> ~ dirty C r -> In d (deps C r) ->
     wasRun s1 (ws C d) = true /\ wasRun s2 (ws C d) = true /\
     out s1 (ws C d) = out s2 (ws C d) /\ out s1 (ws C d) = spec T run C (S d) d).
Proof.
  intros T run C nn YL WF s1 s2 COH AD KN R1 R2. split.
  - intros n V W1 W2.
    rewrite (reach_out T run C YL nn WF s1 COH R1 n V W1), (reach_out T run C YL nn WF s2 COH R2 n V W2). auto.
  - intros T1 T2 r d Ir ND Id.
    destruct (terminal_results T run C YL nn WF s1 r d COH AD KN R1 T1 Ir ND Id) as (A1 & B1).
    destruct (terminal_results T run C YL nn WF s2 r d COH AD KN R2 T2 Ir ND Id) as (A2 & B2).
    repeat split; auto. congruence.
Qed.

(* Progress (current protocol): as long as some task has not finished, some
   transition is enabled -- no deadlock, no lost wake-up in the scheduler. *)
Theorem progress : forall T run C nn,
  yieldlock C = true -> wf C nn ->
  forall (s : state T), reach T run C s -> (exists n, nonfinal (st s n) = true) ->
  exists l s', step T run C s l = Some s'.
Proof.
  intros T run C nn YL WF s R (n & NF).
  apply (unfinished_can_step T run C YL nn WF s) with (n := n); eauto using reach_lock, reach_deps, reach_fence, reach_mon.
Qed.

(* Documentation of why commit fbe6edb was needed (finding F7): with the token
   kept while waiting for the workspace lock, one build step reached under
   three sandboxes with two tokens dead-locks. *)
Theorem progress_old_protocol_refuted :
  exists s, exec tree run_tree (f7_cfg false) (init tree (f7_cfg false)) f7_schedule = Some s /\
            final_upto tree 4 s = false /\ enabled tree run_tree (f7_cfg false) 4 s = [] /\ free s = 0.
Proof. apply ex_some. vm_compute. repeat apply conj; reflexivity. Qed.

(* Every visible trace of the transition system passes the monitor that the
   harness evaluates on the event logs of real builds. *)
Theorem traces_accepted : forall T run C nn,
  yieldlock C = true -> wf C nn ->
  forall (s : state T), reach T run C s -> accept C nn (once_flag C) (rev (trace s)) = true.
Proof.
  intros T run C nn YL WF s R. destruct (reach_mon T run C YL nn WF s R) as (m & RUN & _).
  unfold accept. rewrite RUN. reflexivity.
Qed.

Example semaphore_nonvacuous :     (* three tasks on two tokens, a hand-over, a foreign borrower *)
  exists s, sem_exec (new_sem false) (sem_init [7%N; 8%N]) sem_demo = Some s /\
            pipe s = [8%N; 7%N] /\ tokens s = [] /\ acquired s = 0 /\ inside s = 0 /\ reader s = false.
Proof. apply ex_some. vm_compute. repeat apply conj; reflexivity. Qed.

Example recursive_handover_nonvacuous :   (* the schedule of the refutation, under the current accounting *)
  exists s, sem_exec (new_sem true) (sem_init []) extjs_schedule = Some s /\
            inside s = 1 /\ blocked s = 1 /\ acquired s = 1 /\ tokens s = [].
Proof. apply ex_some. vm_compute. repeat apply conj; reflexivity. Qed.

Example f7_progress_nonvacuous :   (* the F7 graph is well-formed and completes under the current protocol *)
  wf (f7_cfg true) 4 /\
  exists s, exec tree run_tree (f7_cfg true) (init tree (f7_cfg true)) f7_schedule_new = Some s /\
            final_upto tree 4 s = true /\ enabled tree run_tree (f7_cfg true) 4 s = [] /\
            free s = 2 /\ starts (rev (trace s)) = [10].
Proof.
  split; [apply (mk_cfg_wf f7_nodes); vm_compute; reflexivity|].
  apply ex_some. vm_compute. repeat apply conj; reflexivity.
Qed.

Example schedule_independent_nonvacuous :   (* a diamond, -j1 and -j2, different traces, same contents *)
  (wf (dia_cfg 1) 5 /\ wf (dia_cfg 2) 5) /\
  exists s1 s2,
    exec tree run_tree (dia_cfg 1) (init tree (dia_cfg 1)) dia_seq = Some s1 /\
    exec tree run_tree (dia_cfg 2) (init tree (dia_cfg 2)) dia_par = Some s2 /\
    final_upto tree 5 s1 = true /\ final_upto tree 5 s2 = true /\
    enabled tree run_tree (dia_cfg 1) 5 s1 = [] /\ enabled tree run_tree (dia_cfg 2) 5 s2 = [] /\
    rev (trace s1) <> rev (trace s2) /\
    out s1 13 = out s2 13 /\ out s1 13 = spec tree run_tree (dia_cfg 1) 4 3 /\
    out s1 13 = Some (Node 13 [Some (Node 11 [Some (Node 10 [])]); Some (Node 12 [Some (Node 10 [])])]).
Proof.
  split; [split; apply (mk_cfg_wf dia_nodes); vm_compute; reflexivity|].
  apply ex_some2. vm_compute. repeat apply conj; try reflexivity. discriminate.
Qed.

Example workspace_once_nonvacuous :   (* current code: the second task key does not run the failed workspace again *)
  wf (kg_cfg true) 3 /\
  exists s, exec tree run_tree (kg_cfg true) (init tree (kg_cfg true)) kg_schedule = Some s /\
            starts (rev (trace s)) = [10] /\ st s 1 = Failed.
Proof.
  split; [apply (mk_cfg_wf kg_nodes); vm_compute; reflexivity|].
  apply ex_some. vm_compute. repeat apply conj; reflexivity.
Qed.
