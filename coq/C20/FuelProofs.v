(* C20 — fuel sufficiency: for every fuelled function of Model.v a lemma "measure below fuel: not OutOfFuel / OFuel",
   and [dec] never truncates a number.  The statements at the fuel the entry points pass, and those for sanitize,
   the build order and [run] as wholes, are put together in Properties.v.

   Termination arguments (they are the arguments for the loops of jenkins.py as well), with the measure:
     addStep        the step graph is a DAG: dependencies have smaller indices ([topo g]; the index);
     addChilds      a job is entered only when its childs set does not yet contain X and is marked before
                    the recursion, so every chain of calls visits distinct jobs (no acyclicity needed; [unmarked]);
     merge loop     the todo list shrinks by at least its head in every round (its length);
     numbering      the quotient by 10 of a positive number is smaller;
     _genJenkinsJobs  under [wf g] the pair (variant id of the owning package, position inside the package)
                    decreases lexicographically along every call, also across getReferenceStep ([rank]);
     visit          a job enters [processing] before its upstream jobs are visited and a job that is being
                    processed stops the descent (cycle report; [idle]);
     build order    every round removes the picked job from [pending] (its length, through [VK]). *)
From Coq Require Import List NArith Bool Arith Lia Relations.
Require BobV.Common.ListFacts.
Require Import BobV.C20.Model BobV.C20.Proofs.
Import ListNotations.

Lemma filter_length_mono {A} (P Q : A -> bool) l :
  (forall x, In x l -> P x = true -> Q x = true) -> length (filter P l) <= length (filter Q l).
Proof.
  induction l as [|a l IH]; intros H; simpl; [lia|].
  assert (IH' : length (filter P l) <= length (filter Q l)) by (apply IH; intros x Hx; apply H; right; exact Hx).
  destruct (P a) eqn:Pa.
  - rewrite (H a (or_introl eq_refl) Pa). simpl. lia.
  - destruct (Q a); simpl; lia.
Qed.

Lemma filter_length_lt {A} (P Q : A -> bool) l d :
  (forall x, In x l -> P x = true -> Q x = true) -> In d l -> P d = false -> Q d = true ->
  length (filter P l) < length (filter Q l).
Proof.
  intros H Hd Pd Qd. apply in_split in Hd as (l1 & l2 & ->). rewrite !filter_app, !app_length. simpl. rewrite Pd, Qd.
  pose proof (filter_length_mono P Q l1 (fun x Hx => H x (in_or_app _ _ _ (or_introl Hx)))).
  pose proof (filter_length_mono P Q l2 (fun x Hx => H x (in_or_app _ _ _ (or_intror (in_cons _ _ _ Hx))))).
  simpl. lia.
Qed.

(* the matches of Model.v that hand OutOfFuel and KeyError on are [bind] *)
Lemma bind_fuel {A B} (r : res A) (f : A -> res B) :
  r <> OutOfFuel -> (forall a, r = Ok a -> f a <> OutOfFuel) -> bind r f <> OutOfFuel.
Proof. intros H1 H2. destruct r; [apply H2; reflexivity|contradiction|discriminate]. Qed.

(* [r] is not OutOfFuel, and its result, if there is one, satisfies [P] (a KeyError is the code's own failure) *)
Definition fine {A} (r : res A) (P : A -> Prop) : Prop :=
  match r with Ok a => P a | OutOfFuel => False | KeyError => True end.

Lemma fine_fuel {A} (r : res A) P : fine r P -> r <> OutOfFuel.
Proof. intros H E. rewrite E in H. exact H. Qed.

Lemma fine_Ok {A} (r : res A) P a : fine r P -> r = Ok a -> P a.
Proof. intros H E. rewrite E in H. exact H. Qed.

Lemma fine_intro {A} (r : res A) (P : A -> Prop) : r <> OutOfFuel -> (forall a, r = Ok a -> P a) -> fine r P.
Proof. intros H1 H2. destruct r; [apply H2; reflexivity|contradiction|exact I]. Qed.

Lemma fine_bind {A B} (r : res A) (f : A -> res B) Q P :
  fine r Q -> (forall a, Q a -> fine (f a) P) -> fine (bind r f) P.
Proof. intros H1 H2. destruct r; [apply H2, H1|destruct H1|exact I]. Qed.

Lemma fine_weaken {A} (r : res A) (Q P : A -> Prop) : fine r Q -> (forall a, Q a -> P a) -> fine r P.
Proof. intros H1 H2. destruct r; [apply H2, H1|destruct H1|exact I]. Qed.

Definition topo_step (i : nat) (s : step) : bool := forallb (fun d => Nat.ltb d i) (alldeps s).

Fixpoint topo_from (i : nat) (l : list step) : bool :=
  match l with [] => true | s :: r => topo_step i s && topo_from (S i) r end.

Definition topo (g : graph) : bool := topo_from 0 g.

Lemma topo_from_nth : forall l i k s d,
  topo_from i l = true -> nth_error l k = Some s -> In d (alldeps s) -> d < i + k.
Proof.
  induction l as [|a l IH]; intros i k s d H Hn Hd; [destruct k; discriminate|].
  simpl in H. apply andb_true_iff in H as [H1 H2]. destruct k as [|k]; simpl in Hn.
  - injection Hn as <-. unfold topo_step in H1. rewrite forallb_forall in H1.
    specialize (H1 d Hd). apply Nat.ltb_lt in H1. lia.
  - specialize (IH (S i) k s d H2 Hn Hd). lia.
Qed.

Lemma topo_nth g i s d : topo g = true -> nth_error g i = Some s -> In d (alldeps s) -> d < i.
Proof. intros H Hn Hd. exact (topo_from_nth g 0 i s d H Hn Hd). Qed.

Lemma wf_from_topo b g : forall l i, wf_from b g i l = true -> topo_from i l = true.
Proof.
  induction l as [|a l IH]; intros i H; [reflexivity|]. simpl in H |- *.
  apply andb_true_iff in H as [H1 H2]. rewrite (IH _ H2), andb_true_r.
  unfold wf_step in H1. apply andb_true_iff in H1 as [_ H1].
  unfold topo_step. rewrite forallb_forall in H1 |- *. intros d Hd. specialize (H1 d Hd).
  unfold wf_dep in H1. apply andb_true_iff in H1 as [H1 _]. exact H1.
Qed.

Lemma loop_deps_fuel rec : forall ds j st,
  (forall d, In d ds -> forall j' st', rec d j' st' <> OutOfFuel) -> loop_deps rec ds j st <> OutOfFuel.
Proof.
  induction ds as [|d r IH]; intros j st H; simpl; [discriminate|].
  apply bind_fuel; [apply H; left; reflexivity|]. intros [st1 cs] _. apply IH. intros d' Hd'. apply H. right. exact Hd'.
Qed.

Lemma add_step_fuel g : topo g = true -> forall fuel sid par st,
  sid < fuel -> add_step fuel g sid par st <> OutOfFuel.
Proof.
  intros T. induction fuel as [|f IH]; intros sid par st Hlt; [lia|].
  cbn [add_step]. destruct (nth_error g sid) as [s|] eqn:En; [|discriminate].
  destruct (lookupN (s_vid s) (st_v2j st)) as [j|]; [discriminate|].
  destruct (if is_pkg s then register_pkg st sid s par else (par, st)) as [j st1].
  apply bind_fuel; [|discriminate].
  apply loop_deps_fuel. intros d Hd j' st'. apply IH. pose proof (topo_nth g sid s d T En Hd). lia.
Qed.

Lemma add_step_fuel_length g sid par st :
  topo g = true -> add_step (S (length g)) g sid par st <> OutOfFuel.
Proof.
  intros T. destruct (Nat.lt_ge_cases sid (S (length g))) as [H|H].
  - apply add_step_fuel; assumption.
  - cbn [add_step]. assert (E : nth_error g sid = None) by (apply nth_error_None; lia). rewrite E. discriminate.
Qed.

Lemma span_roots_fuel g : topo g = true -> forall roots st, span_roots g roots st <> OutOfFuel.
Proof.
  intros T. induction roots as [|r rest IH]; intros st; cbn [span_roots]; [discriminate|].
  destruct (alloc_job st empty_job) as [dummy st1].
  apply bind_fuel; [apply add_step_fuel_length, T|]. intros [st2 cs] _. apply IH.
Qed.

Definition ref_ok (g : graph) (kp : N * nat) : bool :=
  match nth_error g (snd kp) with Some sP => is_pkg sP && N.eqb (s_vid sP) (fst kp) | None => false end.

Definition refs_ok (g : graph) (refs : list (N * nat)) : bool := forallb (ref_ok g) refs.

Definition bounded (st : sstate) : bool :=
  forallb (fun vj => Nat.ltb (snd vj) (st_next st)) (st_v2j st) &&
  forallb (fun nl => forallb (fun j => Nat.ltb j (st_next st)) (snd nl)) (st_n2j st).

Lemma bounded_Bnd st : bounded st = true <-> Bnd st.
Proof.
  unfold bounded, Bnd, Bv, Bn. rewrite andb_true_iff, !forallb_forall. split.
  - intros [H1 H2]. split.
    + intros v j H. apply Nat.ltb_lt. exact (H1 (v, j) H).
    + intros n l j H Hj. specialize (H2 (n, l) H). simpl in H2. rewrite forallb_forall in H2.
      apply Nat.ltb_lt. exact (H2 j Hj).
  - intros [H1 H2]. split.
    + intros [v j] H. apply Nat.ltb_lt. exact (H1 v j H).
    + intros [n l] H. simpl. rewrite forallb_forall. intros j Hj. apply Nat.ltb_lt. exact (H2 n l j H Hj).
Qed.

(* self.__referenceStep is written when a package is registered, with the position of that package step *)
Lemma span_refs_ok g roots st : span g roots = Ok st -> refs_ok g (st_ref st) = true.
Proof.
  intros H. apply (span_roots_keeps g (fun st => refs_ok g (st_ref st) = true)) in H; auto.
  intros st0 sid s par En Hk _ H0. unfold register_pkg, alloc_job, refs_ok in *. simpl. rewrite H0, andb_true_r.
  unfold ref_ok. simpl. rewrite En, Hk, N.eqb_refl. reflexivity.
Qed.

Lemma span_bounded g roots st : span g roots = Ok st -> Bnd st.
Proof. intros H. apply (span_Alloc g roots st H). Qed.

(* the measure of addChilds: each nested call has marked one more allocated job; at most [st_next st], whence the
   fuel S (st_next st) that merge_two passes *)
Definition unmarked (X : vset) (st : sstate) : nat :=
  length (filter (fun j => negb (subset X (a_childs (get_job st j)))) (seq 0 (st_next st))).

Lemma unmarked_bound X st : unmarked X st <= st_next st.
Proof. unfold unmarked. etransitivity; [apply ListFacts.filter_length_le|]. rewrite seq_length. lia. Qed.

Lemma add_childs_fuel : forall fuel X ps st,
  Bv st -> unmarked X st < fuel -> add_childs fuel ps X st <> OutOfFuel.
Proof.
  induction fuel as [|f IHf]; intros X ps st HB Hm; [lia|].
  cbn [add_childs]. revert st HB Hm.
  induction ps as [|p r IHr]; intros st HB Hm; cbn [add_childs_loop]; [discriminate|].
  destruct (lookupN p (st_v2j st)) as [j|] eqn:Ej; [|discriminate].
  destruct (subset X (a_childs (get_job st j))) eqn:Es; [apply IHr; assumption|].
  set (a := get_job st j) in *.
  set (st1 := set_job st j (mkJob (a_pkgs a) (a_parents a) (union (a_childs a) X))) in *.
  assert (Hj : j < st_next st) by exact (HB p j (lookupN_In _ _ _ Ej)).
  assert (Hjm : negb (subset X (a_childs (get_job st1 j))) = false).
  { unfold st1. rewrite get_set_job_same. apply negb_false_iff, subset_spec, sub_union_r. }
  assert (Hlt : unmarked X st1 < unmarked X st).
  { unfold unmarked. change (st_next st1) with (st_next st).
    apply filter_length_lt with (d := j).
    - intros k _ Hk. destruct (Nat.eq_dec k j) as [->|Hkj]; [congruence|].
      unfold st1 in Hk. rewrite get_set_job_other in Hk by exact Hkj. exact Hk.
    - apply in_seq. lia.
    - exact Hjm.
    - fold a. rewrite Es. reflexivity. }
  assert (HB1 : Bv st1) by exact HB.
  apply bind_fuel; [apply IHf; [exact HB1|lia]|]. intros st2 E2.
  destruct (add_childs_spec _ _ _ _ _ E2) as (M & R & _).
  apply IHr.
  - unfold Bv. rewrite (ac_v2j _ _ _ _ R), (ac_next _ _ _ _ R). exact HB1.
  - assert (Hle : unmarked X st2 <= unmarked X st1).
    { unfold unmarked. rewrite (ac_next _ _ _ _ R). apply filter_length_mono. intros k _ Hk.
      apply negb_true_iff in Hk. apply negb_true_iff, not_true_is_false. intros Ek. apply subset_spec in Ek.
      exact (eq_true_false_abs _ (proj2 (subset_spec _ _) (sub_trans _ _ _ Ek (ACRel_mono _ _ _ _ R k))) Hk). }
    lia.
Qed.

Lemma In_remap ps i : forall m v k, In (v, k) (remap ps i m) -> k = i \/ In (v, k) m.
Proof.
  induction ps as [|p r IH]; intros m v k H; simpl in H; [right; exact H|].
  apply IH in H as [H|[H|H]]; auto. inversion H; subst. left. reflexivity.
Qed.

(* the frame the fuel argument needs of a merge: with [st_next] fixed the jobs of the todo list stay below it, [Bnd]
   is the hypothesis of the next merge again, and [st_ref] carries [refs_ok] from span to gen_jobs ([sanitize_refs_ok]) *)
Definition MKeep (st st' : sstate) : Prop :=
  st_next st' = st_next st /\ st_n2j st' = st_n2j st /\ st_ref st' = st_ref st /\ Bnd st'.

Lemma MKeep_refl st : Bnd st -> MKeep st st.
Proof. intros HB. repeat split; auto; apply HB. Qed.

Lemma MKeep_trans a b c : MKeep a b -> MKeep b c -> MKeep a c.
Proof. intros (A1 & A2 & A3 & A4) (B1 & B2 & B3 & B4). repeat split; try congruence; apply B4. Qed.

Lemma merge_two_fine st i j : Bnd st -> i < st_next st -> fine (merge_two st i j) (MKeep st).
Proof.
  intros [HB HN] Hi. unfold merge_two. cbv zeta.
  eapply fine_bind.
  - apply fine_intro; [|intros st2 E2; exact (add_childs_spec _ _ _ _ _ E2)].
    apply add_childs_fuel; [exact HB|]. apply Nat.lt_succ_r, (unmarked_bound _ (set_job st i _)).
  - intros st2 (M & R & _). unfold fine, MKeep. simpl.
    rewrite (ac_next _ _ _ _ R), (ac_n2j _ _ _ _ R), (ac_ref _ _ _ _ R).
    split; [reflexivity|]. split; [reflexivity|]. split; [reflexivity|]. split; [|exact HN].
    intros v k Hk. simpl in *. apply In_remap in Hk as [->|Hk]; [exact Hi|].
    rewrite (ac_v2j _ _ _ _ R) in Hk. exact (HB v k Hk).
Qed.

Lemma merge_inner_fine : forall rem i st, Bnd st -> i < st_next st ->
  fine (merge_inner i rem st) (fun r => MKeep st (snd r) /\ incl (fst r) rem /\ length (fst r) <= length rem).
Proof.
  induction rem as [|j r IH]; intros i st HB Hi; cbn [merge_inner].
  - split; [apply MKeep_refl, HB|]. split; [apply incl_refl|apply Nat.le_refl].
  - destruct (reaches st i j || reaches st j i).
    + apply (fine_bind _ _ _ _ (IH i st HB Hi)). intros [todo st'] (K1 & K2 & K3).
      split; [exact K1|]. split; [|apply le_n_S, K3].
      intros k [<-|Hk]; [left; reflexivity|right; apply K2, Hk].
    + apply (fine_bind _ _ _ _ (merge_two_fine st i j HB Hi)). intros st1 M1.
      assert (Hi1 : i < st_next st1) by (rewrite (proj1 M1); exact Hi).
      apply (fine_weaken _ _ _ (IH i st1 (proj2 (proj2 (proj2 M1))) Hi1)). intros [todo st'] (M & T & L).
      split; [exact (MKeep_trans _ _ _ M1 M)|]. split; [intros k Hk; right; apply T, Hk|apply Nat.le_le_succ_r, L].
Qed.

Lemma merge_name_fine : forall fuel todo st,
  length todo < fuel -> Bnd st -> (forall k, In k todo -> k < st_next st) ->
  fine (merge_name fuel todo st) (fun r => MKeep st (snd r) /\ incl (fst r) todo).
Proof.
  induction fuel as [|f IH]; intros todo st Hl HB Ht; [destruct (Nat.nlt_0_r _ Hl)|].
  cbn [merge_name]. destruct todo as [|i remaining]; [split; [apply MKeep_refl, HB|apply incl_refl]|].
  apply (fine_bind _ _ _ _ (merge_inner_fine remaining i st HB (Ht i (or_introl eq_refl)))).
  intros [todo' st1] (M1 & T1 & L1). cbn [fst snd] in M1, T1, L1.
  eapply fine_bind.
  - apply IH; [exact (Nat.le_lt_trans _ _ _ L1 (proj2 (Nat.succ_lt_mono _ _) Hl))|apply M1|].
    intros k Hk. rewrite (proj1 M1). apply Ht. right. apply T1, Hk.
  - intros [jobs st2] (M2 & T2). split; [exact (MKeep_trans _ _ _ M1 M2)|].
    intros k [<-|Hk]; [left; reflexivity|right; apply T1, T2, Hk].
Qed.

Lemma lookup_str_key {A} k (v : A) m : lookup_str k m = Some v -> In (k, v) m.
Proof.
  induction m as [|[k0 v0] m IH]; simpl; [discriminate|]. destruct (str_eqb k k0) eqn:E.
  - intros H. injection H as <-. apply str_eqb_eq in E. subst. left. reflexivity.
  - intros H. right. apply IH. exact H.
Qed.

Lemma merge_names_fine : forall names st, Bnd st ->
  fine (merge_names names st) (fun st' => st_ref st' = st_ref st /\ Bnd st').
Proof.
  induction names as [|name rest IH]; intros st HB; cbn [merge_names]; [split; [reflexivity|exact HB]|].
  destruct (lookup_str name (st_n2j st)) as [todo|] eqn:El; [|exact I].
  assert (Ht : forall k, In k todo -> k < st_next st) by (intros k; apply (proj2 HB name todo k), lookup_str_key, El).
  apply (fine_bind _ _ _ _ (merge_name_fine _ todo st (Nat.lt_succ_diag_r _) HB Ht)).
  intros [jobs st1] ((N1 & N2 & N3 & [B1 B2]) & T). cbn [fst snd] in *.
  eapply fine_weaken.
  - (* the list of the name is replaced by the merged jobs *)
    apply IH. split; [exact B1|]. intros n l k Hl Hk. simpl in *.
    apply In_update_str in Hl as [Hl|[->|(l0 & Hl & ->)]]; [exact (B2 n l k Hl Hk)|rewrite N1; apply Ht, T, Hk..].
  - intros st' [R B]. split; [exact (eq_trans R N3)|exact B].
Qed.

Lemma names_of_fuel v2n : forall ps, names_of v2n ps <> OutOfFuel.
Proof.
  induction ps as [|p r IH]; simpl; [discriminate|]. destruct (lookupN p v2n); [|discriminate].
  apply bind_fuel; [exact IH|discriminate].
Qed.

Lemma longest_prefix_fuel st pkgs : longest_prefix st pkgs <> OutOfFuel.
Proof.
  unfold longest_prefix. apply bind_fuel; [apply names_of_fuel|]. intros [|n [|m l]] _; discriminate.
Qed.

Lemma final_names_jobs_fuel st : forall jobs fnm, final_names_jobs st jobs fnm <> OutOfFuel.
Proof.
  induction jobs as [|j r IH]; intros fnm; simpl; [discriminate|].
  apply bind_fuel; [apply longest_prefix_fuel|]. intros n _. apply IH.
Qed.

Lemma final_names_fuel st : forall items fnm, final_names st items fnm <> OutOfFuel.
Proof.
  induction items as [|[name jobs] rest IH]; intros fnm; cbn [final_names]; [discriminate|].
  destruct (Nat.ltb 1 (length jobs)); [|apply IH].
  apply bind_fuel; [apply final_names_jobs_fuel|]. intros fnm' _. apply IH.
Qed.

Definition dval (l : str) : N := fold_left (fun a c => (10 * a + (c - 48))%N) l 0%N.
Definition is_digit (c : N) : bool := N.leb 48 c && N.leb c 57.

Lemma dval_app l c : dval (l ++ [c]) = (10 * dval l + (c - 48))%N.
Proof. unfold dval. rewrite fold_left_app. reflexivity. Qed.

Lemma dec_aux_spec : forall m n, N.to_nat n < m ->
  exists ds, (forall fuel acc, N.to_nat n < fuel -> dec_aux fuel n acc = ds ++ acc) /\
             dval ds = n /\ forallb is_digit ds = true /\ ds <> [].
Proof.
  induction m as [|m IH]; intros n H; [lia|].
  assert (Hd : (n mod 10 < 10)%N) by (apply N.mod_lt; discriminate).
  assert (Hn : n = (10 * (n / 10) + n mod 10)%N) by (apply N.div_mod; discriminate).
  set (q := (n / 10)%N) in *. set (d := (n mod 10)%N) in *.
  assert (Hdig : is_digit (48 + d) = true).
  { unfold is_digit. apply andb_true_iff. split; apply N.leb_le; lia. }
  destruct (N.eqb q 0) eqn:Eq.
  - exists [(48 + d)%N]. split; [|split].
    + intros [|f] acc Hf; [destruct (Nat.nlt_0_r _ Hf)|]. cbn [dec_aux]. cbv zeta. fold q d. rewrite Eq. reflexivity.
    + apply N.eqb_eq in Eq. unfold dval. cbn [fold_left]. lia.
    + split; [cbn [forallb]; rewrite Hdig; reflexivity|discriminate].
  - pose proof (proj1 (N.eqb_neq _ _) Eq) as Hq.
    destruct (IH q) as (ds & E & V & D & _); [lia|].
    exists (ds ++ [(48 + d)%N]). split; [|split].
    + intros [|f] acc Hf; [destruct (Nat.nlt_0_r _ Hf)|]. cbn [dec_aux]. cbv zeta. fold q d. rewrite Eq, <- app_assoc. apply E. lia.
    + rewrite dval_app, V. lia.
    + split; [rewrite forallb_app, D; cbn [forallb]; rewrite Hdig; reflexivity|].
      intros Hx. apply app_eq_nil in Hx as [_ Hx]. discriminate.
Qed.

Lemma dec_spec n : dval (dec n) = N.of_nat n /\ forallb is_digit (dec n) = true /\ dec n <> [].
Proof.
  destruct (dec_aux_spec (S n) (N.of_nat n) ltac:(lia)) as (ds & E & V & D & NE).
  unfold dec. rewrite E, app_nil_r by lia. auto.
Qed.

Lemma dec_aux_fuel n fuel : n < fuel -> dec_aux fuel (N.of_nat n) [] = dec n.
Proof.
  intros H. destruct (dec_aux_spec (S n) (N.of_nat n) ltac:(lia)) as (ds & E & _).
  unfold dec. rewrite !E by lia. reflexivity.
Qed.

Lemma sanitize_refs_ok g roots nm : sanitize g roots = Ok nm -> refs_ok g (st_ref (nm_state nm)) = true.
Proof.
  intros H. destruct (sanitize_Ok g roots nm H) as (st0 & _ & Es & Em & _).
  destruct (fine_Ok _ _ _ (merge_names_fine _ st0 (span_bounded _ _ _ Es)) Em) as [R _].
  rewrite R. exact (span_refs_ok _ _ _ Es).
Qed.

(* the variant of the package a step belongs to, and the position of the step inside its package: a package
   step is given [length g], above all others (the calls go from it to its build and checkout steps; so is the
   reference instance, wherever it is stored), the other steps their index *)
Definition ovid (g : graph) (i : nat) : N :=
  match nth_error g i with Some s => vid_at g (s_pkgstep s) | None => 0%N end.

Definition pos (g : graph) (i : nat) : nat :=
  match nth_error g i with Some s => if is_pkg s then length g else i | None => 0 end.

Definition key_ltb (g : graph) (a b : nat) : bool :=
  N.ltb (ovid g a) (ovid g b) || (N.eqb (ovid g a) (ovid g b) && Nat.ltb (pos g a) (pos g b)).

(* the number of steps with a smaller key: at most [length g], decreases along every call *)
Definition rank (g : graph) (i : nat) : nat := length (filter (fun k => key_ltb g k i) (seq 0 (length g))).

Lemma key_ltb_spec g a b : key_ltb g a b = true <->
  (ovid g a < ovid g b)%N \/ (ovid g a = ovid g b /\ pos g a < pos g b).
Proof.
  unfold key_ltb. rewrite orb_true_iff, andb_true_iff, N.ltb_lt, N.eqb_eq, Nat.ltb_lt. tauto.
Qed.

Lemma rank_bound g i : rank g i <= length g.
Proof. unfold rank. etransitivity; [apply ListFacts.filter_length_le|]. rewrite seq_length. lia. Qed.

Lemma rank_lt g d i : d < length g -> key_ltb g d i = true -> rank g d < rank g i.
Proof.
  intros Hd Hk. unfold rank. apply filter_length_lt with (d := d).
  - intros k _ H. apply key_ltb_spec in H. apply key_ltb_spec in Hk. apply key_ltb_spec. lia.
  - apply in_seq. lia.
  - destruct (key_ltb g d d) eqn:E; [|reflexivity]. apply key_ltb_spec in E. lia.
  - exact Hk.
Qed.

Lemma rank_same g i i' : ovid g i = ovid g i' -> pos g i = pos g i' -> rank g i = rank g i'.
Proof. intros H1 H2. unfold rank, key_ltb. rewrite H1, H2. reflexivity. Qed.

Lemma dep_key g sid s d : wf g = true -> nth_error g sid = Some s -> In d (alldeps s) ->
  d < length g /\ key_ltb g d sid = true.
Proof.
  intros W En Hd.
  assert (Hsid : sid < length g) by (apply nth_error_Some; congruence).
  destruct (wf_dep_rank g sid s d (vid_at g (s_pkgstep s)) W En Hd eq_refl) as (Hlt & sd & Ed & HR).
  split; [lia|]. apply key_ltb_spec. unfold ovid, pos. rewrite En, Ed.
  specialize (HR _ (or_introl eq_refl)). destruct (is_pkg sd) eqn:Ek.
  - left. rewrite (proj2 (wf_parity g d sd W Ed) Ek). unfold vid_at at 1. rewrite Ed. exact HR.
  - right. split; [exact HR|]. destruct (is_pkg s); lia.
Qed.

(* getReferenceStep keeps the key *)
Lemma ref_key g refs sid0 s0 sid : wf g = true -> refs_ok g refs = true ->
  nth_error g sid0 = Some s0 -> is_pkg s0 = true -> lookupN (s_vid s0) refs = Some sid -> rank g sid = rank g sid0.
Proof.
  intros W HR En0 Hk0 Hl. apply lookupN_In in Hl. unfold refs_ok in HR. rewrite forallb_forall in HR.
  specialize (HR _ Hl). unfold ref_ok in HR. simpl in HR.
  destruct (nth_error g sid) as [s|] eqn:En; [|discriminate].
  apply andb_true_iff in HR as [Hk Hv]. apply N.eqb_eq in Hv.
  pose proof (proj2 (wf_parity g sid s W En) Hk) as Hp. pose proof (proj2 (wf_parity g sid0 s0 W En0) Hk0) as Hp0.
  apply rank_same; unfold ovid, pos; rewrite En, En0.
  - rewrite Hp, Hp0. unfold vid_at. rewrite En, En0. exact Hv.
  - rewrite Hk, Hk0. reflexivity.
Qed.

Lemma package_name_fuel g nm s : package_name g nm s <> OutOfFuel.
Proof.
  unfold package_name.
  destruct (if is_pkg s then Some (s_vid s)
            else match nth_error g (s_pkgstep s) with Some p => Some (s_vid p) | None => None end); [|discriminate].
  destruct (lookupN n (nm_names nm)); discriminate.
Qed.

Lemma display_name_fuel prefix g nm s : display_name prefix g nm s <> OutOfFuel.
Proof.
  unfold display_name. apply bind_fuel; [apply package_name_fuel|discriminate].
Qed.

Lemma internal_name_fuel prefix g nm s : internal_name prefix g nm s <> OutOfFuel.
Proof.
  unfold internal_name. apply bind_fuel; [apply display_name_fuel|discriminate].
Qed.

Lemma add_deps_fuel g : forall ds steps deps, add_deps g ds steps deps <> OutOfFuel.
Proof.
  induction ds as [|d r IH]; intros steps deps; simpl; [discriminate|].
  destruct (nth_error g d) as [sd|]; [|discriminate].
  destruct (negb (s_valid sd)); [apply IH|]. destruct (mem (s_vid sd) steps); apply IH.
Qed.

Lemma jj_add_step_fuel g sid s jj : jj_add_step g sid s jj <> OutOfFuel.
Proof.
  unfold jj_add_step. cbv zeta. destruct (mem (s_vid s) _); [discriminate|].
  apply bind_fuel; [apply add_deps_fuel|discriminate].
Qed.

Lemma loop_gen_fuel rec : forall ds gs,
  (forall d, In d ds -> forall gs', rec d gs' <> OutOfFuel) -> loop_gen rec ds gs <> OutOfFuel.
Proof.
  induction ds as [|d r IH]; intros gs H; simpl; [discriminate|].
  apply bind_fuel; [apply H; left; reflexivity|]. intros gs1 _. apply IH. intros d' Hd'. apply H. right. exact Hd'.
Qed.

Lemma loop_gen_seen_fuel g rec : forall ds gs,
  (forall d, In d ds -> forall gs', rec d gs' <> OutOfFuel) -> loop_gen_seen g rec ds gs <> OutOfFuel.
Proof.
  induction ds as [|d r IH]; intros gs H; simpl; [discriminate|].
  assert (Hr : forall d', In d' r -> forall gs', rec d' gs' <> OutOfFuel) by (intros d' Hd'; apply H; right; exact Hd').
  destruct (nth_error g d) as [sd|]; [|discriminate].
  destruct (mem (s_stack sd) (g_seen gs)); [apply IH; exact Hr|].
  apply bind_fuel; [apply H; left; reflexivity|]. intros gs1 _. apply IH. exact Hr.
Qed.

Lemma gen_jobs_fuel prefix short g nm :
  wf g = true -> refs_ok g (st_ref (nm_state nm)) = true ->
  forall fuel sid0 gs, rank g sid0 < fuel -> gen_jobs fuel prefix short g nm sid0 gs <> OutOfFuel.
Proof.
  intros W HR. induction fuel as [|f IH]; intros sid0 gs Hlt; [lia|].
  cbn [gen_jobs]. destruct (nth_error g sid0) as [s0|] eqn:En0; [|discriminate].
  destruct (if is_pkg s0 then lookupN (s_vid s0) (st_ref (nm_state nm)) else Some sid0) as [sid|] eqn:Eo; [|discriminate].
  destruct (nth_error g sid) as [s|] eqn:En; [|discriminate].
  assert (Hrk : rank g sid = rank g sid0).
  { destruct (is_pkg s0) eqn:Hk0.
    - eapply ref_key; eassumption.
    - injection Eo as <-. reflexivity. }
  pose proof (internal_name_fuel prefix g nm s) as Hi. pose proof (display_name_fuel prefix g nm s) as Hdn.
  destruct (internal_name prefix g nm s) as [name| |]; [|contradiction|];
    (destruct (display_name prefix g nm s) as [disp| |]; [|contradiction|]); try discriminate.
  destruct (is_pkg s && short && mem (s_vid s) (g_vids gs)).
  { destruct (lookup_str name (g_jobs gs)); discriminate. }
  assert (Hrec : forall d, In d (alldeps s) -> forall gs', gen_jobs f prefix short g nm d gs' <> OutOfFuel).
  { intros d Hd gs'. apply IH. destruct (dep_key g sid s d W En Hd) as [Hdl Hkey].
    pose proof (rank_lt g d sid Hdl Hkey). lia. }
  apply bind_fuel; [apply jj_add_step_fuel|]. intros jj' _. cbv zeta.
  apply bind_fuel.
  { apply loop_gen_fuel. intros d Hd. apply Hrec. apply filter_In in Hd as [Hd _]. apply In_sort_by in Hd.
    unfold alldeps. apply in_or_app. left. exact Hd. }
  intros gs2 _. destruct (is_pkg s); [|discriminate].
  apply loop_gen_seen_fuel. intros d Hd. apply Hrec. unfold alldeps. apply in_or_app. right. exact Hd.
Qed.

Lemma gen_roots_fuel prefix short g nm :
  wf g = true -> refs_ok g (st_ref (nm_state nm)) = true ->
  forall roots jobs, gen_roots prefix short g nm roots jobs <> OutOfFuel.
Proof.
  intros W HR. induction roots as [|r rest IH]; intros jobs; cbn [gen_roots]; [discriminate|].
  apply bind_fuel; [apply (gen_jobs_fuel prefix short g nm W HR); pose proof (rank_bound g r); lia|].
  intros gs _. cbv zeta. destruct (match nth_error g r with Some _ => _ | None => _ end); [apply IH|discriminate].
Qed.

Lemma upstream_of_fuel prefix g nm : forall deps acc, upstream_of prefix g nm deps acc <> OutOfFuel.
Proof.
  induction deps as [|[v d] r IH]; intros acc; simpl; [discriminate|].
  destruct (nth_error g d) as [sd|]; [|discriminate].
  apply bind_fuel; [apply internal_name_fuel|]. intros n _. apply IH.
Qed.

Lemma check_upstream_fuel prefix g nm all : forall js, check_upstream prefix g nm all js <> OutOfFuel.
Proof.
  induction js as [|[n jj] r IH]; simpl; [discriminate|].
  apply bind_fuel; [apply upstream_of_fuel|]. intros ups _. destruct (forallb _ ups); [|discriminate].
  apply bind_fuel; [exact IH|discriminate].
Qed.

Inductive subseq {A} : list A -> list A -> Prop :=
| ss_nil : subseq [] []
| ss_skip x l1 l2 : subseq l1 l2 -> subseq l1 (x :: l2)
| ss_keep x l1 l2 : subseq l1 l2 -> subseq (x :: l1) (x :: l2).

Lemma subseq_refl {A} (l : list A) : subseq l l.
Proof. induction l; constructor; assumption. Qed.

Lemma subseq_trans {A} (l1 l2 l3 : list A) : subseq l1 l2 -> subseq l2 l3 -> subseq l1 l3.
Proof.
  intros H1 H2. revert l1 H1. induction H2 as [|x a b H2 IH|x a b H2 IH]; intros l1 H1.
  - exact H1.
  - apply ss_skip. apply IH. exact H1.
  - inversion H1; subst.
    + apply ss_skip. apply IH. assumption.
    + apply ss_keep. apply IH. assumption.
Qed.

Lemma subseq_length {A} (l1 l2 : list A) : subseq l1 l2 -> length l1 <= length l2.
Proof. induction 1; simpl; lia. Qed.

Lemma subseq_missing s (l1 l2 : list str) :
  subseq l1 l2 -> str_mem s l2 = true -> str_mem s l1 = false -> length l1 < length l2.
Proof.
  induction 1 as [|x a b H IH|x a b H IH]; simpl; intros H2 H1; [discriminate| |].
  - apply Nat.lt_succ_r, subseq_length, H.
  - apply orb_false_iff in H1 as [E H1]. rewrite E in H2. apply -> Nat.succ_lt_mono. apply IH; assumption.
Qed.

Lemma str_remove_subseq s l : subseq (str_remove s l) l.
Proof. induction l as [|x l IH]; simpl; [constructor|]. destruct (str_eqb s x); constructor; exact IH. Qed.

Lemma str_mem_remove s l : str_mem s (str_remove s l) = false.
Proof.
  induction l as [|x l IH]; simpl; [reflexivity|]. destruct (str_eqb s x) eqn:E; [exact IH|].
  simpl. rewrite E, IH. reflexivity.
Qed.

Lemma str_remove_not_mem s l : str_mem s l = false -> str_remove s l = l.
Proof.
  induction l as [|x l IH]; simpl; [reflexivity|]. intros H. apply orb_false_iff in H as [H1 H2].
  rewrite H1, IH by exact H2. reflexivity.
Qed.

Fixpoint visit_loop (rec : str -> ostate -> ores) (ds : list str) (o : ostate) : ores :=
  match ds with
  | [] => OOk o
  | d :: r => match rec d o with OOk o' => visit_loop rec r o' | e => e end
  end.

Lemma visit_S f ups j o :
  visit (S f) ups j o =
  if str_mem j (o_processing o) then OCyclic
  else if str_mem j (o_pending o) then
    match lookup_str j ups with
    | None => OKeyError
    | Some ds =>
        match visit_loop (visit f ups) ds (mkO (o_pending o) (j :: o_processing o) (o_order o)) with
        | OOk o2 => OOk (mkO (str_remove j (o_pending o2)) (str_remove j (o_processing o2)) (o_order o2 ++ [j]))
        | OCyclic => OCyclic
        | OFuel => OFuel
        | OKeyError => OKeyError
        end
    end
  else OOk o.
Proof.
  cbn [visit]. destruct (str_mem j (o_processing o)); [reflexivity|].
  destruct (str_mem j (o_pending o)); [|reflexivity].
  destruct (lookup_str j ups) as [ds|]; [|reflexivity].
  match goal with |- match ?a with _ => _ end = match ?b with _ => _ end => assert (E : a = b) end.
  { generalize (mkO (o_pending o) (j :: o_processing o) (o_order o)).
    induction ds as [|d r IH]; intros o1; simpl; [reflexivity|].
    destruct (visit f ups d o1); try reflexivity. apply IH. }
  rewrite E. destruct (visit_loop (visit f ups) ds (mkO (o_pending o) (j :: o_processing o) (o_order o))); reflexivity.
Qed.

(* the build order has a result type of its own; read as a [res] it has the same three outcomes *)
Definition ores_res (r : ores) : res ostate :=
  match r with OOk o => Ok o | OFuel => OutOfFuel | OCyclic | OKeyError => KeyError end.

Lemma ores_fuel r : ores_res r <> OutOfFuel -> r <> OFuel.
Proof. intros H E. apply H. rewrite E. reflexivity. Qed.

(* postcondition of visit(d) as [order_loop_fuel] needs it: [processing] is as before and d has left [pending], so
   every round of the outer loop shortens [pending] *)
Definition VK (d : str) (o o' : ostate) : Prop :=
  o_processing o' = o_processing o /\ subseq (o_pending o') (o_pending o) /\
  (str_mem d (o_pending o) = true -> str_mem d (o_pending o') = false).

Lemma visit_loop_fine rec p : (forall d o, o_processing o = p -> fine (ores_res (rec d o)) (VK d o)) ->
  forall ds o, o_processing o = p ->
  fine (ores_res (visit_loop rec ds o)) (fun o' => o_processing o' = p /\ subseq (o_pending o') (o_pending o)).
Proof.
  intros HR. induction ds as [|d r IH]; intros o Hp; simpl; [split; [exact Hp|apply subseq_refl]|].
  pose proof (HR d o Hp) as Hd. destruct (rec d o) as [o1| | |]; try exact I; [|destruct Hd].
  destruct Hd as (A & B & _). apply (fine_weaken _ _ _ (IH o1 (eq_trans A Hp))).
  intros o' [A' B']. split; [exact A'|eapply subseq_trans; eassumption].
Qed.

(* the measure of visit: each nested call has one more job in [processing]; at most [length ups], whence the
   fuel S (S (length ups)) *)
Definition idle (ups : list (str * list str)) (p : list str) : nat :=
  length (filter (fun kv => negb (str_mem (fst kv) p)) ups).

Lemma idle_bound ups p : idle ups p <= length ups.
Proof. apply ListFacts.filter_length_le. Qed.

Lemma visit_fine ups : forall fuel j o, idle ups (o_processing o) < fuel -> fine (ores_res (visit fuel ups j o)) (VK j o).
Proof.
  induction fuel as [|f IH]; intros j o Hlt; [destruct (Nat.nlt_0_r _ Hlt)|].
  rewrite visit_S. destruct (str_mem j (o_processing o)) eqn:Ep; [exact I|].
  destruct (str_mem j (o_pending o)) eqn:Eq.
  2:{ split; [reflexivity|]. split; [apply subseq_refl|]. intros Hx. rewrite Eq in Hx. discriminate Hx. }
  destruct (lookup_str j ups) as [ds|] eqn:El; [|exact I].
  assert (Hdec : idle ups (j :: o_processing o) < idle ups (o_processing o)).
  { unfold idle. apply filter_length_lt with (d := (j, ds)).
    - intros [k v] _ H. simpl in *. apply negb_true_iff in H. apply orb_false_iff in H as [_ H].
      rewrite H. reflexivity.
    - apply lookup_str_key. exact El.
    - simpl. rewrite str_eqb_refl. reflexivity.
    - simpl. rewrite Ep. reflexivity. }
  pose proof (visit_loop_fine (visit f ups) (j :: o_processing o)
                (fun d o1 Hp => IH d o1 ltac:(rewrite Hp; lia)) ds
                (mkO (o_pending o) (j :: o_processing o) (o_order o)) eq_refl) as H.
  destruct (visit_loop (visit f ups) ds _) as [o2| | |]; try exact I; [|destruct H].
  destruct H as [A B]. simpl in A, B |- *. split; [|split].
  - rewrite A. simpl. rewrite str_eqb_refl. apply str_remove_not_mem. exact Ep.
  - eapply subseq_trans; [apply str_remove_subseq|exact B].
  - intros _. apply str_mem_remove.
Qed.

Lemma order_loop_fuel ups : forall fuel o,
  length (o_pending o) < fuel -> o_processing o = [] -> order_loop fuel ups o <> OFuel.
Proof.
  induction fuel as [|f IH]; intros o Hlt Hp; [lia|].
  cbn [order_loop]. destruct (o_pending o) as [|j rest] eqn:Eq; [discriminate|].
  assert (Hv : fine (ores_res (visit (S (S (length ups))) ups j o)) (VK j o)).
  { apply visit_fine. pose proof (idle_bound ups (o_processing o)). lia. }
  destruct (visit (S (S (length ups))) ups j o) as [o'| | |]; try discriminate; [|destruct Hv].
  destruct Hv as (A & B & C). apply IH; [|congruence].
  rewrite Eq in B, C. assert (Hm : str_mem j (j :: rest) = true) by (simpl; rewrite str_eqb_refl; reflexivity).
  pose proof (subseq_missing j _ _ B Hm (C Hm)) as Hl. simpl in Hl, Hlt. lia.
Qed.

(* two instances (positions 0 and 2) of variant 2; the reference instance (2, discovered first) depends on
   variant 4 whose only instance depends on the other instance of variant 2: well-formed in shape, not ranked *)
Definition witness_fuel_graph : graph :=
  [mkS KPackage 2 0 0 [112%N] [112%N] false true (@nil N) (@nil N) None;
   mkS KPackage 4 1 1 [120%N] [120%N] false true [0%N] (@nil N) None;
   mkS KPackage 2 2 2 [112%N] [112%N] false true [1%N] (@nil N) None].
Definition witness_fuel_roots : list nat := [2].
