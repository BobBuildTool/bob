(* C20 — property theorems and non-vacuity examples.  The theorems about the abstract jobs are consequences of
   [sanitize_Inv] (Proofs.v): after sanitize() on a well-formed graph the state satisfies [Inv], the lists of
   nameToJobs hold every live job once, and the dependencies of every reference instance are recorded ([Cover]).

   [wf g] = the extracted step graph has the shape the Step API guarantees ([wf_shape]) AND the interned
   variant ids of the package dependencies of every instance are smaller than the id of the depending
   package, i.e. the variant graph over ALL package instances is acyclic. *)
From Coq Require Import List NArith Bool Arith Relations.
Require Import BobV.C20.Model BobV.C20.Proofs BobV.C20.FuelProofs.
Import ListNotations.

(* "childs is closed under job-level reachability" holds after the spanning phase of every
   well-formed step graph, is preserved (together with the rest of the invariant) by every single
   merge the greedy loop performs, holds at the end of sanitize(), and it makes the test
   [i.childs >= j.pkgs | j.childs] true wherever i reaches j: where the test fails there is no path, which is
   what a merge relies on.  That the test is true only where there is a path is not stated. *)
Theorem childs_closed_invariant :
  (forall g roots st, wf g = true -> span g roots = Ok st -> closed st) /\
  (forall st i j st', Inv st -> live st i -> live st j -> i <> j ->
     reaches st i j = false -> reaches st j i = false -> merge_two st i j = Ok st' -> Inv st') /\
  (forall g roots nm, wf g = true -> sanitize g roots = Ok nm -> closed (nm_state nm)) /\
  (forall st I J, Inv st -> clos_trans_1n nat (E st) I J -> reaches st I J = true).
Proof.
  split; [|split; [|split]].
  - intros g roots st W H. apply (inv_closed _ (proj1 (span_Inv g roots st W H))).
  - intros st i j st' HI Li Lj Hij R1 R2 H. apply (merge_two_inv st i j st' HI Li Lj Hij R1 R2 H).
  - intros g roots nm W H. apply (inv_closed _ (proj1 (sanitize_Inv g roots nm W H))).
  - exact reaches_complete.
Qed.

(* The graph of abstract jobs, as recorded in the parents sets, is acyclic after all merges
   (contracting two mutually unreachable vertices of a DAG keeps it a DAG). *)
Theorem merge_preserves_acyclic : forall g roots nm,
  wf g = true -> sanitize g roots = Ok nm -> forall J, ~ clos_trans_1n nat (E (nm_state nm)) J J.
Proof. intros g roots nm W H. apply (inv_acyclic _ (proj1 (sanitize_Inv g roots nm W H))). Qed.

(* ... and the recorded graph contains every real dependency: the job graph induced by the direct
   package dependencies (arguments, tools, sandbox of the package, build and checkout step) of the
   reference instances is acyclic.
   Full statement (FALSE of the code, finding F13): the same with [wf_shape g] instead of [wf g].  Missing:
   nothing in the proof; the hypothesis "the variant graph over all instances is acyclic" is necessary.
   job_graph_acyclic_refuted shows the failure as bob reports it, not as a cycle of [jdep]: a graph with
   [wf_shape] (its witness fails [wf], by evaluation) on which the build order over the generated Jenkins jobs ends with the cyclic
   flag although no two names collide ([no_collision], the boolean test on the names table). *)
Theorem job_graph_acyclic_partial : forall g roots nm,
  wf g = true -> sanitize g roots = Ok nm -> forall J, ~ clos_trans_1n nat (jdep g (nm_state nm)) J J.
Proof.
  intros g roots nm W H. destruct (sanitize_Inv g roots nm W H) as (I & _ & C & _). exact (jdep_acyclic g _ I C).
Qed.

Theorem job_graph_acyclic_refuted :
  exists g roots sroots abs names jobs,
    wf_shape g = true /\ wf_roots g roots = true /\
    run [] false g roots sroots = Jobs abs names jobs true /\ no_collision names = true /\
    length abs = length names.
Proof.
  exists witness_f13_graph, witness_f13_roots, witness_f13_sroots.
  assert (H : match run [] false witness_f13_graph witness_f13_roots witness_f13_sroots with
              | Jobs abs names _ c => c = true /\ no_collision names = true /\ length abs = length names
              | _ => False
              end) by (vm_compute; repeat apply conj; reflexivity).
  destruct (run [] false witness_f13_graph witness_f13_roots witness_f13_sroots) as [abs names jobs c| | |];
    try contradiction.
  destruct H as (-> & H). exists abs, names, jobs.
  split; [vm_compute; reflexivity|]. split; [vm_compute; reflexivity|]. split; [reflexivity|exact H].
Qed.

(* Every variant that has to be built (the roots and, transitively, the dependencies of the
   reference instances) is in the package set of exactly one abstract job ... *)
Theorem every_needed_variant_in_exactly_one_job : forall g roots nm,
  wf g = true -> wf_roots g roots = true -> sanitize g roots = Ok nm ->
  forall k, needed g (nm_state nm) roots k -> in_exactly_one_job (nm_state nm) k.
Proof.
  intros g roots nm W WR H k Hn. destruct (sanitize_Inv g roots nm W H) as (I & _ & C & R).
  destruct (needed_known g _ roots C R WR k Hn) as [j Hj]. eapply known_one_job; eassumption.
Qed.

(* ... and when all instances of a variant have the same dependency variants this is every package
   reachable from the roots. *)
Theorem every_reachable_pkg_in_exactly_one_job : forall g roots nm,
  wf g = true -> wf_roots g roots = true -> consistent_deps g -> sanitize g roots = Ok nm ->
  forall Q sQ, reachable g roots Q -> nth_error g Q = Some sQ -> in_exactly_one_job (nm_state nm) (s_vid sQ).
Proof.
  intros g roots nm W WR CD H Q sQ HQ HsQ. destruct (sanitize_Inv g roots nm W H) as (_ & _ & C & R).
  exact (every_needed_variant_in_exactly_one_job g roots nm W WR H _ (reachable_needed g _ roots C R WR CD Q sQ HQ HsQ)).
Qed.

(* Partial. The abstract job J of a package depends on the job K of every direct dependency of its
   reference instance: K is another job, it records the package as parent, and J's childs contain
   everything K builds or reaches.
   Full statement: additionally K's internal name is in JenkinsJob.getUpstreamJobs() of the Jenkins job
   that builds J.  The Jenkins-level half is jenkins_job_upstream_complete below; missing is the link
   between the two (that the instance stored in the JenkinsJob is the reference instance and that the
   internal name identifies the abstract job — the latter is false, F4). *)
Theorem job_depends_on_jobs_of_deps_partial : forall g roots nm,
  wf g = true -> sanitize g roots = Ok nm ->
  forall k J P Q sQ, jobof (nm_state nm) k = Some J -> lookupN k (st_ref (nm_state nm)) = Some P ->
  pdep g P Q -> nth_error g Q = Some sQ ->
  exists K, jobof (nm_state nm) (s_vid sQ) = Some K /\ K <> J /\ In k (pa (nm_state nm) K) /\
            sub (pk (nm_state nm) K) (ch (nm_state nm) J) /\ sub (ch (nm_state nm) K) (ch (nm_state nm) J).
Proof.
  intros g roots nm W H k J P Q sQ Hk HP HQ HsQ. destruct (sanitize_Inv g roots nm W H) as (I & _ & C & _).
  exact (dep_job g _ k J P Q sQ I C Hk HP HQ HsQ).
Qed.

(* Jenkins level. For every JenkinsJob produced by genJenkinsJobs (any prefix, shortdescription
   setting, root list): every variant the job builds has an instance all of whose valid dependencies
   (arguments, tools, sandbox) are either built by the same job or are recorded dependencies whose job
   name is in getUpstreamJobs(); a recorded dependency is never built by the job itself.
   Not covered (exercised by the correspondence and the oracle): that _genJenkinsJobs reaches every needed
   package (seenPackages/allVariantIds early rejects) and that the job name calculated from the display
   name identifies the abstract job (false, F4). *)
Theorem jenkins_job_upstream_complete : forall prefix short g nm roots jobs n jj ups,
  gen_roots prefix short g nm roots [] = Ok jobs -> lookup_str n jobs = Some jj ->
  upstream prefix g nm jj = Ok ups ->
  forall v, In v (j_steps jj) -> exists sid s, nth_error g sid = Some s /\ s_vid s = v /\
    forall d sd, In d (alldeps s) -> nth_error g d = Some sd -> s_valid sd = true ->
      In (s_vid sd) (j_steps jj) \/
      (~ In (s_vid sd) (j_steps jj) /\
       exists d' sd' m, nth_error g d' = Some sd' /\ s_vid sd' = s_vid sd /\ s_valid sd' = true /\
                        internal_name prefix g nm sd' = Ok m /\ In m ups).
Proof.
  intros prefix short g nm roots jobs n jj ups H Hn Hu v Hv.
  assert (HG : all_JJ_ok g jobs) by (eapply gen_roots_ok; [exact H|intros ? ? E; discriminate]).
  destruct (HG n jj Hn) as (W & D & B). destruct (B v Hv) as (sid & s & Hs & Hvs & F).
  exists sid, s. split; [exact Hs|]. split; [exact Hvs|]. intros d sd Hd Hsd Hval.
  destruct (F d sd Hd Hsd Hval) as [A|(d' & Hin)]; [left; exact A|right]. split; [exact (D _ _ Hin)|].
  destruct (W _ _ Hin) as (sd' & Hd' & Hv' & Hval'). unfold upstream in Hu.
  destruct (upstream_of_spec prefix g nm _ _ _ Hu) as [_ U]. destruct (U _ _ sd' Hin Hd') as (m & Hm & Hin').
  exists d', sd', m. auto.
Qed.

(* names_unique. Full statement (FALSE of the code, finding F4):
     forall g roots nm, wf g = true -> sanitize g roots = Ok nm -> ~ name_collision nm
   i.e. distinct abstract jobs get distinct internal Jenkins job names. *)
Theorem names_unique_refuted :
  exists g roots nm, wf g = true /\ wf_roots g roots = true /\ sanitize g roots = Ok nm /\ name_collision nm.
Proof.
  exists witness_f4_graph, witness_f4_roots.
  (* the packages "Lib" and "lib" are built by the jobs 4 and 2 *)
  destruct (Ok_ex (sanitize witness_f4_graph witness_f4_roots)
              (fun nm => lookupN 2%N (nm_names nm) = Some [76; 105; 98]%N /\
                         lookupN 6%N (nm_names nm) = Some [108; 105; 98]%N /\
                         jobof (nm_state nm) 2%N = Some 4 /\ jobof (nm_state nm) 6%N = Some 2))
    as (nm & E & N1 & N2 & J1 & J2); [vm_compute; repeat apply conj; reflexivity|].
  exists nm. split; [vm_compute; reflexivity|]. split; [vm_compute; reflexivity|]. split; [exact E|].
  exists 2%N, 6%N, [76; 105; 98]%N, [108; 105; 98]%N, 4, 2.
  split; [exact N1|]. split; [exact N2|]. split; [exact J1|]. split; [exact J2|]. split; [discriminate|].
  vm_compute. reflexivity.
Qed.

(* What does hold: the name is a total function of the job (every spanned package gets a name, all
   packages of one abstract job get the same name).  Missing for the full statement: injectivity, which
   fails for names that differ only in case or in characters replaced by '_', and for numbering
   suffixes that collide with existing names. *)
Theorem names_unique_partial : forall g roots nm,
  wf g = true -> sanitize g roots = Ok nm ->
  (forall v j, jobof (nm_state nm) v = Some j -> exists n, lookupN v (nm_names nm) = Some n) /\
  (forall v1 v2 j, jobof (nm_state nm) v1 = Some j -> jobof (nm_state nm) v2 = Some j ->
                   lookupN v1 (nm_names nm) = lookupN v2 (nm_names nm)).
Proof.
  intros g roots nm W H. destruct (sanitize_Inv g roots nm W H) as (I & L & _ & _).
  destruct (sanitize_Ok g roots nm H) as (_ & fnm & _ & _ & Ef & ->). exact (names_by_job _ fnm I L Ef).
Qed.

(* a well-formed graph on which jobs are merged ({q-a,q-b} and {q-b,q-c}) and numbered (q-1, q-2) *)
Example sanitize_nonvacuous :
  wf witness_merge_graph = true /\ wf_roots witness_merge_graph witness_merge_roots = true /\
  exists nm, sanitize witness_merge_graph witness_merge_roots = Ok nm /\
    (exists J, jobof (nm_state nm) 8%N = Some J /\ jobof (nm_state nm) 10%N = Some J) /\
    lookupN 8%N (nm_names nm) = Some [113; 45; 49]%N /\ lookupN 2%N (nm_names nm) = Some [113; 45; 50]%N.
Proof.
  split; [vm_compute; reflexivity|]. split; [vm_compute; reflexivity|].
  apply Ok_ex. vm_compute. split; [exists 2; split; reflexivity|]. split; reflexivity.
Qed.

(* the job graph is not empty: on the F4 witness the job of root depends on the job of lib *)
Example jdep_nonvacuous :
  exists nm J K, sanitize witness_f4_graph witness_f4_roots = Ok nm /\ jdep witness_f4_graph (nm_state nm) J K.
Proof.
  destruct (Ok_ex (sanitize witness_f4_graph witness_f4_roots)
              (fun nm => jobof (nm_state nm) 8%N = Some 1 /\ lookupN 8%N (st_ref (nm_state nm)) = Some 11 /\
                         jobof (nm_state nm) 6%N = Some 2))
    as (nm & E & H1 & H2 & H3); [vm_compute; repeat apply conj; reflexivity|].
  exists nm, 1, 2. split; [exact E|].
  exists 8%N, 11, 9. eexists. split; [exact H1|]. split; [exact H2|].
  split; [|split; [vm_compute; reflexivity|exact H3]].
  eexists. exists 10. split; [vm_compute; reflexivity|]. split; [reflexivity|]. split; [vm_compute; auto|].
  eapply tg_via; [vm_compute; reflexivity|reflexivity|vm_compute; auto|].
  eapply tg_pkg; [vm_compute; reflexivity|reflexivity].
Qed.

(* the test of the merge loop says "reaches" where there is a path and not the other way round: root and t *)
Example reaches_nonvacuous :
  exists nm Jroot Jt, sanitize witness_merge_graph witness_merge_roots = Ok nm /\
    jobof (nm_state nm) 14%N = Some Jroot /\ jobof (nm_state nm) 6%N = Some Jt /\
    reaches (nm_state nm) Jroot Jt = true /\ reaches (nm_state nm) Jt Jroot = false.
Proof.
  destruct (Ok_ex (sanitize witness_merge_graph witness_merge_roots)
              (fun nm => jobof (nm_state nm) 14%N = Some 1 /\ jobof (nm_state nm) 6%N = Some 3 /\
                         reaches (nm_state nm) 1 3 = true /\ reaches (nm_state nm) 3 1 = false))
    as (nm & E & H); [vm_compute; repeat apply conj; reflexivity|].
  exists nm, 1, 3. split; assumption.
Qed.

(* the Jenkins level: on the merge witness the job of root has the jobs of its dependencies upstream *)
Example upstream_nonvacuous :
  exists nm jobs jj ups, sanitize witness_merge_graph witness_merge_roots = Ok nm /\
    gen_roots [] false witness_merge_graph nm witness_merge_roots [] = Ok jobs /\
    lookup_str [114; 111; 111; 116]%N jobs = Some jj /\ upstream [] witness_merge_graph nm jj = Ok ups /\
    length (j_steps jj) = 2 /\ length ups = 1.
Proof.
  assert (H : match sanitize witness_merge_graph witness_merge_roots with
              | Ok nm =>
                  match gen_roots [] false witness_merge_graph nm witness_merge_roots [] with
                  | Ok jobs =>
                      match lookup_str [114; 111; 111; 116]%N jobs with
                      | Some jj => upstream [] witness_merge_graph nm jj = Ok [[113; 45; 49]%N] /\
                                   length (j_steps jj) = 2
                      | None => False
                      end
                  | _ => False
                  end
              | _ => False
              end) by (vm_compute; split; reflexivity).
  destruct (sanitize witness_merge_graph witness_merge_roots) as [nm| |]; [exists nm|contradiction..].
  destruct (gen_roots [] false witness_merge_graph nm witness_merge_roots []) as [jobs| |]; [exists jobs|contradiction..].
  destruct (lookup_str [114; 111; 111; 116]%N jobs) as [jj|]; [exists jj, [[113; 45; 49]%N]|contradiction].
  destruct H as [U L]. repeat apply conj; trivial.
Qed.

(* Fuel sufficiency: the recursive functions of Model.v run on explicit fuel and return OutOfFuel
   (OFuel in the build order) when it is used up; the theorems above exclude that result by hypothesis
   ([... = Ok ...]).  The theorems below show that it cannot occur with the fuel the entry points of the model
   pass, so nothing is lost.  Vocabulary (defined in FuelProofs.v, all boolean):
     [topo g]      every dependency (argument, tool, sandbox) of the step at position i is at a position < i
                   (the harness numbers the Step objects in post-order; the recipe graph of Bob is acyclic);
     [bounded st]  every AbstractJob referenced by vidToJob or by a list of nameToJobs has been allocated
                   (its id is below the allocation counter st_next);
     [refs_ok g r] self.__referenceStep maps a variant id to a package step of the graph with that id;
     [dval l], [is_digit c]   the value of a string of decimal digits / '0' <= c <= '9'. *)

(* [topo] is implied by what the harness checks on every extracted graph *)
Theorem wf_implies_topo : forall g,
  (wf_shape g = true -> topo g = true) /\ (wf g = true -> topo g = true).
Proof. intros g. split; apply wf_from_topo. Qed.

(* addStep: the recursion follows dependencies, i.e. goes to smaller positions, so [sid + 1] units of fuel are
   enough for the step at position sid and [length g + 1] for any step (span_roots passes S (length g)) *)
Theorem add_step_fuel_enough : forall g sid par st, topo g = true ->
  (forall fuel, sid < fuel -> add_step fuel g sid par st <> OutOfFuel) /\
  add_step (S (length g)) g sid par st <> OutOfFuel.
Proof.
  intros g sid par st T. split; [|apply add_step_fuel_length, T]. intros fuel. apply add_step_fuel, T.
Qed.

(* the spanning phase never runs out of fuel, and it establishes the two invariants the later phases need *)
Theorem span_fuel_enough : forall g roots, topo g = true ->
  span g roots <> OutOfFuel /\
  forall st, span g roots = Ok st -> bounded st = true /\ refs_ok g (st_ref st) = true.
Proof.
  intros g roots T. split; [apply span_roots_fuel, T|]. intros st H.
  split; [apply bounded_Bnd, (span_bounded g roots st H)|apply (span_refs_ok g roots st H)].
Qed.

(* addChilds: a job is entered only while its childs do not contain X and is marked before the recursion;
   so a chain of calls visits distinct allocated jobs and S (st_next st) units of fuel (what merge_two
   passes) are enough — whether or not the parents relation is acyclic *)
Theorem add_childs_fuel_enough : forall st ps X,
  bounded st = true -> add_childs (S (st_next st)) ps X st <> OutOfFuel.
Proof.
  intros st ps X HB. apply bounded_Bnd in HB as [HB _].
  apply add_childs_fuel; [exact HB|apply Nat.lt_succ_r, unmarked_bound].
Qed.

(* the greedy merge loop of one name: every round removes at least the head of the todo list *)
Theorem merge_name_fuel_enough : forall st todo,
  bounded st = true -> forallb (fun k => Nat.ltb k (st_next st)) todo = true ->
  merge_name (S (length todo)) todo st <> OutOfFuel.
Proof.
  intros st todo HB Ht. apply bounded_Bnd in HB. rewrite forallb_forall in Ht.
  apply (fine_fuel _ _ (merge_name_fine _ todo st (Nat.lt_succ_diag_r _) HB (fun k Hk => proj1 (Nat.ltb_lt _ _) (Ht k Hk)))).
Qed.

Theorem merge_all_fuel_enough : forall st, bounded st = true -> merge_all st <> OutOfFuel.
Proof. intros st HB. apply bounded_Bnd in HB. exact (fine_fuel _ _ (merge_names_fine _ st HB)). Qed.

(* prefix naming has no fuel of its own; the decimal rendering of the counter (fuel n + 1, silently
   truncating when the fuel is used up) is never truncated: the digits denote n, and any larger fuel gives the
   same string *)
Theorem names_fuel_enough :
  (forall st items fnm, final_names st items fnm <> OutOfFuel) /\
  (forall n, dval (dec n) = N.of_nat n /\ forallb is_digit (dec n) = true /\ dec n <> [] /\
             forall fuel, n < fuel -> dec_aux fuel (N.of_nat n) [] = dec n).
Proof.
  split; [intros st; apply final_names_fuel|]. intros n. destruct (dec_spec n) as (V & D & NE).
  split; [exact V|]. split; [exact D|]. split; [exact NE|apply dec_aux_fuel].
Qed.

Theorem sanitize_fuel_enough : forall g roots, topo g = true -> sanitize g roots <> OutOfFuel.
Proof.
  intros g roots T. unfold sanitize. apply bind_fuel; [apply span_roots_fuel, T|]. intros st0 Es.
  apply bind_fuel; [exact (fine_fuel _ _ (merge_names_fine _ st0 (span_bounded g roots st0 Es)))|]. intros st _.
  apply bind_fuel; [apply final_names_fuel|discriminate].
Qed.

(* _genJenkinsJobs: under [wf g] the pair (variant id of the owning package, position inside the package)
   decreases along every call, also across getReferenceStep (which keeps the variant id); at most
   [length g] nested calls, gen_roots passes S (S (length g)).
   Full statement (FALSE of the model, see gen_jobs_fuel_wf_shape_refuted): the same with [wf_shape g]. *)
Theorem gen_jobs_fuel_enough : forall prefix short g nm sid gs,
  wf g = true -> refs_ok g (st_ref (nm_state nm)) = true ->
  gen_jobs (S (S (length g))) prefix short g nm sid gs <> OutOfFuel.
Proof.
  intros prefix short g nm sid gs W R. apply (gen_jobs_fuel prefix short g nm W R).
  apply Nat.lt_succ_r, Nat.le_le_succ_r, rank_bound.
Qed.

Theorem gen_roots_fuel_enough : forall prefix short g roots sroots nm jobs,
  wf g = true -> sanitize g roots = Ok nm -> gen_roots prefix short g nm sroots jobs <> OutOfFuel.
Proof.
  intros prefix short g roots sroots nm jobs W Hs. apply gen_roots_fuel; [exact W|].
  apply (sanitize_refs_ok g roots nm Hs).
Qed.

(* genJenkinsBuildOrder, for every upstream relation (cyclic ones end in OCyclic): a job is put into
   [processing] before its upstream jobs are visited, and every round of the outer loop removes the picked
   job from [pending] *)
Theorem build_order_fuel_enough : forall ups,
  (forall j o, visit (S (S (length ups))) ups j o <> OFuel) /\ build_order ups <> OFuel.
Proof.
  intros ups. split.
  - intros j o. apply ores_fuel, (fine_fuel _ (VK j o)), visit_fine, Nat.lt_succ_r, Nat.le_le_succ_r, idle_bound.
  - apply order_loop_fuel; [simpl; rewrite map_length; apply Nat.lt_succ_diag_r|reflexivity].
Qed.

(* the entry point (genJenkinsJobs + genJenkinsBuildOrder): never out of fuel on a well-formed graph, for
   every prefix, shortdescription setting and root lists *)
Theorem gen_jobs_never_out_of_fuel : forall prefix short g roots sroots,
  wf g = true -> run prefix short g roots sroots <> ModelOutOfFuel.
Proof.
  intros prefix short g roots sroots W. unfold run.
  pose proof (sanitize_fuel_enough g roots (wf_from_topo _ _ _ _ W)) as H1.
  destruct (sanitize g roots) as [nm| |] eqn:Es; [|contradiction|discriminate].
  pose proof (gen_roots_fuel_enough prefix short g roots sroots nm [] W Es) as H2.
  destruct (gen_roots prefix short g nm sroots []) as [jobs| |]; [|contradiction|discriminate].
  pose proof (check_upstream_fuel prefix g nm jobs jobs) as H3.
  destruct (check_upstream prefix g nm jobs jobs) as [ups| |]; [|contradiction|discriminate].
  pose proof (proj2 (build_order_fuel_enough ups)) as H4.
  destruct (build_order ups); [discriminate|discriminate|contradiction|discriminate].
Qed.

(* Without "the variant graph over all instances is acyclic" the recursion of the MODEL of _genJenkinsJobs
   need not be well-founded: two instances of one variant, the reference instance depending through arguments
   on the other one.  (Not an input of the real code: getVariantId hashes the variant ids of arguments and
   tools, only sandbox edges can close such a cycle, and those are cut by seenPackages.) *)
Theorem gen_jobs_fuel_wf_shape_refuted :
  exists g roots, wf_shape g = true /\ wf_roots g roots = true /\ topo g = true /\
                  (exists nm, sanitize g roots = Ok nm) /\ run [] false g roots roots = ModelOutOfFuel.
Proof.
  exists witness_fuel_graph, witness_fuel_roots.
  split; [vm_compute; reflexivity|]. split; [vm_compute; reflexivity|]. split; [vm_compute; reflexivity|].
  split; [eexists|]; vm_compute; reflexivity.
Qed.

(* non-vacuity: the merge witness satisfies all hypotheses, the run goes through spanning, merging (two
   merged jobs), numbering, job generation and the build order, and ends with four Jenkins jobs in a DAG *)
Example fuel_nonvacuous :
  wf witness_merge_graph = true /\ topo witness_merge_graph = true /\
  (exists st, span witness_merge_graph witness_merge_roots = Ok st /\ bounded st = true /\
              refs_ok witness_merge_graph (st_ref st) = true /\ 0 < st_next st /\
              exists name todo, lookup_str name (st_n2j st) = Some todo /\ 1 < length todo /\
                                exists jobs st', merge_name (S (length todo)) todo st = Ok (jobs, st') /\
                                                 length jobs < length todo) /\
  (exists abs names jobs, run [] false witness_merge_graph witness_merge_roots witness_merge_roots
                          = Jobs abs names jobs false /\ 2 < length jobs) /\
  dec 120 = [49; 50; 48]%N.
Proof.
  split; [vm_compute; reflexivity|]. split; [vm_compute; reflexivity|]. split; [|split; [|vm_compute; reflexivity]].
  - (* the recipe q has the four jobs 2, 4, 5, 6; 5 is merged into 4 and 6 into 2 *)
    destruct (Ok_ex (span witness_merge_graph witness_merge_roots)
                (fun st => bounded st = true /\ refs_ok witness_merge_graph (st_ref st) = true /\ st_next st = 8 /\
                           lookup_str [113%N] (st_n2j st) = Some [2; 4; 5; 6] /\
                           match merge_name 5 [2; 4; 5; 6] st with Ok (jobs, _) => jobs = [2; 4] | _ => False end))
      as (st & E & B & R & N & L & M); [vm_compute; repeat apply conj; reflexivity|].
    exists st. split; [exact E|]. split; [exact B|]. split; [exact R|]. split; [rewrite N; apply Nat.lt_0_succ|].
    exists [113%N], [2; 4; 5; 6]. split; [exact L|]. split; [apply Nat.ltb_lt; reflexivity|]. cbn [length].
    destruct (merge_name 5 [2; 4; 5; 6] st) as [[jobs st']| |]; [|contradiction..].
    exists jobs, st'. split; [reflexivity|]. rewrite M. apply Nat.ltb_lt. reflexivity.
  - assert (H : match run [] false witness_merge_graph witness_merge_roots witness_merge_roots with
                | Jobs _ _ jobs c => c = false /\ length jobs = 4
                | _ => False
                end) by (vm_compute; split; reflexivity).
    destruct (run [] false witness_merge_graph witness_merge_roots witness_merge_roots) as [abs names jobs c| | |];
      try contradiction.
    destruct H as [-> L]. exists abs, names, jobs. split; [reflexivity|]. rewrite L. apply Nat.ltb_lt. reflexivity.
Qed.
