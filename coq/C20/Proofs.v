(* C20 — the state after JobNameCalculator.sanitize satisfies [Inv] of Model.v ([sanitize_Inv]).
   Merging: collapsing two jobs none of which reaches the other keeps a DAG a DAG (section Contract), and addChilds
   restores the closure of the childs sets ([merge_two_inv]); the loops keep a listing of the live jobs ([survivors]).
   Spanning: an invariant [SI] of the depth-first addStep, indexed by the stack of packages whose dependencies are
   being followed, gives [Inv] when the stack is empty ([span_Inv]).
   Proof-side invariants on the way: [ACRel] (addChilds), [tables_kept] and [LInv] (merging), [Alloc], [Ext], [Caller].
   After [sanitize_Inv] what Properties.v draws from [Inv] and [Cover] ([jdep_E], [dep_job], [needed_known],
   [reachable_needed]), the names ([names_by_job]), JenkinsJob.addStep / _genJenkinsJobs ([JJ_ok], [gen_roots_ok],
   [upstream_of_spec]); at the end the witness graphs of the examples and [name_collision] / [no_collision]. *)
From Coq Require Import List NArith Bool Arith Relations.
Require BobV.Common.ListFacts.
Require Import BobV.C20.Model.
Import ListNotations.

Lemma mem_In x l : mem x l = true <-> In x l.
Proof. exact (ListFacts.mem_In _ _ N.eqb_spec x l). Qed.

Lemma mem_false x l : mem x l = false <-> ~ In x l.
Proof. rewrite <- mem_In. destruct (mem x l); split; congruence. Qed.

Lemma In_union x a b : In x (union a b) <-> In x a \/ In x b.
Proof.
  unfold union. rewrite in_app_iff, filter_In. split.
  - intros [H|[H _]]; auto.
  - intros [H|H]; auto. destruct (mem x a) eqn:E.
    + left. now apply mem_In.
    + right. split; [exact H|reflexivity].
Qed.

Lemma subset_spec a b : subset a b = true <-> sub a b.
Proof.
  unfold subset, sub. rewrite forallb_forall. split; intros H x Hx.
  - apply mem_In. auto.
  - apply mem_In. auto.
Qed.

Lemma subset_false a b : subset a b = false -> ~ sub a b.
Proof. intros H H1. apply subset_spec in H1. congruence. Qed.

Lemma sub_refl a : sub a a.
Proof. intros x; auto. Qed.

Lemma sub_trans a b c : sub a b -> sub b c -> sub a c.
Proof. unfold sub; auto. Qed.

Lemma sub_union_l a b : sub a (union a b).
Proof. intros x H. apply In_union; auto. Qed.

Lemma sub_union_r a b : sub b (union a b).
Proof. intros x H. apply In_union; auto. Qed.

Lemma sub_union_lub a b c : sub a c -> sub b c -> sub (union a b) c.
Proof. intros H1 H2 x H. apply In_union in H as [H|H]; auto. Qed.

Lemma or_In_nil {A} (P : Prop) (x : A) : P <-> P \/ In x [].
Proof. split; [auto|intros [H|[]]; exact H]. Qed.

Lemma In_chain {A} (x : A) (P B D : Prop) l1 l2 :
  (P <-> B \/ In x l2) -> (B <-> D \/ In x l1) -> (P <-> D \/ In x (l1 ++ l2)).
Proof.
  intros [P1 P2] [B1 B2]. split.
  - intros H. destruct (P1 H) as [H1|H1]; [destruct (B1 H1) as [H2|H2]|]; auto using in_or_app.
  - intros [H|H]; [|apply in_app_or in H as [H|H]]; auto.
Qed.

Lemma t1n_app {A} (R : A -> A -> Prop) x y z : clos_trans_1n A R x y -> clos_trans_1n A R y z -> clos_trans_1n A R x z.
Proof.
  intros H1 H2. apply clos_trans_t1n. eapply t_trans; apply clos_t1n_trans; eassumption.
Qed.

Lemma t1n_map {A} (R1 R2 : A -> A -> Prop) x y :
  (forall a b, R1 a b -> R2 a b) -> clos_trans_1n A R1 x y -> clos_trans_1n A R2 x y.
Proof.
  intros H P. induction P as [u v H1|u v w H1 _ IH].
  - apply t1n_step. auto.
  - eapply Relation_Operators.t1n_trans; [apply H; exact H1|exact IH].
Qed.

Section Contract.
  Variable V : Type.
  Variable V_eq_dec : forall a b : V, {a = b} + {a <> b}.
  Variable R : V -> V -> Prop.
  Variables i j : V.

  Definition cf (x : V) : V := if V_eq_dec x j then i else x.

  Definition R' (a b : V) : Prop := exists a0 b0, R a0 b0 /\ cf a0 = a /\ cf b0 = b.

  Hypothesis acyc : forall x, ~ clos_trans_1n V R x x.
  Hypothesis nij : ~ clos_trans_1n V R i j.
  Hypothesis nji : ~ clos_trans_1n V R j i.

  Definition inS (x : V) : Prop := x = i \/ x = j.

  Lemma noSS u w : inS u -> inS w -> ~ clos_trans_1n V R u w.
  Proof. intros [->| ->] [->| ->]; auto. Qed.

  Lemma cf_eq a b x : cf a = x -> cf b = x -> a = b \/ (inS a /\ inS b).
  Proof.
    unfold cf, inS. intros <-. destruct (V_eq_dec a j), (V_eq_dec b j); intros H; subst; auto.
  Qed.

  (* a path of the contracted graph lifts to a path of the original graph with at most one jump
     between i and j *)
  Lemma lift x y : clos_trans_1n V R' x y ->
    (exists a b, cf a = x /\ cf b = y /\ clos_trans_1n V R a b) \/
    (exists a b u w, cf a = x /\ cf b = y /\ inS u /\ inS w /\ clos_trans_1n V R a u /\ clos_trans_1n V R w b).
  Proof.
    induction 1 as [x y (a0 & b0 & HR & Ha & Hb) | x z y (a0 & b0 & HR & Ha & Hb) _ IH].
    - left. exists a0, b0. repeat split; auto. now apply t1n_step.
    - destruct IH as [(c & d & Hc & Hd & P) | (c & d & u & w & Hc & Hd & Hu & Hw & P1 & P2)].
      + destruct (cf_eq b0 c z Hb Hc) as [->|[S1 S2]].
        * left. exists a0, d. repeat split; auto. eapply Relation_Operators.t1n_trans; [exact HR|exact P].
        * right. exists a0, d, b0, c. repeat split; auto. now apply t1n_step.
      + destruct (cf_eq b0 c z Hb Hc) as [->|[S1 S2]].
        * right. exists a0, d, u, w. repeat split; auto.
          eapply Relation_Operators.t1n_trans; [exact HR|exact P1].
        * exfalso. exact (noSS c u S2 Hu P1).
  Qed.

  Lemma contract_acyclic x : ~ clos_trans_1n V R' x x.
  Proof.
    intros H. apply lift in H as [(a & b & Ha & Hb & P) | (a & b & u & w & Ha & Hb & Hu & Hw & P1 & P2)].
    - destruct (cf_eq a b x Ha Hb) as [->|[S1 S2]].
      + exact (acyc _ P).
      + exact (noSS _ _ S1 S2 P).
    - destruct (cf_eq a b x Ha Hb) as [->|[S1 S2]].
      + exact (noSS _ _ Hw Hu (t1n_app _ _ _ _ P2 P1)).
      + exact (noSS _ _ S1 Hu P1).
  Qed.
End Contract.

Lemma get_set_job st j a k : get_job (set_job st j a) k = if Nat.eqb k j then a else get_job st k.
Proof. unfold get_job, set_job. simpl. destruct (Nat.eqb k j); reflexivity. Qed.

Lemma get_set_job_same st j a : get_job (set_job st j a) j = a.
Proof. rewrite get_set_job, Nat.eqb_refl. reflexivity. Qed.

Lemma get_set_job_other st j a k : k <> j -> get_job (set_job st j a) k = get_job st k.
Proof. intros H. rewrite get_set_job. apply Nat.eqb_neq in H. now rewrite H. Qed.

Lemma set_job_keeps (f : ajob -> vset) st j a :
  f a = f (get_job st j) -> forall k, f (get_job (set_job st j a) k) = f (get_job st k).
Proof. intros Ha k. rewrite get_set_job. destruct (Nat.eqb_spec k j) as [->|]; [exact Ha|reflexivity]. Qed.

Lemma set_job_grows (f : ajob -> vset) st j a P :
  (forall x, In x (f a) <-> In x (f (get_job st j)) \/ In x P) ->
  forall k x, In x (f (get_job (set_job st j a) k)) <-> In x (f (get_job st k)) \/ (k = j /\ In x P).
Proof.
  intros Ha k x. rewrite get_set_job. destruct (Nat.eqb_spec k j) as [->|Hk].
  - split; [intros Hx; apply Ha in Hx as [Hx|Hx]; auto|intros [Hx|[_ Hx]]; apply Ha; auto].
  - split; [auto|intros [Hx|[E0 _]]; [exact Hx|contradiction]].
Qed.

Lemma lookup_nat_cons {A} k k' (v : A) m :
  lookup_nat k ((k', v) :: m) = if Nat.eqb k k' then Some v else lookup_nat k m.
Proof. reflexivity. Qed.

Lemma lookupN_cons {A} k k' (v : A) m :
  lookupN k ((k', v) :: m) = if N.eqb k k' then Some v else lookupN k m.
Proof. reflexivity. Qed.

Lemma lookup_remap v ps i m : lookupN v (remap ps i m) = if mem v ps then Some i else lookupN v m.
Proof.
  revert m. induction ps as [|k r IH]; intros m; simpl; [reflexivity|].
  rewrite IH. simpl. destruct (mem v r); [now rewrite orb_true_r|].
  rewrite orb_false_r. destruct (N.eqb v k); reflexivity.
Qed.

Definition known (st : sstate) (v : N) : Prop := exists j, jobof st v = Some j.
Definition reach (st : sstate) (j : nat) : vset := reach_set (get_job st j).

Lemma In_reach st j x : In x (reach st j) <-> In x (pk st j) \/ In x (ch st j).
Proof. unfold reach, reach_set, pk, ch. apply In_union. Qed.

Lemma E_ext a b : st_v2j b = st_v2j a -> (forall k, pa b k = pa a k) -> forall J K, E b J K <-> E a J K.
Proof.
  intros Hv Hp J K. unfold E, live, jobof. rewrite Hv.
  split; intros (p & L & P & Q); exists p; (split; [exact L|split; [|exact Q]]); [rewrite <- Hp|rewrite Hp]; exact P.
Qed.

Lemma E_live_l st J K : E st J K -> live st J.
Proof. intros (p & _ & _ & H). exists p. exact H. Qed.

Lemma E_live_r st J K : E st J K -> live st K.
Proof. intros (p & H & _). exact H. Qed.

Lemma grow_twice (a b c P Q x : Prop) : (b <-> a \/ (P /\ x)) -> (c <-> b \/ (Q /\ x)) -> (c <-> a \/ ((P \/ Q) /\ x)).
Proof.
  intros [A1 A2] [B1 B2]. split.
  - intros Hc. destruct (B1 Hc) as [Hb|[HQ Hx]]; [destruct (A1 Hb) as [Ha|[HP Hx]]|]; auto.
  - intros [Ha|[[HP|HQ] Hx]]; apply B2; auto.
Qed.

(* addChilds(ps, X) changes childs sets only: the jobs in [M] get X *)
Record ACRel (X : vset) (M : nat -> Prop) (st st' : sstate) : Prop := {
  ac_v2j : st_v2j st' = st_v2j st;
  ac_n2j : st_n2j st' = st_n2j st;
  ac_v2n : st_v2n st' = st_v2n st;
  ac_ref : st_ref st' = st_ref st;
  ac_next : st_next st' = st_next st;
  ac_pk : forall j, pk st' j = pk st j;
  ac_pa : forall j, pa st' j = pa st j;
  ac_ch : forall K x, In x (ch st' K) <-> In x (ch st K) \/ (M K /\ In x X)
}.

Lemma ACRel_refl X st : ACRel X (fun _ => False) st st.
Proof. constructor; auto. intros; tauto. Qed.

(* j.childs |= X *)
Lemma ACRel_mark X st j :
  ACRel X (fun K => K = j) st (set_job st j (mkJob (pk st j) (pa st j) (union (ch st j) X))).
Proof.
  constructor; try reflexivity.
  - apply (set_job_keeps a_pkgs). reflexivity.
  - apply (set_job_keeps a_parents). reflexivity.
  - apply (set_job_grows a_childs). intros x. apply In_union.
Qed.

Lemma ACRel_mono X M a b : ACRel X M a b -> forall K, sub (ch a K) (ch b K).
Proof. intros H K x Hx. apply (ac_ch _ _ _ _ H). left. exact Hx. Qed.

Lemma ACRel_E X M a b : ACRel X M a b -> forall J K, E b J K <-> E a J K.
Proof. intros H. exact (E_ext a b (ac_v2j _ _ _ _ H) (ac_pa _ _ _ _ H)). Qed.

Lemma ACRel_trans X M1 M2 a b c : ACRel X M1 a b -> ACRel X M2 b c -> ACRel X (fun K => M1 K \/ M2 K) a c.
Proof.
  intros H1 H2. constructor.
  - rewrite (ac_v2j _ _ _ _ H2). apply H1.
  - rewrite (ac_n2j _ _ _ _ H2). apply H1.
  - rewrite (ac_v2n _ _ _ _ H2). apply H1.
  - rewrite (ac_ref _ _ _ _ H2). apply H1.
  - rewrite (ac_next _ _ _ _ H2). apply H1.
  - intros j. rewrite (ac_pk _ _ _ _ H2). apply H1.
  - intros j. rewrite (ac_pa _ _ _ _ H2). apply H1.
  - intros K x. exact (grow_twice _ _ _ _ _ _ (ac_ch _ _ _ _ H1 K x) (ac_ch _ _ _ _ H2 K x)).
Qed.

(* [M] is the set of jobs addChilds has entered: found without X, given X, their parents visited in turn.  It is
   generated by the jobs of [ps] and the step from a job to the jobs of its parents (second conjunct); [merge_two_inv]
   shows with it that the absorbed job is never entered *)
Lemma add_childs_spec : forall fuel X ps st st',
  add_childs fuel ps X st = Ok st' ->
  exists M, ACRel X M st st' /\
            (forall Q : nat -> Prop, (forall p J, In p ps -> jobof st p = Some J -> Q J) ->
               (forall J K, E st J K -> Q K -> Q J) -> forall K, M K -> Q K) /\
            (forall K p J, M K -> In p (pa st K) -> jobof st p = Some J -> sub X (ch st' J)) /\
            (forall p J, In p ps -> jobof st p = Some J -> sub X (ch st' J)).
Proof.
  induction fuel as [|f IHf]; intros X ps st st' H; [discriminate|].
  simpl in H. revert st st' H.
  induction ps as [|p r IHr]; intros st st' H; simpl in H.
  - injection H as <-. exists (fun _ => False). split; [apply ACRel_refl|]. split; [intros Q _ _ K []|]. split; [intros K p J []|intros p J []].
  - destruct (lookupN p (st_v2j st)) as [j|] eqn:Ej; [|discriminate].
    destruct (subset X (a_childs (get_job st j))) eqn:Es.
    + apply IHr in H as (M & R & A & N & C). exists M. split; [exact R|]. split; [|split; [exact N|]].
      * intros Q H1 H2. apply (A Q); [|exact H2]. intros q J Hq. apply H1. right. exact Hq.
      * intros q J [<-|Hq] HJ.
        -- unfold jobof in HJ. rewrite Ej in HJ. injection HJ as <-.
           apply subset_spec in Es. eapply sub_trans; [exact Es|apply (ACRel_mono _ _ _ _ R)].
        -- eapply C; eassumption.
    + pose proof (ACRel_mark X st j) as Rm. fold (pk st j) (pa st j) (ch st j) in H.
      set (st1 := set_job st j _) in *.
      destruct (add_childs f (pa st j) X st1) as [st2| |] eqn:E2; try discriminate.
      apply IHf in E2 as (M1 & R12 & A12 & N12 & C12).
      apply IHr in H as (M2 & R2 & A2 & N2 & C2).
      pose proof (ACRel_trans _ _ _ _ _ _ Rm R12) as R02.
      exists (fun K => (K = j \/ M1 K) \/ M2 K). split; [exact (ACRel_trans _ _ _ _ _ _ R02 R2)|]. split; [|split].
      * intros Q H1 H2 K [[->|MK]|MK].
        -- exact (H1 p j (or_introl eq_refl) Ej).
        -- apply (A12 Q); [| |exact MK].
           ++ intros q J Hq HJ. apply (H2 J j); [|exact (H1 p j (or_introl eq_refl) Ej)].
              exists q. split; [exists p; exact Ej|]. split; [exact Hq|exact HJ].
           ++ intros J K' HE. apply (H2 J K'), (ACRel_E _ _ _ _ Rm), HE.
        -- apply (A2 Q); [| |exact MK].
           ++ intros q J Hq HJ. apply (H1 q J (or_intror Hq)). unfold jobof in *. rewrite <- (ac_v2j _ _ _ _ R02). exact HJ.
           ++ intros J K' HE. apply (H2 J K'), (ACRel_E _ _ _ _ R02), HE.
      * intros K q J [[->|MK]|MK] Hq HJ.
        -- eapply sub_trans; [exact (C12 q J Hq HJ)|apply (ACRel_mono _ _ _ _ R2)].
        -- eapply sub_trans; [|apply (ACRel_mono _ _ _ _ R2)].
           apply (N12 K q J MK); [rewrite (ac_pa _ _ _ _ Rm); exact Hq|exact HJ].
        -- apply (N2 K q J MK); [rewrite (ac_pa _ _ _ _ R02); exact Hq|].
           unfold jobof. rewrite (ac_v2j _ _ _ _ R02). exact HJ.
      * intros q J [<-|Hq] HJ.
        -- unfold jobof in HJ. rewrite Ej in HJ. injection HJ as <-.
           intros x Hx. apply (ACRel_mono _ _ _ _ R2), (ac_ch _ _ _ _ R02). right. auto.
        -- apply (C2 q J Hq). unfold jobof. rewrite (ac_v2j _ _ _ _ R02). exact HJ.
Qed.

(* after addChilds an edge is closed if it was closed before, or if all it lacked was X and its parent is in [ps] *)
Lemma ACRel_closes X M ps st st' : ACRel X M st st' ->
  (forall K p J, M K -> In p (pa st K) -> jobof st p = Some J -> sub X (ch st' J)) ->
  (forall p J, In p ps -> jobof st p = Some J -> sub X (ch st' J)) ->
  forall K p J, In p (pa st K) -> jobof st p = Some J ->
  (forall x, In x (reach st K) -> In x (ch st J) \/ (In p ps /\ In x X)) -> sub (reach st' K) (ch st' J).
Proof.
  intros R NM C K p J Hp HJ H x Hx. apply In_reach in Hx. rewrite (ac_pk _ _ _ _ R) in Hx.
  assert (Old : In x (reach st K) -> In x (ch st' J)).
  { intros Hr. destruct (H x Hr) as [A|[A B]]; [exact (ACRel_mono _ _ _ _ R J x A)|exact (C p J A HJ x B)]. }
  destruct Hx as [Hx|Hx]; [apply Old, In_reach; left; exact Hx|].
  apply (ac_ch _ _ _ _ R) in Hx as [Hx|[MK Hx]]; [apply Old, In_reach; right; exact Hx|exact (NM K p J MK Hp HJ x Hx)].
Qed.

(* the test of the merge loop: "i reaches j" is visible in the childs sets *)
Lemma reach_closed st I J : Inv st -> clos_trans_1n nat (E st) I J ->
  sub (pk st J) (ch st I) /\ sub (ch st J) (ch st I).
Proof.
  intros HI P. induction P as [I J (p & L & Hp & HJ)|I K J (p & L & Hp & HJ) _ [IH1 IH2]].
  - eapply inv_closed; eassumption.
  - destruct (inv_closed _ HI K p I L Hp HJ) as [_ C].
    split; eapply sub_trans; eassumption.
Qed.

Lemma reaches_spec st i j : reaches st i j = true <-> sub (pk st j) (ch st i) /\ sub (ch st j) (ch st i).
Proof.
  unfold reaches, reach_set. rewrite subset_spec. unfold pk, ch. split.
  - intros H. split; intros x Hx; apply H, In_union; auto.
  - intros [H1 H2] x Hx. apply In_union in Hx as [Hx|Hx]; auto.
Qed.

Lemma reaches_complete st I J : Inv st -> clos_trans_1n nat (E st) I J -> reaches st I J = true.
Proof. intros HI P. apply reaches_spec. apply reach_closed; assumption. Qed.

Lemma not_reaches st i j : Inv st -> reaches st i j = false -> ~ clos_trans_1n nat (E st) i j.
Proof. intros HI H P. rewrite (reaches_complete _ _ _ HI P) in H. discriminate. Qed.

(* the frame under which [cov_entry] and [targets_covered] survive a step of spanning or a merge; it follows the
   package, not the job, since a merge moves packages to another job *)
Definition parents_kept (st st' : sstate) : Prop :=
  forall v j, jobof st v = Some j -> exists j', jobof st' v = Some j' /\ sub (pa st j) (pa st' j').

(* what every merge loop returns beside [Inv]: it carries [Cover] and [roots_known] from span to the end of
   sanitize ([Cover_mono], [sanitize_Inv]) *)
Definition tables_kept (st st' : sstate) : Prop :=
  st_v2n st' = st_v2n st /\ st_ref st' = st_ref st /\ (forall v, jobof st' v = None <-> jobof st v = None) /\
  parents_kept st st'.

Lemma tables_kept_refl st : tables_kept st st.
Proof.
  split; [reflexivity|]. split; [reflexivity|]. split; [tauto|].
  intros v j H. exists j. split; [exact H|apply sub_refl].
Qed.

Lemma tables_kept_trans a b c : tables_kept a b -> tables_kept b c -> tables_kept a c.
Proof.
  intros (A1 & A2 & A3 & A4) (B1 & B2 & B3 & B4).
  split; [congruence|]. split; [congruence|]. split; [intros v; rewrite B3; apply A3|].
  intros v j H. destruct (A4 v j H) as (j1 & A & B). destruct (B4 v j1 A) as (j2 & C & D).
  exists j2. split; [exact C|eapply sub_trans; eassumption].
Qed.

Lemma cov_entry_kept g st st' k :
  lookupN k (st_ref st') = lookupN k (st_ref st) -> lookupN k (st_v2n st') = lookupN k (st_v2n st) ->
  parents_kept st st' -> cov_entry g st k -> cov_entry g st' k.
Proof.
  intros R1 R2 PM (P & sP & H1 & H2 & H3 & H4 & H5 & H6). exists P, sP. rewrite R1, R2.
  split; [exact H1|]. split; [exact H2|]. split; [exact H3|]. split; [exact H4|]. split; [exact H5|].
  intros Q sQ HQ HsQ. destruct (H6 Q sQ HQ HsQ) as (jq & Hjq & Hin).
  destruct (PM _ _ Hjq) as (jq' & A & B). exists jq'. split; [exact A|apply B, Hin].
Qed.

Definition cfn (i j k : nat) : nat := cf nat Nat.eq_dec i j k.

Lemma cfn_j i j : cfn i j j = i.
Proof. unfold cfn, cf. destruct (Nat.eq_dec j j); congruence. Qed.

Lemma cfn_other i j k : k <> j -> cfn i j k = k.
Proof. unfold cfn, cf. destruct (Nat.eq_dec k j); congruence. Qed.

Lemma cfn_neq i j k : i <> j -> cfn i j k <> j.
Proof. unfold cfn, cf. destruct (Nat.eq_dec k j); congruence. Qed.

Lemma merged_sets (f : ajob -> vset) st st1 i j :
  f (get_job st1 i) = union (f (get_job st i)) (f (get_job st j)) ->
  (forall k, k <> i -> get_job st1 k = get_job st k) -> i <> j ->
  forall K x, K <> j -> (In x (f (get_job st1 K)) <-> exists k, cfn i j k = K /\ In x (f (get_job st k))).
Proof.
  intros Hi Ho Hij K x HK. split.
  - intros Hx. destruct (Nat.eq_dec K i) as [->|Ki].
    + rewrite Hi in Hx. apply In_union in Hx as [Hx|Hx]; [exists i|exists j]; (split; [|exact Hx]).
      * apply cfn_other, Hij.
      * apply cfn_j.
    + rewrite Ho in Hx by exact Ki. exists K. split; [apply cfn_other, HK|exact Hx].
  - intros (k & <- & Hx). destruct (Nat.eq_dec k j) as [->|Hk].
    + rewrite cfn_j, Hi. apply In_union. right. exact Hx.
    + rewrite cfn_other by exact Hk. destruct (Nat.eq_dec k i) as [->|Hki].
      * rewrite Hi. apply In_union. left. exact Hx.
      * rewrite Ho by exact Hki. exact Hx.
Qed.

Lemma merge_two_inv st i j st' :
  Inv st -> live st i -> live st j -> i <> j ->
  reaches st i j = false -> reaches st j i = false ->
  merge_two st i j = Ok st' ->
  Inv st' /\ st_n2j st' = st_n2j st /\ tables_kept st st' /\ (forall k, live st' k <-> k <> j /\ live st k).
Proof.
  intros HI Li Lj Hij Rij Rji H.
  unfold merge_two in H.
  set (ai := get_job st i) in *. set (aj := get_job st j) in *.
  set (ai' := mkJob (union (a_pkgs ai) (a_pkgs aj)) (union (a_parents ai) (a_parents aj))
                    (union (a_childs ai) (a_childs aj))) in *.
  set (st1 := set_job st i ai') in *.
  set (X := reach_set ai') in *.
  destruct (add_childs (S (st_next st)) (a_parents ai') X st1) as [st2| |] eqn:E2; try discriminate.
  injection H as <-.
  apply add_childs_spec in E2 as (M & R & AM & NM & C).
  pose proof (not_reaches _ _ _ HI Rij) as Nij.
  pose proof (not_reaches _ _ _ HI Rji) as Nji.
  pose proof (contract_acyclic nat Nat.eq_dec (E st) i j (inv_acyclic _ HI) Nij Nji) as CA.
  assert (G1i : get_job st1 i = ai') by apply get_set_job_same.
  assert (G1o : forall k, k <> i -> get_job st1 k = get_job st k) by (intros; now apply get_set_job_other).
  set (st' := mkSt (st_jobs st2) (st_next st2) (remap (a_pkgs aj) i (st_v2j st2)) (st_v2n st2) (st_ref st2) (st_n2j st2)).
  (* the packages change their job, and the jobs get their packages and parents, along cfn i j *)
  assert (JF : forall v, jobof st' v = option_map (cfn i j) (jobof st v)).
  { intros v. unfold jobof at 1. simpl. rewrite lookup_remap, (ac_v2j _ _ _ _ R). change (lookupN v (st_v2j st1)) with (jobof st v).
    assert (Mj : mem v (a_pkgs aj) = true <-> jobof st v = Some j).
    { rewrite mem_In. split; [apply (inv_own _ HI), Lj|apply (inv_in _ HI)]. }
    destruct (mem v (a_pkgs aj)) eqn:Em.
    - rewrite (proj1 Mj eq_refl). simpl. now rewrite cfn_j.
    - destruct (jobof st v) as [k|] eqn:Ek; [|reflexivity].
      simpl. rewrite cfn_other; [reflexivity|]. intros ->. discriminate (proj2 Mj eq_refl). }
  assert (PKc : forall K x, K <> j -> (In x (pk st' K) <-> exists k, cfn i j k = K /\ In x (pk st k))).
  { intros K x. change (pk st' K) with (pk st2 K). rewrite (ac_pk _ _ _ _ R).
    apply (merged_sets a_pkgs st st1 i j (f_equal a_pkgs G1i) G1o Hij). }
  assert (PAc : forall K x, K <> j -> (In x (pa st' K) <-> exists k, cfn i j k = K /\ In x (pa st k))).
  { intros K x. change (pa st' K) with (pa st2 K). rewrite (ac_pa _ _ _ _ R).
    apply (merged_sets a_parents st st1 i j (f_equal a_parents G1i) G1o Hij). }
  assert (LV : forall K, live st' K <-> K <> j /\ live st K).
  { intros K. split.
    - intros (v & Hv). rewrite JF in Hv. destruct (jobof st v) as [k|] eqn:Ek; [|discriminate].
      simpl in Hv. injection Hv as <-. split; [apply cfn_neq, Hij|].
      destruct (Nat.eq_dec k j) as [->|Hk]; [rewrite cfn_j; exact Li|rewrite cfn_other by exact Hk; exists v; exact Ek].
    - intros (Hk & v & Hv). exists v. rewrite JF, Hv. simpl. now rewrite cfn_other. }
  assert (LVc : forall k, live st' (cfn i j k) -> live st k).
  { intros k L. destruct (Nat.eq_dec k j) as [->|Hk]; [exact Lj|]. rewrite cfn_other in L by exact Hk. apply LV, L. }
  assert (EE : forall J K, E st' J K -> R' nat Nat.eq_dec (E st) i j J K).
  { intros J K (p & L & Hp & HJ). apply PAc in Hp as (k & <- & Hp); [|apply LV, L].
    rewrite JF in HJ. destruct (jobof st p) as [a0|] eqn:Ea; [|discriminate]. inversion HJ; subst J.
    exists a0, k. split; [exists p; auto|split; reflexivity]. }
  assert (E1R : forall u v, E st1 u v -> R' nat Nat.eq_dec (E st) i j (cfn i j u) (cfn i j v)).
  { intros u v (q & L & Hq & HJ). destruct (Nat.eq_dec v i) as [->|Hv].
    - unfold pa in Hq. rewrite G1i in Hq. apply In_union in Hq as [Hq|Hq].
      + exists u, i. split; [exists q; auto|split; reflexivity].
      + exists u, j. split; [exists q; auto|]. split; [reflexivity|]. rewrite cfn_j. symmetry. apply cfn_other, Hij.
    - exists u, v. split; [|split; reflexivity]. exists q. split; [exact L|]. split; [|exact HJ].
      unfold pa in *. rewrite G1o in Hq by exact Hv. exact Hq. }
  (* j has not got X: it would be an ancestor of a parent of the merged job, a cycle after the merge *)
  assert (NMj : ~ M j).
  { intros MJ. apply (AM (fun K => clos_trans_1n nat (R' nat Nat.eq_dec (E st) i j) (cfn i j K) i)) in MJ.
    - rewrite cfn_j in MJ. exact (CA i MJ).
    - intros q J0 Hq HJ0.
      assert (H3 : E st1 J0 i) by (exists q; split; [exact Li|]; split; [unfold pa; rewrite G1i; exact Hq|exact HJ0]).
      apply E1R in H3. rewrite (cfn_other i j i Hij) in H3. apply t1n_step, H3.
    - intros J K HE HK. eapply Relation_Operators.t1n_trans; [apply E1R, HE|exact HK]. }
  split; [|split; [apply R|split; [|exact LV]]].
  2:{ split; [apply R|]. split; [apply R|]. split.
      - intros v. rewrite JF. destruct (jobof st v); simpl; split; congruence.
      - intros v k Hv. exists (cfn i j k). split; [rewrite JF, Hv; reflexivity|]. intros x Hx.
        apply PAc; [apply cfn_neq, Hij|exists k; auto]. }
  constructor.
  - intros v K Hv. rewrite JF in Hv. destruct (jobof st v) as [k|] eqn:Ek; [|discriminate]. inversion Hv; subst K.
    apply PKc; [apply cfn_neq, Hij|]. exists k. split; [reflexivity|apply (inv_in _ HI), Ek].
  - intros K v L Hv. apply PKc in Hv as (k & <- & Hv); [|apply LV, L].
    rewrite JF, (inv_own _ HI k v (LVc k L) Hv). reflexivity.
  - intros K p L Hp. apply PAc in Hp as (k & <- & Hp); [|apply LV, L].
    destruct (inv_par _ HI k p (LVc k L) Hp) as [a Ha]. rewrite JF, Ha. simpl. eauto.
  - intros K p J' L Hp HJ. rewrite JF in HJ. destruct (jobof st p) as [A|] eqn:EA; [|discriminate].
    injection HJ as <-. destruct (proj1 (LV K) L) as [Kj LK].
    change (pa st' K) with (pa st2 K) in Hp. rewrite (ac_pa _ _ _ _ R) in Hp.
    (* closed along the old edge from A: the merged job was owed X by the jobs of its parents *)
    assert (CL : sub (reach st2 K) (ch st2 A)).
    { apply (ACRel_closes X M (a_parents ai') st1 st2 R NM C K p A Hp EA). intros x Hx.
      unfold reach, pa in Hx, Hp. destruct (Nat.eq_dec K i) as [->|Ki].
      - right. rewrite G1i in Hx, Hp. split; assumption.
      - left. rewrite G1o in Hx, Hp by exact Ki. apply In_reach in Hx.
        destruct (inv_closed _ HI K p A LK Hp EA) as [C1 C2].
        assert (Hc : In x (ch st A)) by (destruct Hx as [Hx|Hx]; [apply C1, Hx|apply C2, Hx]).
        unfold ch. destruct (Nat.eq_dec A i) as [->|Ai]; [rewrite G1i; apply In_union; left|rewrite G1o by exact Ai]; exact Hc. }
    (* when the parent was j the edge now comes from i, which has the childs of j *)
    assert (UP : sub (ch st2 A) (ch st2 (cfn i j A))).
    { destruct (Nat.eq_dec A j) as [->|HA]; [|rewrite cfn_other by exact HA; apply sub_refl].
      rewrite cfn_j. intros x Hx. apply (ac_ch _ _ _ _ R) in Hx as [Hx|[MJ _]]; [|destruct (NMj MJ)].
      apply (ACRel_mono _ _ _ _ R). unfold ch in *. rewrite G1o in Hx by (intros E0; exact (Hij (eq_sym E0))).
      rewrite G1i. apply In_union. right. exact Hx. }
    split; intros x Hx; apply UP, CL, In_reach; [left|right]; exact Hx.
  - intros J P. apply (t1n_map _ _ _ _ EE) in P.
    exact (CA J P).
Qed.

(* Both loops return the jobs of their list that are still live; all other jobs live on. *)
Definition survivors (l l' : list nat) (st st' : sstate) : Prop :=
  incl l' l /\ NoDup l' /\ forall k, live st' k <-> live st k /\ (In k l -> In k l').

Lemma survivors_nil st : survivors [] [] st st.
Proof. split; [apply incl_refl|]. split; [constructor|tauto]. Qed.

Lemma survivors_cons x r t st st' : survivors r t st st' -> ~ In x r -> survivors (x :: r) (x :: t) st st'.
Proof.
  intros (T & ND & L) Hx. split; [|split].
  - intros k [<-|Hk]; [left; reflexivity|right; apply T, Hk].
  - constructor; [intros H; apply Hx, T, H|exact ND].
  - intros k. rewrite L. simpl. split; intros [Lk Hk]; (split; [exact Lk|]).
    + intros [<-|Hr]; [left; reflexivity|right; apply Hk, Hr].
    + intros Hr. destruct (Hk (or_intror Hr)) as [<-|Hin]; [contradiction|exact Hin].
Qed.

Lemma survivors_trans l t u a b c : survivors l t a b -> survivors t u b c -> survivors l u a c.
Proof.
  intros (T1 & _ & L1) (T2 & ND2 & L2). split; [intros k Hk; apply T1, T2, Hk|]. split; [exact ND2|].
  intros k. rewrite L2, L1. split.
  - intros [[Lk H1] H2]. split; [exact Lk|intros Hl; apply H2, H1, Hl].
  - intros [Lk H]. split; [split; [exact Lk|intros Hl; apply T2, H, Hl]|intros Ht; apply H, T1, Ht].
Qed.

Lemma survivors_merged j r t a b c :
  (forall k, live b k <-> k <> j /\ live a k) -> survivors r t b c -> ~ In j r -> survivors (j :: r) t a c.
Proof.
  intros L1 (T & ND & L) Hj. split; [intros k Hk; right; apply T, Hk|]. split; [exact ND|].
  intros k. rewrite L, L1. simpl. split.
  - intros [[Hkj Lk] Hk]. split; [exact Lk|]. intros [E0|Hr]; [congruence|apply Hk, Hr].
  - intros [Lk Hk]. split; [split; [|exact Lk]|intros Hr; apply Hk; right; exact Hr].
    intros ->. apply Hj, T, Hk. left. reflexivity.
Qed.

Lemma merge_inner_spec : forall rem i st todo st',
  merge_inner i rem st = Ok (todo, st') ->
  Inv st -> live st i -> (forall j, In j rem -> live st j) -> ~ In i rem -> NoDup rem ->
  Inv st' /\ survivors rem todo st st' /\ st_n2j st' = st_n2j st /\ tables_kept st st'.
Proof.
  induction rem as [|j r IH]; intros i st todo st' H HI Li Lr Ni ND; simpl in H.
  - injection H as <- <-. split; [exact HI|]. split; [apply survivors_nil|split; [reflexivity|apply tables_kept_refl]].
  - assert (Nir : ~ In i r) by (intros Hx; apply Ni; right; exact Hx).
    inversion ND as [|? ? Njr NDr]; subst.
    destruct (reaches st i j || reaches st j i) eqn:Et.
    + destruct (merge_inner i r st) as [[todo0 st0]| |] eqn:Em; try discriminate.
      injection H as <- ->.
      destruct (IH i st todo0 st' Em HI Li (fun k Hk => Lr k (or_intror Hk)) Nir NDr) as (I' & SV & S).
      split; [exact I'|]. split; [apply survivors_cons; assumption|exact S].
    + apply orb_false_iff in Et as [Rij Rji].
      destruct (merge_two st i j) as [st1| |] eqn:E2; try discriminate.
      assert (Hij : i <> j) by (intros ->; apply Ni; left; reflexivity).
      destruct (merge_two_inv st i j st1 HI Li (Lr j (or_introl eq_refl)) Hij Rij Rji E2) as (I1 & N1 & S1 & L1).
      destruct (IH i st1 todo st' H I1) as (I' & SV & N & S); auto.
      { apply L1. auto. }
      { intros k Hk. apply L1. split; [intros ->; contradiction|apply Lr; right; exact Hk]. }
      split; [exact I'|]. split; [exact (survivors_merged _ _ _ _ _ _ L1 SV Njr)|].
      split; [congruence|eapply tables_kept_trans; eassumption].
Qed.

Lemma merge_name_spec : forall fuel todo st jobs st',
  merge_name fuel todo st = Ok (jobs, st') ->
  Inv st -> (forall j, In j todo -> live st j) -> NoDup todo ->
  Inv st' /\ survivors todo jobs st st' /\ st_n2j st' = st_n2j st /\ tables_kept st st'.
Proof.
  induction fuel as [|f IH]; intros todo st jobs st' H HI Lt ND; [discriminate|].
  simpl in H. destruct todo as [|i remaining].
  - injection H as <- <-. split; [exact HI|]. split; [apply survivors_nil|split; [reflexivity|apply tables_kept_refl]].
  - inversion ND as [|? ? Ni NDr]; subst.
    destruct (merge_inner i remaining st) as [[todo' st1]| |] eqn:Ei; try discriminate.
    destruct (merge_name f todo' st1) as [[jobs0 st2]| |] eqn:En; try discriminate.
    injection H as <- ->.
    destruct (merge_inner_spec remaining i st todo' st1 Ei HI (Lt i (or_introl eq_refl))
                (fun k Hk => Lt k (or_intror Hk)) Ni NDr) as (I1 & SV1 & N1 & S1).
    destruct (IH todo' st1 jobs0 st' En I1) as (I2 & SV2 & N2 & S2); [|apply SV1|].
    { intros k Hk. apply SV1. split; [apply Lt; right; apply (proj1 SV1), Hk|intros _; exact Hk]. }
    split; [exact I2|]. split; [apply survivors_cons; [exact (survivors_trans _ _ _ _ _ _ SV1 SV2)|exact Ni]|].
    split; [congruence|eapply tables_kept_trans; eassumption].
Qed.

(* links [live] (referenced by vidToJob, what [Inv] speaks of) with [live_jobs] (the nameToJobs lists, what the merge
   and naming loops walk): every live job is merged and named ([merge_names_spec], [names_by_job]) *)
Record LInv (st : sstate) : Prop := {
  li_nodup : NoDup (live_jobs st);
  li_live : forall j, In j (live_jobs st) <-> live st j
}.

Lemma lookup_str_split {A} (k : str) (f : option A -> A) (m : list (str * A)) (v : A) :
  lookup_str k m = Some v ->
  exists a k' b, m = a ++ (k', v) :: b /\ update_str k f m = a ++ (k', f (Some v)) :: b.
Proof.
  induction m as [|[k0 v0] m IH]; simpl; [discriminate|].
  destruct (str_eqb k k0) eqn:E.
  - intros H. injection H as <-. exists [], k0, m. split; reflexivity.
  - intros H. destruct (IH H) as (a & k' & b & -> & ->). exists ((k0, v0) :: a), k', b. split; reflexivity.
Qed.

Lemma survivors_listed a t b u st st1 :
  NoDup (a ++ t ++ b) -> (forall k, In k (a ++ t ++ b) <-> live st k) -> survivors t u st st1 ->
  NoDup (a ++ u ++ b) /\ forall k, In k (a ++ u ++ b) <-> live st1 k.
Proof.
  intros L1 L2 (T1 & ND1 & LV).
  apply ListFacts.NoDup_app_iff in L1 as (Na & Ntb & Dab).
  apply ListFacts.NoDup_app_iff in Ntb as (Nt & Nb & Dtb). split.
  - apply ListFacts.NoDup_app_iff. split; [exact Na|]. split.
    + apply ListFacts.NoDup_app_iff. split; [exact ND1|]. split; [exact Nb|]. intros x Hx. apply Dtb, T1, Hx.
    + intros x Hx Hy. apply (Dab x Hx). rewrite in_app_iff in Hy |- *. destruct Hy as [Hy|Hy]; [left; apply T1, Hy|right; exact Hy].
  - intros k. rewrite LV, <- L2, !in_app_iff.
    specialize (Dab k). specialize (Dtb k). specialize (T1 k). rewrite in_app_iff in Dab. clear - Dab Dtb T1. tauto.
Qed.

Lemma merge_names_spec : forall names st st',
  merge_names names st = Ok st' -> Inv st -> LInv st ->
  Inv st' /\ LInv st' /\ tables_kept st st'.
Proof.
  induction names as [|name rest IH]; intros st st' H HI HL; cbn [merge_names] in H.
  - injection H as <-. split; [exact HI|]. split; [exact HL|apply tables_kept_refl].
  - destruct (lookup_str name (st_n2j st)) as [todo|] eqn:El; [|discriminate].
    destruct (merge_name (S (length todo)) todo st) as [[jobs st1]| |] eqn:Em; try discriminate.
    destruct (lookup_str_split name (fun _ => jobs) _ _ El) as (a & k' & b & Hm & Hu).
    assert (Hl : live_jobs st = flat_map snd a ++ todo ++ flat_map snd b).
    { unfold live_jobs. rewrite Hm, flat_map_app. reflexivity. }
    destruct HL as [L1 L2]. rewrite Hl in L1, L2.
    destruct (merge_name_spec _ _ _ _ _ Em HI) as (I1 & SV & N1 & S1).
    { intros j Hj. apply L2. rewrite !in_app_iff. auto. }
    { apply ListFacts.NoDup_app_iff in L1 as (_ & Ntb & _). apply ListFacts.NoDup_app_iff in Ntb. apply Ntb. }
    set (st2 := set_n2j st1 (update_str name (fun _ => jobs) (st_n2j st1))) in *.
    assert (I2 : Inv st2) by (destruct I1; constructor; assumption).
    assert (L2' : LInv st2).
    { destruct (survivors_listed _ _ _ _ _ _ L1 L2 SV) as [A B].
      constructor; unfold live_jobs, st2; simpl; rewrite N1, Hu, flat_map_app; assumption. }
    destruct (IH st2 st' H I2 L2') as (I' & L' & U).
    split; [exact I'|]. split; [exact L'|]. eapply tables_kept_trans; [exact S1|exact U].
Qed.

Section SpanKeeps.
  Variable g : graph.
  Variable Q : sstate -> Prop.
  Hypothesis Q_set_job : forall st j a, Q st -> Q (set_job st j a).
  Hypothesis Q_alloc : forall st a, Q st -> Q (snd (alloc_job st a)).
  Hypothesis Q_register : forall st sid s par, nth_error g sid = Some s -> is_pkg s = true ->
    jobof st (s_vid s) = None -> Q st -> Q (snd (register_pkg st sid s par)).

  Lemma loop_deps_keeps rec :
    (forall d j st st' cs, rec d j st = Ok (st', cs) -> Q st -> Q st') ->
    forall ds j st st', loop_deps rec ds j st = Ok st' -> Q st -> Q st'.
  Proof.
    intros HR. induction ds as [|d r IH]; intros j st st' H HQ; simpl in H.
    - injection H as <-. exact HQ.
    - destruct (rec d j st) as [[st1 cs]| |] eqn:E; try discriminate.
      apply (IH _ _ _ H). unfold add_childs_of. apply Q_set_job. exact (HR _ _ _ _ _ E HQ).
  Qed.

  Lemma add_step_keeps : forall fuel sid par st st' cs,
    add_step fuel g sid par st = Ok (st', cs) -> Q st -> Q st'.
  Proof.
    induction fuel as [|f IH]; intros sid par st st' cs H HQ; [discriminate|].
    cbn [add_step] in H. destruct (nth_error g sid) as [s|] eqn:En; [|discriminate].
    destruct (lookupN (s_vid s) (st_v2j st)) as [j|] eqn:Ej.
    - injection H as <-. apply Q_set_job, HQ.
    - destruct (is_pkg s) eqn:Hk.
      + pose proof (Q_register st sid s par En Hk Ej HQ) as HQ1.
        destruct (register_pkg st sid s par) as [j st1].
        destruct (loop_deps (add_step f g) (alldeps s) j st1) as [st2| |] eqn:El; try discriminate.
        injection H as <-. exact (loop_deps_keeps _ IH _ _ _ _ El HQ1).
      + destruct (loop_deps (add_step f g) (alldeps s) par st) as [st2| |] eqn:El; try discriminate.
        injection H as <-. exact (loop_deps_keeps _ IH _ _ _ _ El HQ).
  Qed.

  Lemma span_roots_keeps : forall roots st st', span_roots g roots st = Ok st' -> Q st -> Q st'.
  Proof.
    induction roots as [|r rest IH]; intros st st' H HQ; cbn [span_roots] in H.
    - injection H as <-. exact HQ.
    - pose proof (Q_alloc st empty_job HQ) as HQ1. destruct (alloc_job st empty_job) as [dummy st1].
      destruct (add_step (S (length g)) g r dummy st1) as [[st2 cs]| |] eqn:E; try discriminate.
      exact (IH _ _ H (add_step_keeps _ _ _ _ _ _ E HQ1)).
  Qed.
End SpanKeeps.

(* job ids in the tables are below the allocation counter: [Alloc_register] needs it to keep [LInv] (the fresh id is
   in no list), FuelProofs.v as the bound on what addChilds and the merge loops can visit ([bounded] is its boolean form) *)
Definition Bv (st : sstate) : Prop := forall v j, In (v, j) (st_v2j st) -> j < st_next st.
Definition Bn (st : sstate) : Prop := forall n l j, In (n, l) (st_n2j st) -> In j l -> j < st_next st.

Definition Bnd (st : sstate) : Prop := Bv st /\ Bn st.

Record Alloc (st : sstate) : Prop := { al_listed : LInv st; al_bnd : Bnd st }.

Lemma In_update_str {A} k (f : option A -> A) m n l :
  In (n, l) (update_str k f m) -> In (n, l) m \/ l = f None \/ exists l0, In (n, l0) m /\ l = f (Some l0).
Proof.
  induction m as [|[k0 v0] m IH]; simpl.
  - intros [H|[]]. injection H as <- <-. right. left. reflexivity.
  - destruct (str_eqb k k0).
    + intros [H|H].
      * injection H as <- <-. right. right. exists v0. split; [left; reflexivity|reflexivity].
      * left. right. exact H.
    + intros [H|H].
      * left. left. exact H.
      * destruct (IH H) as [H1|[H1|(l0 & H1 & H2)]]; auto. right. right. exists l0. split; [right; exact H1|exact H2].
Qed.

(* nameToJobs[name] += js (also used for finalNames) *)
Lemma fn_append_split name js m :
  exists a b, flat_map snd m = a ++ b /\ flat_map snd (fn_append name js m) = a ++ js ++ b.
Proof.
  unfold fn_append. induction m as [|[k0 v0] m IH]; simpl.
  - exists [], []. rewrite app_nil_r. auto.
  - destruct (str_eqb name k0); simpl.
    + exists v0, (flat_map snd m). rewrite <- app_assoc. auto.
    + destruct IH as (a & b & E1 & E2). exists (v0 ++ a), b. rewrite E1, E2, <- !app_assoc. auto.
Qed.

Lemma listed_append m name j : Add j (flat_map snd m) (flat_map snd (fn_append name [j] m)).
Proof. destruct (fn_append_split name [j] m) as (a & b & -> & ->). apply Add_app. Qed.

Lemma lookupN_In {A} k (v : A) m : lookupN k m = Some v -> In (k, v) m.
Proof.
  induction m as [|[k0 v0] m IH]; simpl; [discriminate|]. destruct (N.eqb_spec k k0) as [->|_].
  - intros H. injection H as <-. left. reflexivity.
  - intros H. right. apply IH, H.
Qed.

Lemma Alloc_set_job st j a : Alloc st -> Alloc (set_job st j a).
Proof. intros [[L1 L2] B]. constructor; [constructor|]; assumption. Qed.

Lemma Alloc_alloc st a : Alloc st -> Alloc (snd (alloc_job st a)).
Proof.
  intros [[L1 L2] [B1 B2]]. constructor; [constructor; assumption|split].
  - intros v k Hk. apply Nat.lt_lt_succ_r, (B1 v k Hk).
  - intros n l k Hl Hk. apply Nat.lt_lt_succ_r, (B2 n l k Hl Hk).
Qed.

Lemma Alloc_register st sid s parent :
  jobof st (s_vid s) = None -> Alloc st -> Alloc (snd (register_pkg st sid s parent)).
Proof.
  intros Hn [[L1 L2] [B1 B2]]. unfold register_pkg, alloc_job. cbn [snd].
  set (j := st_next st). set (v := s_vid s) in *.
  pose proof (listed_append (st_n2j st) (if s_isolate s then s_name s else s_recipe s) j) as HA.
  assert (Jo : forall x k, jobof st x = Some k -> lookupN x ((v, j) :: st_v2j st) = Some k).
  { intros x k Hx. simpl. destruct (N.eqb_spec x v) as [->|_]; [congruence|exact Hx]. }
  constructor; [constructor|split].
  - apply (NoDup_Add HA). split; [exact L1|]. intros Hin. apply in_flat_map in Hin as ([n l] & Hl & Hk).
    exact (Nat.lt_irrefl _ (B2 n l j Hl Hk)).
  - intros k. split.
    + intros Hk. apply (Add_in HA) in Hk as [<-|Hk]; [exists v; unfold jobof; simpl; now rewrite N.eqb_refl|].
      apply L2 in Hk as (x & Hx). exists x. apply (Jo x k Hx).
    + intros (x & Hx). apply (Add_in HA). unfold jobof in Hx. simpl in Hx.
      destruct (N.eqb x v); [left; congruence|right; apply L2; exists x; exact Hx].
  - intros x k [Hk|Hk]; simpl.
    + injection Hk as <- <-. apply Nat.lt_succ_diag_r.
    + apply Nat.lt_lt_succ_r, (B1 x k Hk).
  - intros n l k Hl Hk. simpl in *. apply In_update_str in Hl as [Hl|[->|(l0 & Hl & ->)]].
    + apply Nat.lt_lt_succ_r, (B2 n l k Hl Hk).
    + destruct Hk as [<-|[]]. apply Nat.lt_succ_diag_r.
    + apply in_app_or in Hk as [Hk|[<-|[]]]; [|apply Nat.lt_succ_diag_r]. apply Nat.lt_lt_succ_r, (B2 n l0 k Hl Hk).
Qed.

Lemma span_Alloc g roots st : span g roots = Ok st -> Alloc st.
Proof.
  intros H. apply (span_roots_keeps g Alloc Alloc_set_job Alloc_alloc) in H; [exact H| |].
  - intros st0 sid s par _ _. apply Alloc_register.
  - constructor; [constructor|split].
    + constructor.
    + intros j. split; [intros []|intros (v & Hv); discriminate].
    + intros v j [].
    + intros n l j [].
Qed.

Definition vid_at (g : graph) (i : nat) : N := match nth_error g i with Some s => s_vid s | None => 0%N end.

(* addStep may be called for [s] by a caller with the packages [ps]: a package below them, or a step of theirs *)
Definition RankOK (g : graph) (s : step) (ps : vset) : Prop :=
  forall p, In p ps -> if is_pkg s then (s_vid s < p)%N else vid_at g (s_pkgstep s) = p.

Lemma wf_from_nth b g : forall l i k s, wf_from b g i l = true -> nth_error l k = Some s -> wf_step b g (i + k) s = true.
Proof.
  induction l as [|a l IH]; intros i k s H Hn; [destruct k; discriminate|].
  simpl in H. apply andb_true_iff in H as [H1 H2]. destruct k as [|k]; simpl in Hn.
  - injection Hn as <-. now rewrite Nat.add_0_r.
  - rewrite Nat.add_succ_r. apply (IH (S i)); assumption.
Qed.

Lemma wf_nth g i s : wf g = true -> nth_error g i = Some s -> wf_step true g i s = true.
Proof. intros H Hn. apply (wf_from_nth true g g 0 i s H Hn). Qed.

Lemma wf_roots_pkg g roots r s : wf_roots g roots = true -> In r roots -> nth_error g r = Some s -> is_pkg s = true.
Proof. intros WR Hr Hs. unfold wf_roots in WR. rewrite forallb_forall in WR. specialize (WR r Hr). now rewrite Hs in WR. Qed.

Lemma wf_dep_rank g i s d pv :
  wf g = true -> nth_error g i = Some s -> In d (alldeps s) -> vid_at g (s_pkgstep s) = pv ->
  d < i /\ exists sd, nth_error g d = Some sd /\ RankOK g sd [pv].
Proof.
  intros W Hn Hd Hpv. pose proof (wf_nth g i s W Hn) as Hs. unfold wf_step in Hs.
  apply andb_true_iff in Hs as [_ Hs]. rewrite forallb_forall in Hs. specialize (Hs d Hd).
  unfold wf_dep in Hs. apply andb_true_iff in Hs as [Hlt Hs]. apply Nat.ltb_lt in Hlt. split; [exact Hlt|].
  destruct (nth_error g d) as [sd|] eqn:Ed; [|discriminate].
  unfold vid_at in Hpv. destruct (nth_error g (s_pkgstep s)) as [ps0|] eqn:Ep; [|discriminate].
  exists sd. split; [reflexivity|]. intros p [<-|[]]. destruct (is_pkg sd) eqn:Ek.
  - apply andb_true_iff in Hs as [Hs _]. apply N.ltb_lt in Hs. rewrite <- Hpv. exact Hs.
  - apply Nat.eqb_eq in Hs. unfold vid_at. rewrite Hs, Ep. exact Hpv.
Qed.

Lemma wf_parity g i s : wf g = true -> nth_error g i = Some s ->
  N.even (s_vid s) = is_pkg s /\ (is_pkg s = true -> s_pkgstep s = i).
Proof.
  intros W Hn. pose proof (wf_nth g i s W Hn) as Hs. unfold wf_step in Hs.
  apply andb_true_iff in Hs as [Hs _]. apply andb_true_iff in Hs as [Hs _]. apply andb_true_iff in Hs as [H1 H2].
  apply Bool.eqb_prop in H1. split; [symmetry; exact H1|]. intros Hk. rewrite Hk in H2. apply Nat.eqb_eq, H2.
Qed.

(* what a call of addStep for [d] owes the package that made it: the material for that package's [cov_entry] when it
   is finished; [d] may be a build or checkout step, hence the package steps behind it *)
Definition targets_covered (g : graph) (st : sstate) (ps : vset) (d : nat) : Prop :=
  forall Q sQ, target g d Q -> nth_error g Q = Some sQ ->
  exists jq, jobof st (s_vid sQ) = Some jq /\ sub ps (pa st jq).

Lemma targets_covered_kept g ps st st' d : parents_kept st st' -> targets_covered g st ps d -> targets_covered g st' ps d.
Proof.
  intros PM H Q sQ HT HQ. destruct (H Q sQ HT HQ) as (jq & Hj & Hs). destruct (PM _ _ Hj) as (jq' & A & B).
  exists jq'. split; [exact A|eapply sub_trans; eassumption].
Qed.

Lemma targets_covered_pkg g st ps d sd j :
  nth_error g d = Some sd -> is_pkg sd = true -> jobof st (s_vid sd) = Some j -> sub ps (pa st j) ->
  targets_covered g st ps d.
Proof.
  intros H1 H2 Hj Hs Q sQ HT HQ. inversion HT; subst; [|congruence].
  rewrite H1 in HQ. injection HQ as <-. exists j. split; [exact Hj|exact Hs].
Qed.

Lemma target_via g d sd Q : nth_error g d = Some sd -> is_pkg sd = false -> target g d Q ->
  exists e, In e (alldeps sd) /\ target g e Q.
Proof. intros H1 H2 HT. inversion HT; subst; [congruence|]. assert (sd0 = sd) by congruence. subst. eauto. Qed.

Lemma target_is_pkg g d Q : target g d Q -> exists sQ, nth_error g Q = Some sQ /\ is_pkg sQ = true.
Proof. induction 1 as [d sd H1 H2|d sd e q _ _ _ _ IH]; [exists sd; auto|exact IH]. Qed.

(* the packages of the caller *)
Definition tops (stk : list N) : vset := match stk with [] => [] | p :: _ => [p] end.

(* Between two states of the traversal everything only grows; [stk] are the packages whose dependencies are being
   followed when the second state is reached *)
Record Ext (stk : list N) (st st' : sstate) : Prop := {
  ex_next : st_next st <= st_next st';
  ex_jobof : forall v j, jobof st v = Some j -> jobof st' v = Some j;
  ex_pk : forall j, j < st_next st -> pk st' j = pk st j;
  ex_pa : forall j, j < st_next st -> sub (pa st j) (pa st' j);
  (* a package whose dependencies are being followed gets no new parents *)
  ex_open : forall k j, In k stk -> jobof st k = Some j -> pa st' j = pa st j;
  ex_tables : forall k j, jobof st k = Some j ->
              lookupN k (st_ref st') = lookupN k (st_ref st) /\ lookupN k (st_v2n st') = lookupN k (st_v2n st)
}.

Lemma Ext_refl stk st : Ext stk st st.
Proof. constructor; auto; intros; apply sub_refl. Qed.

(* a call made with a longer stack inside a call made with [stk] *)
Lemma Ext_trans stk stk' a b c : Ext stk a b -> Ext stk' b c -> incl stk stk' -> Ext stk a c.
Proof.
  intros H1 H2 Hs. pose proof (ex_next _ _ _ H1) as Hn.
  assert (Lt : forall j, j < st_next a -> j < st_next b) by (intros j Hj; exact (Nat.lt_le_trans _ _ _ Hj Hn)).
  constructor.
  - etransitivity; [exact Hn|apply H2].
  - intros v j H. apply (ex_jobof _ _ _ H2), (ex_jobof _ _ _ H1), H.
  - intros j Hj. rewrite (ex_pk _ _ _ H2) by apply Lt, Hj. apply (ex_pk _ _ _ H1), Hj.
  - intros j Hj. eapply sub_trans; [apply (ex_pa _ _ _ H1), Hj|apply (ex_pa _ _ _ H2), Lt, Hj].
  - intros k j Hk Hj. rewrite (ex_open _ _ _ H2 k j (Hs k Hk) (ex_jobof _ _ _ H1 k j Hj)). apply (ex_open _ _ _ H1 k j Hk Hj).
  - intros k j Hk. destruct (ex_tables _ _ _ H1 k j Hk) as [A B].
    destruct (ex_tables _ _ _ H2 k j (ex_jobof _ _ _ H1 k j Hk)) as [C D]. split; congruence.
Qed.

(* The invariant of addStep, [stk] being the packages whose dependencies are being followed (innermost first): one
   package per job, parents have larger ids (the graph is ranked), and every recorded edge q -> k into a package k
   that is finished (known and not on the stack) is closed: what k reaches is among the childs of the job of q.
   What is temporarily missing is owed to the top of the stack: [r] is the set a call has just returned to its job
   and that job.childs has not yet received. *)
Record SI (g : graph) (stk : list N) (r : vset) (st : sstate) : Prop := {
  si_pk : forall v j, jobof st v = Some j -> pk st j = [v] /\ j < st_next st;
  si_even : forall v j, jobof st v = Some j -> N.even v = true;
  si_pa : forall k jk q, jobof st k = Some jk -> In q (pa st jk) -> known st q /\ (k < q)%N;
  si_edge : forall k jk q jq, jobof st k = Some jk -> In q (pa st jk) -> jobof st q = Some jq -> ~ In k stk ->
            forall x, In x (reach st jk) -> In x (ch st jq) \/ (In q (tops stk) /\ In x r);
  si_cov : forall k j, jobof st k = Some j -> ~ In k stk -> cov_entry g st k
}.

Lemma SI_inj g stk r st v v' j : SI g stk r st -> jobof st v = Some j -> jobof st v' = Some j -> v = v'.
Proof. intros D A B. destruct (si_pk _ _ _ _ D v j A) as [P _]. destruct (si_pk _ _ _ _ D v' j B) as [P' _]. congruence. Qed.

Lemma SI_parents g stk r st st' : SI g stk r st -> Ext stk st st' -> parents_kept st st'.
Proof. intros D F v j Hv. exists j. split; [apply (ex_jobof _ _ _ F), Hv|apply (ex_pa _ _ _ F), (si_pk _ _ _ _ D v j Hv)]. Qed.

Lemma SI_owed g stk r st : SI g stk [] st -> SI g stk r st.
Proof.
  intros D. constructor; try apply D. intros k jk q jq Hk Hq Hjq Hn x Hx. left.
  destruct (si_edge _ _ _ _ D k jk q jq Hk Hq Hjq Hn x Hx) as [A|[_ []]]. exact A.
Qed.

(* the caller: the job [prt] of the package on top of the stack, or the dummy job of a root; the stack is sorted *)
Definition Caller (stk : list N) (prt : nat) (st : sstate) : Prop :=
  prt < st_next st /\
  match stk with [] => pk st prt = [] | p :: rest => jobof st p = Some prt /\ forall q, In q rest -> (p < q)%N end.

Lemma Caller_ext stk par st st' : Caller stk par st -> Ext stk st st' -> Caller stk par st'.
Proof.
  intros [A B] F. split; [exact (Nat.lt_le_trans _ _ _ A (ex_next _ _ _ F))|].
  destruct stk as [|p rest]; [rewrite (ex_pk _ _ _ F par A); exact B|]. split; [apply (ex_jobof _ _ _ F), B|apply B].
Qed.

Lemma Caller_top stk par st p : Caller stk par st -> In p (tops stk) -> jobof st p = Some par.
Proof. intros [_ H]. destruct stk as [|p0 rest]; [intros []|intros [<-|[]]; apply H]. Qed.

Lemma Caller_pk g stk par r st : SI g stk r st -> Caller stk par st -> pk st par = tops stk.
Proof. intros D [_ H]. destruct stk as [|p rest]; [exact H|apply (si_pk _ _ _ _ D), H]. Qed.

Lemma Caller_off g stk par r st k jk : SI g stk r st -> Caller stk par st -> jobof st k = Some jk -> ~ In k stk -> jk <> par.
Proof.
  intros D C Hk Hn ->. destruct (si_pk _ _ _ _ D k par Hk) as [P _]. rewrite (Caller_pk g stk par r st D C) in P.
  destruct stk as [|p rest]; [discriminate|]. injection P as ->. apply Hn. left. reflexivity.
Qed.

Lemma Caller_below stk par st v : Caller stk par st -> (forall p, In p (tops stk) -> (v < p)%N) -> forall q, In q stk -> (v < q)%N.
Proof.
  intros [_ H] Hlt q Hq. destruct stk as [|p rest]; [destruct Hq|].
  pose proof (Hlt p (or_introl eq_refl)) as Hp. destruct Hq as [<-|Hq]; [exact Hp|exact (N.lt_trans _ _ _ Hp (proj2 H q Hq))].
Qed.

(* job.childs |= <the set a call has returned> *)
Lemma op_childs g stk par cs st : SI g stk cs st -> Caller stk par st ->
  let st1 := add_childs_of st par cs in SI g stk [] st1 /\ Ext stk st st1.
Proof.
  intros D C st1.
  assert (R : ACRel cs (fun k => k = par) st st1) by apply ACRel_mark.
  pose proof (ac_pk _ _ _ _ R) as PK. pose proof (ac_pa _ _ _ _ R) as PA. pose proof (ac_ch _ _ _ _ R) as CH.
  split.
  - constructor.
    + intros v j Hv. rewrite PK. apply (si_pk _ _ _ _ D v j Hv).
    + apply (si_even _ _ _ _ D).
    + intros k jk q Hk Hq. rewrite PA in Hq. apply (si_pa _ _ _ _ D k jk q Hk Hq).
    + intros k jk q jq Hk Hq Hjq Hn x Hx. rewrite PA in Hq. left. apply CH.
      unfold reach, st1, add_childs_of in Hx. rewrite get_set_job_other in Hx by exact (Caller_off g stk par cs st k jk D C Hk Hn).
      destruct (si_edge _ _ _ _ D k jk q jq Hk Hq Hjq Hn x Hx) as [A|[T A]]; [left; exact A|right].
      pose proof (Caller_top stk par st q C T) as Hp. change (jobof st q = Some jq) in Hjq. split; [congruence|exact A].
    + intros k j Hk Hn. apply (cov_entry_kept g st st1 k); [reflexivity|reflexivity| |apply (si_cov _ _ _ _ D k j Hk Hn)].
      intros v j' Hv. exists j'. split; [exact Hv|rewrite PA; apply sub_refl].
  - constructor.
    + apply Nat.le_refl.
    + intros v j Hv. exact Hv.
    + intros j _. apply PK.
    + intros j _. rewrite PA. apply sub_refl.
    + intros k j _ _. apply PA.
    + intros k j _. split; reflexivity.
Qed.

(* job.parents |= parentJob.pkgs for a known package below the caller's; the call returns what its job reaches *)
Lemma op_known g stk par st k j : SI g stk [] st -> Caller stk par st -> jobof st k = Some j ->
  (forall p, In p (tops stk) -> (k < p)%N) ->
  let st1 := set_job st j (mkJob (pk st j) (union (pa st j) (tops stk)) (ch st j)) in
  SI g stk (reach st1 j) st1 /\ Ext stk st st1 /\ sub (tops stk) (pa st1 j).
Proof.
  intros D C Hk Hlt st1.
  assert (PK : forall i, pk st1 i = pk st i) by (apply (set_job_keeps a_pkgs); reflexivity).
  assert (CH : forall i, ch st1 i = ch st i) by (apply (set_job_keeps a_childs); reflexivity).
  assert (PA : forall i x, In x (pa st1 i) <-> In x (pa st i) \/ (i = j /\ In x (tops stk)))
    by (apply (set_job_grows a_parents); intros x; apply In_union).
  assert (RE : forall i, reach st1 i = reach st i).
  { intros i. unfold reach, reach_set. fold (pk st1 i) (ch st1 i). rewrite PK, CH. reflexivity. }
  assert (Hoff : ~ In k stk) by (intros Hin; exact (N.lt_irrefl _ (Caller_below stk par st k C Hlt k Hin))).
  split; [|split].
  - constructor.
    + intros v i Hv. rewrite PK. apply (si_pk _ _ _ _ D v i Hv).
    + apply (si_even _ _ _ _ D).
    + intros k' jk q Hk' Hq. apply PA in Hq as [Hq|[-> Hq]]; [apply (si_pa _ _ _ _ D k' jk q Hk' Hq)|].
      rewrite (SI_inj g stk [] st k' k j D Hk' Hk). split; [exists par; apply (Caller_top stk par st q C Hq)|apply Hlt, Hq].
    + intros k' jk q jq Hk' Hq Hjq Hn x Hx. rewrite RE in Hx. apply PA in Hq as [Hq|[-> Hq]].
      * left. rewrite CH. destruct (si_edge _ _ _ _ D k' jk q jq Hk' Hq Hjq Hn x Hx) as [A|[_ []]]. exact A.
      * right. rewrite RE. split; assumption.
    + intros k' i Hk' Hn. apply (cov_entry_kept g st st1 k'); [reflexivity|reflexivity| |apply (si_cov _ _ _ _ D k' i Hk' Hn)].
      intros v i' Hv. exists i'. split; [exact Hv|]. intros x Hx. apply PA. left. exact Hx.
  - constructor.
    + apply Nat.le_refl.
    + intros v i Hv. exact Hv.
    + intros i _. apply PK.
    + intros i _ x Hx. apply PA. left. exact Hx.
    + intros k' i Hin Hi. unfold pa, st1. rewrite get_set_job_other; [reflexivity|].
      intros ->. apply Hoff. rewrite (SI_inj g stk [] st k k' j D Hk Hi). exact Hin.
    + intros k' i _. split; reflexivity.
  - intros x Hx. apply PA. right. split; [reflexivity|exact Hx].
Qed.

Lemma op_alloc g stk r st a : SI g stk r st ->
  let st1 := snd (alloc_job st a) in
  SI g stk r st1 /\ Ext stk st st1 /\ get_job st1 (st_next st) = a /\
  forall k, k < st_next st -> get_job st1 k = get_job st k.
Proof.
  intros D st1. unfold alloc_job in st1. simpl in st1. set (j := st_next st) in *.
  assert (Go : forall k, k < j -> get_job st1 k = get_job st k).
  { intros k Hk. unfold get_job, st1. simpl. fold j. destruct (Nat.eqb_spec k j) as [->|]; [destruct (Nat.lt_irrefl _ Hk)|reflexivity]. }
  assert (Lt : forall x k, jobof st x = Some k -> k < j) by (intros x k Hx; apply (si_pk _ _ _ _ D x k Hx)).
  split; [|split; [|split; [|exact Go]]].
  - constructor.
    + intros x k Hx. unfold pk. rewrite Go by apply (Lt _ _ Hx).
      destruct (si_pk _ _ _ _ D x k Hx) as [A B]. split; [exact A|apply Nat.lt_lt_succ_r, B].
    + apply (si_even _ _ _ _ D).
    + intros k jk q Hk Hq. unfold pa in Hq. rewrite Go in Hq by apply (Lt _ _ Hk). apply (si_pa _ _ _ _ D k jk q Hk Hq).
    + intros k jk q jq Hk Hq Hjq Hn. unfold pa in Hq. rewrite Go in Hq by apply (Lt _ _ Hk).
      unfold reach, ch. rewrite !Go by (eapply Lt; eassumption). apply (si_edge _ _ _ _ D k jk q jq Hk Hq Hjq Hn).
    + intros k i Hk Hn. apply (cov_entry_kept g st st1 k); [reflexivity|reflexivity| |apply (si_cov _ _ _ _ D k i Hk Hn)].
      intros v i' Hv. exists i'. split; [exact Hv|]. unfold pa. rewrite Go by apply (Lt _ _ Hv). apply sub_refl.
  - constructor.
    + apply Nat.le_succ_diag_r.
    + intros x k Hx. exact Hx.
    + intros k Hk. unfold pk. rewrite Go by exact Hk. reflexivity.
    + intros k Hk. unfold pa. rewrite Go by exact Hk. apply sub_refl.
    + intros k i _ Hi. unfold pa. rewrite Go by apply (Lt _ _ Hi). reflexivity.
    + intros k i _. split; reflexivity.
  - unfold get_job, st1. simpl. fold j. now rewrite Nat.eqb_refl.
Qed.

(* A new AbstractJob for a package that is seen for the first time: it goes on the stack *)
Lemma op_register g stk par st sid s :
  SI g stk [] st -> Caller stk par st -> jobof st (s_vid s) = None -> N.even (s_vid s) = true ->
  (forall p, In p (tops stk) -> (s_vid s < p)%N) ->
  let j := st_next st in
  let st1 := snd (register_pkg st sid s par) in
  fst (register_pkg st sid s par) = j /\
  SI g (s_vid s :: stk) [] st1 /\ Ext stk st st1 /\ Caller (s_vid s :: stk) j st1 /\ pa st1 j = tops stk /\
  lookupN (s_vid s) (st_ref st1) = Some sid /\ lookupN (s_vid s) (st_v2n st1) = Some (s_name s).
Proof.
  intros D C Hn Hev Hlt j st1. set (v := s_vid s) in *.
  (* the heap entry first (the state [sta]), then the entries of the tables: the heaps of [sta] and [st1] are the same *)
  destruct (op_alloc g stk [] st (mkJob [v] (a_pkgs (get_job st par)) []) D) as (Da & Fa & Gj & Go).
  set (sta := snd (alloc_job st _)) in *.
  unfold register_pkg, alloc_job in st1. simpl in st1.
  assert (Jv : jobof st1 v = Some j).
  { unfold jobof, st1. simpl. fold v. rewrite N.eqb_refl. reflexivity. }
  assert (Jo : forall x, x <> v -> jobof st1 x = jobof st x).
  { intros x Hx. unfold jobof, st1. simpl. fold v. apply N.eqb_neq in Hx. rewrite Hx. reflexivity. }
  assert (Old : forall x k, jobof sta x = Some k -> x <> v /\ jobof st1 x = Some k).
  { intros x k Hx. assert (x <> v) by (intros ->; change (jobof st v = Some k) in Hx; congruence).
    split; [assumption|]. rewrite Jo by assumption. exact Hx. }
  assert (Jinv : forall x k, jobof st1 x = Some k -> (x = v /\ k = j) \/ (x <> v /\ jobof sta x = Some k)).
  { intros x k Hx. destruct (N.eq_dec x v) as [->|Hxv].
    - left. rewrite Jv in Hx. injection Hx as <-. auto.
    - right. rewrite Jo in Hx by exact Hxv. auto. }
  assert (PAj : pa st1 j = tops stk) by exact (eq_trans (f_equal a_parents Gj) (Caller_pk g stk par [] st D C)).
  assert (Tb : forall k, k <> v -> lookupN k (st_ref st1) = lookupN k (st_ref sta) /\ lookupN k (st_v2n st1) = lookupN k (st_v2n sta)).
  { intros k Hk. unfold st1. simpl. fold v. apply N.eqb_neq in Hk. rewrite Hk. split; reflexivity. }
  split; [reflexivity|].
  split; [|split; [|split; [|split; [exact PAj|]]]].
  - constructor.
    + intros x k Hx. destruct (Jinv x k Hx) as [[-> ->]|(_ & Hx')]; [|exact (si_pk _ _ _ _ Da x k Hx')].
      split; [exact (f_equal a_pkgs Gj)|apply Nat.lt_succ_diag_r].
    + intros x k Hx. destruct (Jinv x k Hx) as [[-> ->]|(_ & Hx')]; [exact Hev|apply (si_even _ _ _ _ Da x k Hx')].
    + intros k jk q Hk Hq. destruct (Jinv k jk Hk) as [[-> ->]|(_ & Hk')].
      * rewrite PAj in Hq. split; [exists par; apply (Old q par), (Caller_top stk par st q C Hq)|apply Hlt, Hq].
      * destruct (si_pa _ _ _ _ Da k jk q Hk' Hq) as [[jq A] B]. split; [exists jq; apply (Old q jq A)|exact B].
    + intros k jk q jq Hk Hq Hjq Hns x Hx. left.
      destruct (Jinv k jk Hk) as [[-> _]|(_ & Hk')]; [destruct Hns; left; reflexivity|].
      destruct (Jinv q jq Hjq) as [[-> _]|(_ & Hq')].
      * destruct (si_pa _ _ _ _ Da k jk v Hk' Hq) as [[jv A] _]. destruct (proj1 (Old v jv A) eq_refl).
      * destruct (si_edge _ _ _ _ Da k jk q jq Hk' Hq Hq' (fun F => Hns (or_intror F)) x Hx) as [A|[_ []]]. exact A.
    + intros k i Hk Hns. destruct (Jinv k i Hk) as [[-> _]|(Hkv & Hk')]; [destruct Hns; left; reflexivity|].
      destruct (Tb k Hkv) as [T1 T2]. apply (cov_entry_kept g sta st1 k T1 T2); [|apply (si_cov _ _ _ _ Da k i Hk' (fun F => Hns (or_intror F)))].
      intros x i' Hx. exists i'. split; [apply (Old x i' Hx)|apply sub_refl].
  - constructor.
    + apply (ex_next _ _ _ Fa).
    + intros x k Hx. apply (Old x k Hx).
    + apply (ex_pk _ _ _ Fa).
    + apply (ex_pa _ _ _ Fa).
    + apply (ex_open _ _ _ Fa).
    + intros k i Hk. apply Tb, (Old k i Hk).
  - split; [apply Nat.lt_succ_diag_r|]. split; [exact Jv|apply (Caller_below stk par st v C Hlt)].
  - unfold st1. simpl. fold v. rewrite N.eqb_refl. split; reflexivity.
Qed.

(* the package on top of the stack is finished: its job still has the parents it was registered with, and what it
   reaches is returned to the caller *)
Lemma SI_pop g stk v j st :
  SI g (v :: stk) [] st -> jobof st v = Some j -> pa st j = tops stk -> cov_entry g st v -> SI g stk (reach st j) st.
Proof.
  intros D Hv Hpa Hcov.
  assert (Off : forall k, k <> v -> ~ In k stk -> ~ In k (v :: stk)) by (intros k Hk Hn [E|Hin]; [exact (Hk (eq_sym E))|exact (Hn Hin)]).
  constructor; try apply D.
  - intros k jk q jq Hk Hq Hjq Hn x Hx. destruct (N.eq_dec k v) as [->|Hkv].
    + rewrite Hv in Hk. injection Hk as <-. right. rewrite Hpa in Hq. split; assumption.
    + left. destruct (si_edge _ _ _ _ D k jk q jq Hk Hq Hjq (Off k Hkv Hn) x Hx) as [A|[_ []]]. exact A.
  - intros k i Hk Hn. destruct (N.eq_dec k v) as [->|Hkv]; [exact Hcov|exact (si_cov _ _ _ _ D k i Hk (Off k Hkv Hn))].
Qed.

(* the contract of one call of addStep, stated of any function so that [loop_spec] comes before [add_step_spec],
   whose induction on the fuel supplies it for the recursive calls *)
Definition StepSpec (g : graph) (rec : nat -> nat -> sstate -> res (sstate * vset)) : Prop :=
  forall sid par st st' r stk s,
  rec sid par st = Ok (st', r) -> nth_error g sid = Some s -> SI g stk [] st -> Caller stk par st -> RankOK g s (tops stk) ->
  SI g stk r st' /\ Ext stk st st' /\ targets_covered g st' (tops stk) sid.

Lemma loop_spec g rec : StepSpec g rec -> forall ds j st st' stk,
  (forall d, In d ds -> exists sd, nth_error g d = Some sd /\ RankOK g sd (tops stk)) ->
  loop_deps rec ds j st = Ok st' -> SI g stk [] st -> Caller stk j st ->
  SI g stk [] st' /\ Ext stk st st' /\ (forall d, In d ds -> targets_covered g st' (tops stk) d).
Proof.
  intros HR. induction ds as [|d ds IH]; intros j st st' stk Hds H D C; simpl in H.
  - injection H as <-. split; [exact D|]. split; [apply Ext_refl|intros ? []].
  - destruct (rec d j st) as [[st1 cs]| |] eqn:Er; try discriminate.
    destruct (Hds d (or_introl eq_refl)) as (sd & Hsd & Hrk).
    destruct (HR d j st st1 cs stk sd Er Hsd D C Hrk) as (D1 & F1 & T1).
    pose proof (Caller_ext stk j st st1 C F1) as C1.
    destruct (op_childs g stk j cs st1 D1 C1) as (D2 & F2). set (st2 := add_childs_of st1 j cs) in *.
    destruct (IH j st2 st' stk (fun d' Hd' => Hds d' (or_intror Hd')) H D2 (Caller_ext stk j st1 st2 C1 F2)) as (D3 & F3 & T3).
    split; [exact D3|]. split.
    + exact (Ext_trans _ _ _ _ _ F1 (Ext_trans _ _ _ _ _ F2 F3 (incl_refl _)) (incl_refl _)).
    + intros d' [<-|Hd']; [|apply T3; exact Hd'].
      apply (targets_covered_kept g _ st2 st' d (SI_parents g stk [] _ _ D2 F3)).
      apply (targets_covered_kept g _ st1 st2 d (SI_parents g stk cs _ _ D1 F2)), T1.
Qed.

Lemma add_step_spec g : wf g = true -> forall fuel, StepSpec g (add_step fuel g).
Proof.
  intros W. induction fuel as [|f IHf]; intros sid par st st' r stk s H Hs D C HR; [discriminate|].
  cbn [add_step] in H. rewrite Hs in H.
  assert (Hlt : is_pkg s = true -> forall p, In p (tops stk) -> (s_vid s < p)%N).
  { intros Hk p Hp. specialize (HR p Hp). rewrite Hk in HR. exact HR. }
  destruct (lookupN (s_vid s) (st_v2j st)) as [j|] eqn:Ej.
  - assert (Hk : is_pkg s = true).
    { rewrite <- (proj1 (wf_parity g sid s W Hs)). apply (si_even _ _ _ _ D _ _ Ej). }
    change (a_pkgs (get_job st par)) with (pk st par) in H. rewrite (Caller_pk g stk par [] st D C) in H. injection H as <- <-.
    destruct (op_known g stk par st (s_vid s) j D C Ej (Hlt Hk)) as (D1 & F1 & S1).
    split; [exact D1|]. split; [exact F1|]. apply (targets_covered_pkg g _ (tops stk) sid s j Hs Hk); [exact Ej|exact S1].
  - destruct (is_pkg s) eqn:Ek.
    + destruct (register_pkg st sid s par) as [j st1] eqn:Er.
      destruct (loop_deps (add_step f g) (alldeps s) j st1) as [st2| |] eqn:El; try discriminate.
      injection H as <- <-.
      destruct (wf_parity g sid s W Hs) as [Hev Hself]. rewrite Ek in Hev. specialize (Hself Ek).
      pose proof (op_register g stk par st sid s D C Ej Hev (Hlt eq_refl)) as OR. rewrite Er in OR. simpl in OR.
      destruct OR as (Ejn & D1 & F1 & C1 & PAj & Rv & Nv). rewrite <- Ejn in C1, PAj.
      set (v := s_vid s) in *. pose proof (proj1 (proj2 C1)) as Jv.
      assert (Hds : forall d, In d (alldeps s) -> exists sd, nth_error g d = Some sd /\ RankOK g sd [v]).
      { intros d Hd. apply (wf_dep_rank g sid s d v W Hs Hd). unfold vid_at. rewrite Hself, Hs. reflexivity. }
      destruct (loop_spec g (add_step f g) IHf (alldeps s) j st1 st2 (v :: stk) Hds El D1 C1) as (D2 & F2 & T2).
      assert (Hpa : pa st2 j = tops stk) by (rewrite (ex_open _ _ _ F2 v j (or_introl eq_refl) Jv); exact PAj).
      (* the finished package is covered by its own loop *)
      assert (Hcov : cov_entry g st2 v).
      { destruct (ex_tables _ _ _ F2 v j Jv) as [T1 T2'].
        exists sid, s. split; [rewrite T1; exact Rv|]. split; [exact Hs|]. split; [exact Ek|]. split; [reflexivity|].
        split; [rewrite T2'; exact Nv|].
        intros Q sQ (sP & e & HsP & _ & He & HT) HQ. rewrite Hs in HsP. injection HsP as <-.
        destruct (T2 e He Q sQ HT HQ) as (jq & Hjq & Hsub). exists jq. split; [exact Hjq|].
        apply Hsub. left. reflexivity. }
      split; [exact (SI_pop g stk v j st2 D2 (ex_jobof _ _ _ F2 v j Jv) Hpa Hcov)|].
      split; [exact (Ext_trans _ _ _ _ _ F1 F2 (incl_tl v (incl_refl stk)))|].
      apply (targets_covered_pkg g st2 (tops stk) sid s j Hs Ek (ex_jobof _ _ _ F2 v j Jv)). rewrite Hpa. apply sub_refl.
    + destruct (loop_deps (add_step f g) (alldeps s) par st) as [st2| |] eqn:El; try discriminate.
      injection H as <- <-.
      assert (Hds : forall d, In d (alldeps s) -> exists sd, nth_error g d = Some sd /\ RankOK g sd (tops stk)).
      { intros d Hd. destruct (wf_dep_rank g sid s d _ W Hs Hd eq_refl) as (_ & sd & Hsd & Hrk).
        exists sd. split; [exact Hsd|]. intros p Hp. specialize (HR p Hp). rewrite Ek in HR.
        apply Hrk. left. exact HR. }
      destruct (loop_spec g (add_step f g) IHf (alldeps s) par st st2 stk Hds El D C) as (D2 & F2 & T2).
      split; [apply SI_owed, D2|]. split; [exact F2|].
      intros Q sQ HT HQ. destruct (target_via g sid s Q Hs Ek HT) as (e & He & HTe). apply (T2 e He Q sQ HTe HQ).
Qed.

Definition roots_known (g : graph) (roots : list nat) (st : sstate) : Prop :=
  forall r s, In r roots -> nth_error g r = Some s -> is_pkg s = true -> known st (s_vid s).

Lemma span_roots_spec g : wf g = true -> forall roots st st',
  span_roots g roots st = Ok st' -> SI g [] [] st ->
  SI g [] [] st' /\ (forall v j, jobof st v = Some j -> jobof st' v = Some j) /\ roots_known g roots st'.
Proof.
  intros W. induction roots as [|r rest IH]; intros st st' H D; cbn [span_roots] in H.
  - injection H as <-. split; [exact D|]. split; [auto|intros ? ? []].
  - destruct (op_alloc g [] [] st empty_job D) as (D1 & F1 & G1 & _).
    unfold alloc_job in H, D1, F1, G1. cbn [snd] in D1, F1, G1.
    set (st1 := mkSt _ _ _ _ _ _) in *.
    assert (C1 : Caller [] (st_next st) st1) by (split; [apply Nat.lt_succ_diag_r|exact (f_equal a_pkgs G1)]).
    destruct (add_step (S (length g)) g r (st_next st) st1) as [[st2 cs]| |] eqn:Ea; try discriminate.
    destruct (nth_error g r) as [s|] eqn:Hs; [|cbn [add_step] in Ea; rewrite Hs in Ea; discriminate].
    destruct (add_step_spec g W (S (length g)) r (st_next st) st1 st2 cs [] s Ea Hs D1 C1) as (D2 & F2 & T2); [intros p []|].
    assert (D2' : SI g [] [] st2).
    { constructor; try apply D2. intros k jk q jq Hk Hq Hjq Hn x Hx. left.
      destruct (si_edge _ _ _ _ D2 k jk q jq Hk Hq Hjq Hn x Hx) as [A|[[] _]]. exact A. }
    destruct (IH st2 st' H D2') as (D3 & M3 & R3).
    split; [exact D3|]. split.
    + intros v j Hv. apply M3, (ex_jobof _ _ _ F2), Hv.
    + intros r0 s0 [<-|Hr0] Hs0 Hp0; [|apply (R3 r0 s0 Hr0 Hs0 Hp0)].
      rewrite Hs in Hs0. injection Hs0 as <-.
      destruct (T2 r s (tg_pkg g r s Hs Hp0) Hs) as (jq & Hjq & _). exists jq. apply M3. exact Hjq.
Qed.

Lemma SI_init g : SI g [] [] init_state.
Proof. constructor; intros; discriminate. Qed.

Lemma SI_rank g st J K : SI g [] [] st -> clos_trans_1n nat (E st) J K ->
  forall vJ vK, jobof st vJ = Some J -> jobof st vK = Some K -> (vK < vJ)%N.
Proof.
  intros D P. induction P as [J K (p & L & Hp & HJ)|J M K (p & (vM & HM) & Hp & HJ) _ IH]; intros vJ vK HvJ HvK.
  - rewrite <- (SI_inj g [] [] st p vJ J D HJ HvJ). apply (si_pa _ _ _ _ D vK K p HvK Hp).
  - rewrite <- (SI_inj g [] [] st p vJ J D HJ HvJ).
    destruct (si_pa _ _ _ _ D vM M p HM Hp) as [_ L1]. exact (N.lt_trans _ _ _ (IH vM vK HM HvK) L1).
Qed.

Lemma SI_Inv g st : SI g [] [] st -> Inv st /\ Cover g st.
Proof.
  intros D. split; [constructor|].
  - intros v j Hv. destruct (si_pk _ _ _ _ D v j Hv) as [-> _]. left. reflexivity.
  - intros j v (v0 & Hv0) Hin. destruct (si_pk _ _ _ _ D v0 j Hv0) as [E0 _]. rewrite E0 in Hin.
    destruct Hin as [<-|[]]. exact Hv0.
  - intros j p (v0 & Hv0) Hp. apply (si_pa _ _ _ _ D v0 j p Hv0 Hp).
  - intros K p J (k & Hk) Hp HJ.
    assert (C : forall x, In x (reach st K) -> In x (ch st J)).
    { intros x Hx. destruct (si_edge _ _ _ _ D k K p J Hk Hp HJ (fun F => F) x Hx) as [A|[[] _]]. exact A. }
    split; intros x Hx; apply C, In_reach; auto.
  - intros J P. assert (L : live st J) by (inversion P; subst; eapply E_live_l; eassumption).
    destruct L as (vJ & HvJ). exact (N.lt_irrefl _ (SI_rank g st J J D P vJ vJ HvJ HvJ)).
  - intros k j Hk. apply (si_cov _ _ _ _ D k j Hk). intros [].
Qed.

Theorem span_Inv g roots st : wf g = true -> span g roots = Ok st ->
  Inv st /\ LInv st /\ Cover g st /\ roots_known g roots st.
Proof.
  intros W H. destruct (span_roots_spec g W roots init_state st H (SI_init g)) as (D & _ & R).
  destruct (SI_Inv g st D) as [I C].
  split; [exact I|]. split; [apply (span_Alloc g roots st H)|]. split; [exact C|exact R].
Qed.

Lemma Cover_mono g st st' : Cover g st -> tables_kept st st' -> Cover g st'.
Proof.
  intros HC (R2 & R1 & HN & PM) k j' Hk.
  destruct (jobof st k) as [j|] eqn:Ek; [|apply HN in Ek; congruence].
  apply (cov_entry_kept g st st' k); [rewrite R1; reflexivity|rewrite R2; reflexivity|exact PM|exact (HC k j Ek)].
Qed.

Lemma sanitize_Ok g roots nm : sanitize g roots = Ok nm ->
  exists st0 fnm, span g roots = Ok st0 /\ merge_all st0 = Ok (nm_state nm) /\
    final_names (nm_state nm) (sort_by fst (st_n2j (nm_state nm))) [] = Ok fnm /\
    nm_names nm = package_names (nm_state nm) (sort_by fst fnm) [].
Proof.
  unfold sanitize. intros H.
  destruct (span g roots) as [st0| |]; try discriminate.
  destruct (merge_all st0) as [st| |] eqn:Em; try discriminate.
  destruct (final_names st (sort_by fst (st_n2j st)) []) as [fnm| |] eqn:Ef; try discriminate.
  injection H as <-. exists st0, fnm. auto.
Qed.

Theorem sanitize_Inv g roots nm : wf g = true -> sanitize g roots = Ok nm ->
  Inv (nm_state nm) /\ LInv (nm_state nm) /\ Cover g (nm_state nm) /\ roots_known g roots (nm_state nm).
Proof.
  intros W H. destruct (sanitize_Ok g roots nm H) as (st0 & _ & Es & Em & _).
  destruct (span_Inv g roots st0 W Es) as (I0 & L0 & C0 & R0).
  destruct (merge_names_spec _ st0 _ Em I0 L0) as (I1 & L1 & T).
  split; [exact I1|]. split; [exact L1|]. split.
  - eapply Cover_mono; eassumption.
  - intros r s Hr Hs Hp. destruct (R0 r s Hr Hs Hp) as (j & Hj).
    destruct (proj2 (proj2 (proj2 T)) _ _ Hj) as (j' & A & _). exists j'. exact A.
Qed.

Lemma Cover_dep g st k J P Q sQ :
  Cover g st -> jobof st k = Some J -> lookupN k (st_ref st) = Some P -> pdep g P Q -> nth_error g Q = Some sQ ->
  exists K, jobof st (s_vid sQ) = Some K /\ In k (pa st K).
Proof.
  intros HC Hk HP HQ HsQ. destruct (HC k J Hk) as (P' & sP & H1 & _ & _ & _ & _ & H6).
  rewrite HP in H1. injection H1 as <-. exact (H6 Q sQ HQ HsQ).
Qed.

Lemma jdep_E g st J K : Cover g st -> jdep g st J K -> E st J K.
Proof.
  intros HC (k & P & Q & sQ & Hk & HP & HQ & HsQ & HK).
  destruct (Cover_dep g st k J P Q sQ HC Hk HP HQ HsQ) as (jq & Hjq & Hin). rewrite HK in Hjq. injection Hjq as <-.
  exists k. split; [exists (s_vid sQ); exact HK|]. split; [exact Hin|exact Hk].
Qed.

Lemma in_job_iff st v j k : Inv st -> jobof st v = Some j -> live st k -> (In v (pk st k) <-> k = j).
Proof.
  intros I Hv Lk. split; [intros Hin|intros ->; apply (inv_in _ I), Hv].
  pose proof (inv_own _ I k v Lk Hin). congruence.
Qed.

Lemma jdep_acyclic g st : Inv st -> Cover g st -> forall J, ~ clos_trans_1n nat (jdep g st) J J.
Proof. intros I C J P. apply (inv_acyclic _ I J). eapply t1n_map; [|exact P]. intros a b. apply jdep_E, C. Qed.

Lemma dep_job g st k J P Q sQ :
  Inv st -> Cover g st -> jobof st k = Some J -> lookupN k (st_ref st) = Some P -> pdep g P Q -> nth_error g Q = Some sQ ->
  exists K, jobof st (s_vid sQ) = Some K /\ K <> J /\ In k (pa st K) /\ sub (pk st K) (ch st J) /\ sub (ch st K) (ch st J).
Proof.
  intros I C Hk HP HQ HsQ. destruct (Cover_dep g st k J P Q sQ C Hk HP HQ HsQ) as (K & HK & Hin).
  exists K. split; [exact HK|]. assert (L : live st K) by (exists (s_vid sQ); exact HK).
  split; [|split; [exact Hin|apply (inv_closed _ I K k J L Hin Hk)]].
  intros ->. apply (inv_acyclic _ I J). apply t1n_step. exists k. auto.
Qed.

Lemma known_one_job st v j : Inv st -> jobof st v = Some j -> in_exactly_one_job st v.
Proof.
  intros I Hv. exists j. split; [exists v; exact Hv|]. split; [apply (inv_in _ I), Hv|].
  intros K LK. apply (in_job_iff st v j K I Hv LK).
Qed.

Lemma needed_known g st roots : Cover g st -> roots_known g roots st -> wf_roots g roots = true ->
  forall k, needed g st roots k -> known st k.
Proof.
  intros HC HR WR k Hn. induction Hn as [r s Hr Hs|k P Q sQ _ [j Hj] HP HQ HsQ].
  - exact (HR r s Hr Hs (wf_roots_pkg g roots r s WR Hr Hs)).
  - destruct (Cover_dep g st k j P Q sQ HC Hj HP HQ HsQ) as (jq & Hjq & _). exists jq. exact Hjq.
Qed.

Lemma reachable_needed g st roots :
  Cover g st -> roots_known g roots st -> wf_roots g roots = true -> consistent_deps g ->
  forall Q sQ, reachable g roots Q -> nth_error g Q = Some sQ -> needed g st roots (s_vid sQ).
Proof.
  intros C R WR CD Q sQ HQ. revert sQ. induction HQ as [r Hr|P Q HP IH HPQ]; intros sQ HsQ.
  - exact (nd_root g st roots r sQ Hr HsQ).
  - destruct HPQ as (sP & e & HsP & HpP & He & HT). pose proof (IH sP HsP) as Hn.
    destruct (needed_known g st roots C R WR _ Hn) as (j & Hj).
    destruct (C (s_vid sP) j Hj) as (P' & sP' & H1 & H2 & H3 & H4 & _).
    destruct (CD P P' sP sP' Q sQ HsP H2 HpP H3 (eq_sym H4)) as (Q' & sQ' & HPQ' & HsQ' & Hv); auto.
    { exists sP, e. auto. }
    rewrite <- Hv. exact (nd_dep g st roots _ P' Q' sQ' Hn H1 HPQ' HsQ').
Qed.

Lemma In_insert_by {A} (key : A -> str) a l x : In x (insert_by key a l) <-> In x (a :: l).
Proof.
  induction l as [|y l IH]; simpl; [tauto|].
  destruct (str_ltb (key a) (key y)); [reflexivity|]. simpl. split.
  - intros [H|H]; [auto|]. apply IH in H as [H|H]; auto.
  - intros [H|[H|H]]; [right; apply IH; left; exact H|left; exact H|right; apply IH; right; exact H].
Qed.

Lemma In_sort_fold {A} (key : A -> str) l : forall acc x,
  In x (fold_left (fun acc y => insert_by key y acc) l acc) <-> In x l \/ In x acc.
Proof.
  induction l as [|y l IH]; intros acc x; simpl; [split; [auto|intros [[]|H]; exact H]|]. split.
  - intros H. apply IH in H as [H|H]; [auto|]. apply In_insert_by in H as [H|H]; auto.
  - intros [[H|H]|H]; apply IH; [right; apply In_insert_by; left; exact H|left; exact H|right; apply In_insert_by; right; exact H].
Qed.

Lemma In_sort_by {A} (key : A -> str) l x : In x (sort_by key l) <-> In x l.
Proof. unfold sort_by. rewrite In_sort_fold. simpl. tauto. Qed.

Lemma In_flat_sort (m : list (str * list nat)) j :
  In j (flat_map snd (sort_by fst m)) <-> In j (flat_map snd m).
Proof.
  rewrite !in_flat_map. split; intros (x & Hx & Hj); exists x; (split; [|exact Hj]); apply In_sort_by in Hx || apply In_sort_by; exact Hx.
Qed.

Lemma In_fn_append name js fnm j :
  In j (flat_map snd (fn_append name js fnm)) <-> In j (flat_map snd fnm) \/ In j js.
Proof. destruct (fn_append_split name js fnm) as (a & b & -> & ->). rewrite !in_app_iff. tauto. Qed.

Lemma final_names_jobs_In st : forall jobs fnm fnm', final_names_jobs st jobs fnm = Ok fnm' ->
  forall j, In j (flat_map snd fnm') <-> In j (flat_map snd fnm) \/ In j jobs.
Proof.
  induction jobs as [|a jobs IH]; intros fnm fnm' H j; simpl in H.
  - injection H as <-. apply or_In_nil.
  - destruct (longest_prefix st (a_pkgs (get_job st a))) as [n| |]; try discriminate.
    exact (In_chain j _ _ _ [a] jobs (IH _ _ H j) (In_fn_append n [a] fnm j)).
Qed.

Lemma final_names_In st : forall items fnm fnm', final_names st items fnm = Ok fnm' ->
  forall j, In j (flat_map snd fnm') <-> In j (flat_map snd fnm) \/ In j (flat_map snd items).
Proof.
  induction items as [|[name jobs] items IH]; intros fnm fnm' H j; simpl in H.
  - injection H as <-. apply or_In_nil.
  - destruct (Nat.ltb 1 (length jobs)).
    + destruct (final_names_jobs st jobs fnm) as [f1| |] eqn:E1; try discriminate.
      exact (In_chain j _ _ _ jobs _ (IH _ _ H j) (final_names_jobs_In st _ _ _ E1 j)).
    + exact (In_chain j _ _ _ jobs _ (IH _ _ H j) (In_fn_append name jobs fnm j)).
Qed.

Lemma assign_lookup ps name : forall pn v,
  lookupN v (assign ps name pn) = if mem v ps then Some name else lookupN v pn.
Proof.
  unfold assign. induction ps as [|p r IH]; intros pn v; simpl; [reflexivity|].
  rewrite IH. simpl. destruct (mem v r); [now rewrite orb_true_r|]. rewrite orb_false_r. reflexivity.
Qed.

(* self.__packageName is written job by job: all packages of a job get one name *)
Definition assign_jobs (st : sstate) (l : list (nat * str)) (pn : list (N * str)) : list (N * str) :=
  fold_left (fun m jn => assign (pk st (fst jn)) (snd jn) m) l pn.

Lemma number_jobs_assigns st name : forall jobs i pn,
  exists l, map fst l = jobs /\ number_jobs st name i jobs pn = assign_jobs st l pn.
Proof.
  induction jobs as [|j jobs IH]; intros i pn; simpl; [exists []; auto|].
  edestruct (IH (S i)) as (l & E1 & E2). eexists ((j, _) :: l). simpl. rewrite E1. split; [reflexivity|exact E2].
Qed.

Lemma package_names_assigns st : forall items pn,
  exists l, map fst l = flat_map snd items /\ package_names st items pn = assign_jobs st l pn.
Proof.
  induction items as [|[name jobs] items IH]; intros pn; simpl; [exists []; auto|].
  destruct jobs as [|j [|j2 jobs]].
  - apply IH.
  - destruct (IH (assign (pk st j) name pn)) as (l & E1 & E2). exists ((j, name) :: l). simpl. rewrite E1. auto.
  - destruct (number_jobs_assigns st name (j :: j2 :: jobs) 0 pn) as (l1 & A1 & A2). rewrite A2.
    destruct (IH (assign_jobs st l1 pn)) as (l & E1 & E2). exists (l1 ++ l).
    unfold assign_jobs at 2. rewrite map_app, fold_left_app, A1, E1. auto.
Qed.

Lemma assign_jobs_same st : forall l pn v1 v2,
  (forall j, In j (map fst l) -> mem v1 (pk st j) = mem v2 (pk st j)) -> lookupN v1 pn = lookupN v2 pn ->
  lookupN v1 (assign_jobs st l pn) = lookupN v2 (assign_jobs st l pn).
Proof.
  induction l as [|[j n] l IH]; intros pn v1 v2 HS HE; simpl; [exact HE|].
  apply IH; [intros k Hk; apply HS; right; exact Hk|].
  rewrite !assign_lookup, (HS j (or_introl eq_refl)). destruct (mem v2 (pk st j)); auto.
Qed.

Lemma assign_jobs_some st : forall l pn v,
  (lookupN v pn <> None \/ exists j, In j (map fst l) /\ In v (pk st j)) ->
  lookupN v (assign_jobs st l pn) <> None.
Proof.
  induction l as [|[j n] l IH]; intros pn v H; simpl in *.
  - destruct H as [H|(j & [] & _)]. exact H.
  - apply IH. rewrite assign_lookup. destruct (mem v (pk st j)) eqn:Em; [left; discriminate|].
    destruct H as [H|(k & [<-|Hk] & Hv)]; [left; exact H| |right; exists k; auto].
    apply mem_In in Hv. congruence.
Qed.

Lemma names_by_job st fnm :
  Inv st -> LInv st -> final_names st (sort_by fst (st_n2j st)) [] = Ok fnm ->
  let names := package_names st (sort_by fst fnm) [] in
  (forall v j, jobof st v = Some j -> exists n, lookupN v names = Some n) /\
  (forall v1 v2 j, jobof st v1 = Some j -> jobof st v2 = Some j -> lookupN v1 names = lookupN v2 names).
Proof.
  intros I L Ef names. unfold names. destruct (package_names_assigns st (sort_by fst fnm) []) as (l & El & ->).
  assert (HJ : forall j, In j (map fst l) <-> live st j).
  { intros j. rewrite El, In_flat_sort, (final_names_In st _ _ _ Ef j). simpl. rewrite In_flat_sort.
    rewrite <- (li_live _ L j). unfold live_jobs. tauto. }
  split.
  - intros v j Hv. destruct (lookupN v (assign_jobs st l [])) as [n|] eqn:E; [exists n; reflexivity|].
    exfalso. revert E. apply assign_jobs_some. right. exists j. split; [apply HJ; exists v; exact Hv|apply (inv_in _ I), Hv].
  - intros v1 v2 j H1 H2. apply assign_jobs_same; [|reflexivity].
    intros k Hk. apply HJ in Hk. apply Bool.eq_iff_eq_true.
    rewrite !mem_In, (in_job_iff st v1 j k I H1 Hk), (in_job_iff st v2 j k I H2 Hk). reflexivity.
Qed.

Lemma str_eqb_refl a : str_eqb a a = true.
Proof. exact (ListFacts.list_eqb_refl _ _ N.eqb_spec a). Qed.

Lemma str_eqb_eq a b : str_eqb a b = true <-> a = b.
Proof. exact (ListFacts.list_eqb_eq _ _ N.eqb_spec a b). Qed.

Lemma lookup_update_str {A} k (f : option A -> A) (m : list (str * A)) n :
  lookup_str n (update_str k f m) = if str_eqb n k then Some (f (lookup_str k m)) else lookup_str n m.
Proof.
  induction m as [|[k0 v0] m IH]; simpl.
  - destruct (str_eqb n k); reflexivity.
  - destruct (str_eqb k k0) eqn:E; simpl.
    + apply str_eqb_eq in E. subst k0. destruct (str_eqb n k); reflexivity.
    + rewrite IH. destruct (str_eqb n k0) eqn:E0; [|reflexivity].
      destruct (str_eqb n k) eqn:E1; [|reflexivity].
      apply str_eqb_eq in E0, E1. subst. rewrite str_eqb_refl in E. discriminate.
Qed.

(* [JJ_ok]: the invariant of one JenkinsJob under JenkinsJob.addStep ([jj_add_step_ok]), kept through
   _genJenkinsJobs ([gen_roots_ok]); [jenkins_job_upstream_complete] reads its three parts off the final table *)
Definition have (jj : jjob) (v : N) : Prop := In v (j_steps jj) \/ exists d, In (v, d) (j_deps jj).

Definition deps_wf (g : graph) (deps : list (N * nat)) : Prop :=
  forall v d, In (v, d) deps -> exists sd, nth_error g d = Some sd /\ s_vid sd = v /\ s_valid sd = true.

Definition JJ_ok (g : graph) (jj : jjob) : Prop :=
  deps_wf g (j_deps jj) /\
  (forall v d, In (v, d) (j_deps jj) -> ~ In v (j_steps jj)) /\
  (forall v, In v (j_steps jj) -> exists sid s, nth_error g sid = Some s /\ s_vid s = v /\
     forall d sd, In d (alldeps s) -> nth_error g d = Some sd -> s_valid sd = true -> have jj (s_vid sd)).

Lemma lookupN_None {A} k (m : list (N * A)) : lookupN k m = None -> ~ In k (map fst m).
Proof.
  induction m as [|[k0 v0] m IH]; simpl; [tauto|]. destruct (N.eqb k k0) eqn:E; [discriminate|].
  intros H [H1|H1]; [apply N.eqb_neq in E; congruence|exact (IH H H1)].
Qed.

Lemma In_setdefaultN {A} k (v : A) m e : In e (setdefaultN k v m) <-> In e m \/ (lookupN k m = None /\ e = (k, v)).
Proof.
  unfold setdefaultN. destruct (lookupN k m) eqn:E.
  - split; [auto|intros [H|[H _]]; [exact H|discriminate]].
  - rewrite in_app_iff. simpl. split; intros [H|H]; auto.
    + destruct H as [<-|[]]. auto.
    + destruct H as [_ ->]. auto.
Qed.

Lemma setdefaultN_key {A} k (v : A) m : exists v', In (k, v') (setdefaultN k v m).
Proof.
  unfold setdefaultN. destruct (lookupN k m) as [a|] eqn:E.
  - exists a. apply lookupN_In, E.
  - exists v. apply in_or_app. right. left. reflexivity.
Qed.

Lemma In_remove_keyN {A} k (m : list (N * A)) v d : In (v, d) (remove_keyN k m) <-> In (v, d) m /\ v <> k.
Proof.
  induction m as [|[k0 v0] m IH]; simpl; [tauto|]. destruct (N.eqb_spec k k0) as [<-|E].
  - rewrite IH. split; [intros [H1 H2]; auto|].
    intros [[H|H] H2]; [inversion H; congruence|auto].
  - simpl. rewrite IH. split.
    + intros [H|[H1 H2]]; [inversion H; subst; auto|auto].
    + intros [[H|H] H2]; auto.
Qed.

Lemma add_deps_origin g : forall ds steps deps deps',
  add_deps g ds steps deps = Ok deps' ->
  (forall v d, In (v, d) deps' -> In (v, d) deps \/
     (~ In v steps /\ exists sd, nth_error g d = Some sd /\ s_vid sd = v /\ s_valid sd = true)) /\
  (forall e, In e deps -> In e deps') /\
  (forall d sd, In d ds -> nth_error g d = Some sd -> s_valid sd = true ->
     In (s_vid sd) steps \/ exists d', In (s_vid sd, d') deps').
Proof.
  induction ds as [|d ds IH]; intros steps deps deps' H; simpl in H.
  - injection H as <-. repeat split; auto. intros d sd [].
  - destruct (nth_error g d) as [sd|] eqn:Ed; [|discriminate].
    destruct (s_valid sd) eqn:Ev; simpl in H; [destruct (mem (s_vid sd) steps) eqn:Em|];
      destruct (IH _ _ _ H) as (A & C & F).
    + split; [exact A|]. split; [exact C|]. intros d0 sd0 [<-|Hin] H0 V0; [|eapply F; eassumption].
      rewrite Ed in H0. injection H0 as <-. left. apply mem_In, Em.
    + split; [|split].
      * intros v d0 Hin. destruct (A v d0 Hin) as [Hin'|R]; [|right; exact R].
        apply In_setdefaultN in Hin' as [Hin'|[_ Hin']]; [left; exact Hin'|right].
        injection Hin' as -> ->. split; [apply mem_false, Em|exists sd; auto].
      * intros e He. apply C, In_setdefaultN. left. exact He.
      * intros d0 sd0 [<-|Hin] H0 V0; [|eapply F; eassumption].
        rewrite Ed in H0. injection H0 as <-. right.
        destruct (setdefaultN_key (s_vid sd) d deps) as (d' & Hin). exists d'. apply C, Hin.
    + split; [exact A|]. split; [exact C|]. intros d0 sd0 [<-|Hin] H0 V0; [|eapply F; eassumption].
      rewrite Ed in H0. injection H0 as <-. congruence.
Qed.

Lemma jj_add_step_ok g sid s jj jj' :
  nth_error g sid = Some s -> jj_add_step g sid s jj = Ok jj' -> JJ_ok g jj -> JJ_ok g jj'.
Proof.
  intros Hs H (W & D & B). unfold jj_add_step in H.
  set (jj1 := match s_kind s with
              | KCheckout => _ | KBuild => _ | KPackage => _ end) in H.
  assert (E1 : j_steps jj1 = j_steps jj /\ j_deps jj1 = j_deps jj).
  { unfold jj1. destruct (s_kind s); simpl; auto. }
  destruct E1 as (E1 & E2).
  destruct (mem (s_vid s) (j_steps jj1)) eqn:Em.
  - injection H as <-. unfold JJ_ok, have. rewrite E1, E2. auto.
  - destruct (add_deps g (alldeps s) (j_steps jj1 ++ [s_vid s]) (remove_keyN (s_vid s) (j_deps jj1))) as [deps| |] eqn:Ea; try discriminate.
    injection H as <-.
    rewrite E1, E2 in Ea. rewrite E1 in Em.
    destruct (add_deps_origin g _ _ _ _ Ea) as (A1 & A3 & A4).
    unfold JJ_ok, have. simpl. rewrite E1. split; [|split].
    + intros v d Hin. destruct (A1 v d Hin) as [Hin'|[_ R]]; [|exact R].
      apply In_remove_keyN in Hin' as [Hin' _]. apply W, Hin'.
    + intros v d Hin. destruct (A1 v d Hin) as [Hin'|[R _]]; [|exact R].
      apply In_remove_keyN in Hin' as [Hin' Hne]. intros Hv.
      apply in_app_or in Hv as [Hv|[Hv|[]]]; [exact (D v d Hin' Hv)|congruence].
    + intros v Hv. apply in_app_or in Hv as [Hv|[<-|[]]].
      * destruct (B v Hv) as (sid0 & s0 & H0 & Hv0 & F0). exists sid0, s0. split; [exact H0|]. split; [exact Hv0|].
        intros d sd Hd Hsd Hval. destruct (F0 d sd Hd Hsd Hval) as [F|(d0 & F)].
        -- left. apply in_or_app. left. exact F.
        -- destruct (N.eq_dec (s_vid sd) (s_vid s)) as [E|NE].
           ++ left. apply in_or_app. right. left. symmetry. exact E.
           ++ right. exists d0. apply A3, In_remove_keyN. auto.
      * exists sid, s. split; [exact Hs|]. split; [reflexivity|]. intros d sd Hd Hsd Hval. apply (A4 d sd Hd Hsd Hval).
Qed.

Definition all_JJ_ok (g : graph) (jobs : list (str * jjob)) : Prop :=
  forall n jj, lookup_str n jobs = Some jj -> JJ_ok g jj.

Lemma JJ_ok_empty g name disp : JJ_ok g (mkJJ name disp false [] [] [] [] []).
Proof. split; [intros v d []|]. split; [intros v d []|intros v []]. Qed.

Lemma all_JJ_ok_update g jobs name jj' : all_JJ_ok g jobs -> JJ_ok g jj' -> all_JJ_ok g (update_str name (fun _ => jj') jobs).
Proof.
  intros HG HJ n jj H. rewrite lookup_update_str in H. destruct (str_eqb n name).
  - injection H as <-. exact HJ.
  - apply (HG n jj H).
Qed.

Definition GenSpec (g : graph) (rec : nat -> gstate -> res gstate) : Prop :=
  forall d gs gs', rec d gs = Ok gs' -> all_JJ_ok g (g_jobs gs) -> all_JJ_ok g (g_jobs gs').

Lemma loop_gen_ok g rec : GenSpec g rec -> forall ds gs gs',
  loop_gen rec ds gs = Ok gs' -> all_JJ_ok g (g_jobs gs) -> all_JJ_ok g (g_jobs gs').
Proof.
  intros HR. induction ds as [|d ds IH]; intros gs gs' H HG; simpl in H; [inversion H; subst; exact HG|].
  destruct (rec d gs) as [gs1| |] eqn:E; try discriminate. apply (IH gs1 gs' H). apply (HR d gs gs1 E HG).
Qed.

Lemma loop_gen_seen_ok g rec : GenSpec g rec -> forall ds gs gs',
  loop_gen_seen g rec ds gs = Ok gs' -> all_JJ_ok g (g_jobs gs) -> all_JJ_ok g (g_jobs gs').
Proof.
  intros HR. induction ds as [|d ds IH]; intros gs gs' H HG; simpl in H; [inversion H; subst; exact HG|].
  destruct (nth_error g d) as [sd|]; [|discriminate].
  destruct (mem (s_stack sd) (g_seen gs)); [apply (IH gs gs' H HG)|].
  destruct (rec d _) as [gs1| |] eqn:E; try discriminate. apply (IH gs1 gs' H). apply (HR d _ gs1 E). exact HG.
Qed.

Lemma gen_jobs_ok prefix short g nm : forall fuel, GenSpec g (gen_jobs fuel prefix short g nm).
Proof.
  induction fuel as [|f IH]; intros sid0 gs gs' H HG; [discriminate|].
  cbn [gen_jobs] in H.
  destruct (nth_error g sid0) as [s0|]; [|discriminate].
  destruct (if is_pkg s0 then lookupN (s_vid s0) (st_ref (nm_state nm)) else Some sid0) as [sid|]; [|discriminate].
  destruct (nth_error g sid) as [s|] eqn:Hs; [|discriminate].
  destruct (internal_name prefix g nm s) as [name| |]; destruct (display_name prefix g nm s) as [disp| |]; try discriminate.
  destruct (is_pkg s && short && mem (s_vid s) (g_vids gs)).
  - destruct (lookup_str name (g_jobs gs)); [|discriminate]. injection H as <-. exact HG.
  - set (jj := match lookup_str name (g_jobs gs) with Some jj => jj | None => _ end) in H.
    assert (HJ : JJ_ok g jj).
    { unfold jj. destruct (lookup_str name (g_jobs gs)) as [jj0|] eqn:E; [apply (HG name jj0 E)|apply JJ_ok_empty]. }
    destruct (jj_add_step g sid s jj) as [jj'| |] eqn:Ea; try discriminate.
    pose proof (jj_add_step_ok g sid s jj jj' Hs Ea HJ) as HJ'.
    revert H. cbv zeta. destruct (loop_gen _ _ _) as [gs2| |] eqn:El; try discriminate. intros H.
    assert (G2 : all_JJ_ok g (g_jobs gs2)) by (apply (loop_gen_ok g _ IH _ _ _ El); simpl; apply all_JJ_ok_update; assumption).
    destruct (is_pkg s).
    + apply (loop_gen_seen_ok g _ IH _ _ _ H G2).
    + injection H as <-. exact G2.
Qed.

Lemma make_root_ok g n jobs : all_JJ_ok g jobs -> all_JJ_ok g (make_root n jobs).
Proof.
  intros HG. unfold make_root. destruct (lookup_str n jobs) as [jj|] eqn:E; [|exact HG].
  apply all_JJ_ok_update; [exact HG|]. apply (HG n jj E).
Qed.

Lemma gen_roots_ok prefix short g nm : forall roots jobs jobs',
  gen_roots prefix short g nm roots jobs = Ok jobs' -> all_JJ_ok g jobs -> all_JJ_ok g jobs'.
Proof.
  induction roots as [|r rest IH]; intros jobs jobs' H HG; cbn [gen_roots] in H; [inversion H; subst; exact HG|].
  destruct (gen_jobs (S (S (length g))) prefix short g nm r (mkG jobs [] [])) as [gs| |] eqn:Eg; try discriminate.
  pose proof (gen_jobs_ok prefix short g nm _ r _ gs Eg HG) as G1.
  revert H. cbv zeta. destruct (match nth_error g r with Some _ => _ | None => _ end) as [n|]; [|discriminate].
  intros H. apply (IH _ _ H). apply make_root_ok. exact G1.
Qed.

Lemma In_add_name n l x : In x (add_name n l) <-> In x l \/ n = x.
Proof.
  induction l as [|y l IH]; simpl; [split; [intros [H|[]]; auto|intros [[]|H]; auto]|]. destruct (str_eqb n y) eqn:E.
  - apply str_eqb_eq in E. subst y. simpl. split; [auto|intros [H|H]; auto].
  - simpl. split; [intros [H|H]; [auto|apply IH in H as [H|H]; auto]|].
    intros [[H|H]|H]; [left; exact H|right; apply IH; left; exact H|right; apply IH; right; exact H].
Qed.

Lemma upstream_of_spec prefix g nm : forall deps acc ups,
  upstream_of prefix g nm deps acc = Ok ups ->
  (forall n, In n acc -> In n ups) /\
  (forall v d sd, In (v, d) deps -> nth_error g d = Some sd -> exists n, internal_name prefix g nm sd = Ok n /\ In n ups).
Proof.
  induction deps as [|[v d] deps IH]; intros acc ups H; simpl in H.
  - injection H as <-. split; [auto|intros v d sd []].
  - destruct (nth_error g d) as [sd|] eqn:Ed; [|discriminate].
    destruct (internal_name prefix g nm sd) as [n| |] eqn:En; try discriminate.
    destruct (IH _ _ H) as [A B]. split.
    + intros n0 Hn. apply A. apply In_add_name. left. exact Hn.
    + intros v0 d0 sd0 [Hin|Hin] Hd0.
      * injection Hin as <- <-. rewrite Ed in Hd0. inversion Hd0; subst sd0. exists n. split; [exact En|].
        apply A. apply In_add_name. right. reflexivity.
      * apply (B v0 d0 sd0 Hin Hd0).
Qed.

Open Scope N_scope.
(* witness_f13: corpus/C20/f13_cyclic_reference_instance.json *)
Definition witness_f13_graph : graph :=
  [(mkS KCheckout 1 23 0 [117;116;105;108;45;97] [117;116;105;108] false false (@nil N) (@nil N) None);
   (mkS KCheckout 1 21 1 [117;116;105;108] [117;116;105;108] false false (@nil N) (@nil N) None);
   (mkS KCheckout 1 19 2 [115;98;120;45;100;101;118] [115;98;120] false false (@nil N) (@nil N) None);
   (mkS KCheckout 1 17 3 [115;98;120;45;97;45;98] [115;98;120] false false (@nil N) (@nil N) None);
   (mkS KCheckout 1 15 4 [115;98;120] [115;98;120] false false (@nil N) (@nil N) None);
   (mkS KBuild 3 15 4 [115;98;120] [115;98;120] false true [4] (@nil N) None);
   (mkS KCheckout 1 14 5 [115;98;120;45;50] [115;98;120] false false (@nil N) (@nil N) None);
   (mkS KCheckout 1 12 6 [115;98;120;45;100;101;118] [115;98;120] false false (@nil N) (@nil N) None);
   (mkS KCheckout 1 10 7 [115;98;120;45;97;45;98] [115;98;120] false false (@nil N) (@nil N) None);
   (mkS KBuild 5 10 7 [115;98;120;45;97;45;98] [115;98;120] false true [8] (@nil N) None);
   (mkS KPackage 2 10 7 [115;98;120;45;97;45;98] [115;98;120] false true [9] (@nil N) None);
   (mkS KBuild 7 12 6 [115;98;120;45;100;101;118] [115;98;120] false true [7; 10] (@nil N) (Some 10));
   (mkS KPackage 10 12 6 [115;98;120;45;100;101;118] [115;98;120] false true [11] (@nil N) (Some 10));
   (mkS KBuild 9 14 5 [115;98;120;45;50] [115;98;120] false true [6; 12] (@nil N) None);
   (mkS KPackage 4 14 5 [115;98;120;45;50] [115;98;120] false true [13] (@nil N) None);
   (mkS KPackage 6 15 4 [115;98;120] [115;98;120] false true [5] [14] None);
   (mkS KBuild 11 17 3 [115;98;120;45;97;45;98] [115;98;120] false true [3] (@nil N) (Some 15));
   (mkS KPackage 8 17 3 [115;98;120;45;97;45;98] [115;98;120] false true [16] (@nil N) (Some 15));
   (mkS KBuild 7 19 2 [115;98;120;45;100;101;118] [115;98;120] false true [2; 17] (@nil N) (Some 17));
   (mkS KPackage 10 19 2 [115;98;120;45;100;101;118] [115;98;120] false true [18] (@nil N) (Some 17));
   (mkS KBuild 13 21 1 [117;116;105;108] [117;116;105;108] false true [1; 19] (@nil N) (Some 15));
   (mkS KPackage 12 21 1 [117;116;105;108] [117;116;105;108] false true [20] (@nil N) (Some 15));
   (mkS KBuild 15 23 0 [117;116;105;108;45;97] [117;116;105;108] false true [0; 21] (@nil N) (Some 15));
   (mkS KPackage 14 23 0 [117;116;105;108;45;97] [117;116;105;108] false true [22] (@nil N) (Some 15))].
Definition witness_f13_roots : list nat := map N.to_nat [23].
Definition witness_f13_sroots : list nat := map N.to_nat [23].
(* witness_f4: corpus/C20/f4_case_collision.json *)
Definition witness_f4_graph : graph :=
  [(mkS KCheckout 1 11 0 [114;111;111;116] [114;111;111;116] false false (@nil N) (@nil N) None);
   (mkS KCheckout 1 9 1 [108;105;98] [108;105;98] false false (@nil N) (@nil N) None);
   (mkS KCheckout 1 7 2 [109;105;100] [109;105;100] false false (@nil N) (@nil N) None);
   (mkS KCheckout 1 5 3 [76;105;98] [76;105;98] false false (@nil N) (@nil N) None);
   (mkS KBuild 3 5 3 [76;105;98] [76;105;98] false true [3] (@nil N) None);
   (mkS KPackage 2 5 3 [76;105;98] [76;105;98] false true [4] (@nil N) None);
   (mkS KBuild 5 7 2 [109;105;100] [109;105;100] false true [2; 5] (@nil N) None);
   (mkS KPackage 4 7 2 [109;105;100] [109;105;100] false true [6] (@nil N) None);
   (mkS KBuild 7 9 1 [108;105;98] [108;105;98] false true [1; 7] (@nil N) None);
   (mkS KPackage 6 9 1 [108;105;98] [108;105;98] false true [8] (@nil N) None);
   (mkS KBuild 9 11 0 [114;111;111;116] [114;111;111;116] false true [0; 9] (@nil N) None);
   (mkS KPackage 8 11 0 [114;111;111;116] [114;111;111;116] false true [10] (@nil N) None)].
Definition witness_f4_roots : list nat := map N.to_nat [11].
Definition witness_f4_sroots : list nat := map N.to_nat [11].
(* witness_merge: corpus/C20/f4_numbering_collision.json: jobs {q-a,q-b}[V=1] -> t -> {q-b,q-c}[V=2], numbered q-1, q-2; recipe q-1 *)
Definition witness_merge_graph : graph :=
  [(mkS KCheckout 1 20 0 [114;111;111;116] [114;111;111;116] false false (@nil N) (@nil N) None);
   (mkS KCheckout 1 12 1 [113;45;97] [113] false false (@nil N) (@nil N) None);
   (mkS KCheckout 1 10 2 [116] [116] false false (@nil N) (@nil N) None);
   (mkS KCheckout 1 5 3 [113;45;98] [113] false false (@nil N) (@nil N) None);
   (mkS KBuild 3 5 3 [113;45;98] [113] false true [3] (@nil N) None);
   (mkS KPackage 2 5 3 [113;45;98] [113] false true [4] (@nil N) None);
   (mkS KCheckout 1 8 4 [113;45;99] [113] false false (@nil N) (@nil N) None);
   (mkS KBuild 5 8 4 [113;45;99] [113] false true [6] (@nil N) None);
   (mkS KPackage 4 8 4 [113;45;99] [113] false true [7] (@nil N) None);
   (mkS KBuild 7 10 2 [116] [116] false true [2; 5; 8] (@nil N) None);
   (mkS KPackage 6 10 2 [116] [116] false true [9] (@nil N) None);
   (mkS KBuild 9 12 1 [113;45;97] [113] false true [1; 10] (@nil N) None);
   (mkS KPackage 8 12 1 [113;45;97] [113] false true [11] (@nil N) None);
   (mkS KCheckout 1 15 5 [113;45;98] [113] false false (@nil N) (@nil N) None);
   (mkS KBuild 11 15 5 [113;45;98] [113] false true [13] (@nil N) None);
   (mkS KPackage 10 15 5 [113;45;98] [113] false true [14] (@nil N) None);
   (mkS KCheckout 1 18 6 [113;45;49] [113;45;49] false false (@nil N) (@nil N) None);
   (mkS KBuild 13 18 6 [113;45;49] [113;45;49] false true [16] (@nil N) None);
   (mkS KPackage 12 18 6 [113;45;49] [113;45;49] false true [17] (@nil N) None);
   (mkS KBuild 15 20 0 [114;111;111;116] [114;111;111;116] false true [0; 12; 15; 18] (@nil N) None);
   (mkS KPackage 14 20 0 [114;111;111;116] [114;111;111;116] false true [19] (@nil N) None)].
Definition witness_merge_roots : list nat := map N.to_nat [20].
(* what jenkins.py computes on this project: the AbstractJobs as (pkgs, parents, childs)
   and self.__packageName; the first two components of [run] on the witness are the same two lists
   abstract [[[2, 4], [6], [2, 4]], [[6], [8], [2, 4, 6]], [[8, 10], [14], [2, 4, 6, 8, 10]], [[12], [14], [12]], [[14], [], [2, 4, 6, 8, 10, 12, 14]]]
   names [[2, 'q-2'], [4, 'q-2'], [6, 't'], [8, 'q-1'], [10, 'q-1'], [12, 'q-1'], [14, 'root']] *)

Close Scope N_scope.

(* two distinct abstract jobs under one internal Jenkins job name *)
Definition name_collision (nm : named) : Prop :=
  exists v1 v2 n1 n2 j1 j2,
    lookupN v1 (nm_names nm) = Some n1 /\ lookupN v2 (nm_names nm) = Some n2 /\
    jobof (nm_state nm) v1 = Some j1 /\ jobof (nm_state nm) v2 = Some j2 /\ j1 <> j2 /\
    internal_of n1 = internal_of n2.

(* a closed run of the model is evaluated once, together with the facts wanted of its result *)
Lemma Ok_ex {A} (r : res A) (P : A -> Prop) :
  match r with Ok a => P a | _ => False end -> exists a, r = Ok a /\ P a.
Proof. destruct r; [eauto|tauto..]. Qed.

Definition no_collision (names : list (N * str)) : bool :=
  forallb (fun '(v1, n1) => forallb (fun '(v2, n2) => str_eqb n1 n2 || negb (str_eqb (internal_of n1) (internal_of n2))) names) names.
