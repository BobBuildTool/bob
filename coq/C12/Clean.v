(* C12 — bob clean -s / --attic delete only what every recorded SCM calls
   expendable. *)
From Coq Require Import List NArith Bool PeanoNat.
Require Import BobV.Common.Cases BobV.C12.Model BobV.C12.Proofs.
Import ListNotations.
Open Scope N_scope.

(* bob clean -s: unless the workspace is unused and every recorded SCM
   directory reports expendable, nothing changes at all *)
Theorem clean_src_else_unchanged : forall st used w,
  (used = true \/ all_expendable st w = false) -> clean_src_one st used w = w.
Proof.
  intros st used w [H|H]; unfold clean_src_one; rewrite H; simpl; auto.
  rewrite andb_false_r. auto.
Qed.

(* bob clean --attic: a recorded attic directory is deleted only if it is
   expendable and so is every recorded attic directory below it *)
Lemma attic_deletable_expendable st w ae :
  attic_deletable st w ae = true ->
  attic_expendable st w ae = true /\
  forall other, In other (w_astate w) ->
    fst (fst other) = fst (fst ae) -> strict_prefix (snd (fst ae)) (snd (fst other)) = true ->
    attic_exists w (fst other) = true -> attic_expendable st w other = true.
Proof.
  intros H. unfold attic_deletable in H.
  apply andb_true_iff in H. destruct H as [H N]. apply andb_true_iff in H. destruct H as [_ E].
  split; auto. intros other I K S X. rewrite forallb_forall in N. specialize (N _ I).
  apply orb_true_iff in N. destruct N as [N|N]; auto.
  apply negb_true_iff in N. rewrite K, N.eqb_refl, S, X in N. discriminate.
Qed.

(* the local [doomed] of clean_attic_one under a name, for the statement of clean_attic_nth *)
Definition attic_doomed (st : store) (w : wstate) (k : N) (p : path) : bool :=
  existsb (fun ae => (fst (fst ae) =? k) && is_prefix (snd (fst ae)) p)
          (filter (attic_deletable st w) (w_astate w)).

Lemma nth_indexed_filter (A : Type) (F : N -> A -> bool) : forall (l : list (list A)) s k,
  nth k (map (fun kn => filter (F (fst kn)) (snd kn)) (combine (map N.of_nat (seq s (length l))) l)) [] =
  filter (F (N.of_nat (s + k))) (nth k l []).
Proof.
  induction l as [|x l IH]; intros s [|k]; simpl; auto.
  - rewrite Nat.add_0_r. auto.
  - rewrite IH, Nat.add_succ_comm. auto.
Qed.

Lemma clean_attic_nth st w k :
  nth k (w_attic (clean_attic_one st w)) [] =
  filter (fun pn => negb (attic_doomed st w (N.of_nat k) (fst pn))) (nth k (w_attic w) []).
Proof.
  unfold clean_attic_one. simpl.
  apply (nth_indexed_filter _ (fun k pn => negb (attic_doomed st w k (fst pn))) (w_attic w) 0 k).
Qed.

Lemma clean_attic_astate st w x :
  In x (w_astate (clean_attic_one st w)) <->
  In x (w_astate w) /\ attic_exists (clean_attic_one st w) (fst x) = true.
Proof. unfold clean_attic_one. simpl. apply filter_In. Qed.

Lemma clean_attic_length st w : length (w_attic (clean_attic_one st w)) = length (w_attic w).
Proof.
  unfold clean_attic_one. simpl. rewrite map_length, combine_length, map_length, seq_length.
  apply Nat.min_id.
Qed.
