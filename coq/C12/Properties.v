(* C12 — property theorems and non-vacuity / refutation witnesses.  Git itself
   is modelled (Model.v) and validated differentially; what is proved here are
   the consequences of Bob's decisions on top. *)
From Coq Require Import List NArith Bool.
Require Import BobV.C12.Model BobV.C12.Proofs BobV.C12.Converge BobV.C12.Clean BobV.C12.Builder.
Import ListNotations.
Open Scope N_scope.

(* Project level: whatever user commit (reachable from a local branch or a
   detached HEAD) or uncommitted file content exists in some git directory of
   some source workspace or attic after the history [ops1], still exists after
   any further sequence [ops2] of bob dev / bob dev --clean-checkout /
   bob clean -s / bob clean --attic runs with arbitrary recipes (valid per
   input.py) and arbitrary upstream states in between, as long as upstream
   refs and the commits pinned by recipes are upstream commits (op_ok). *)
Theorem user_objects_monotone : forall st ops1 ops2 o,
  store_wf st -> Forall (op_ok st) (ops1 ++ ops2) -> Forall bob_op ops2 ->
  holds_P st (run_ops st [] ops1) o -> holds_P st (run_ops st [] (ops1 ++ ops2)) o.
Proof.
  intros st ops1 ops2 o W F B H. rewrite run_ops_app.
  apply Forall_app in F. destruct F as [F1 F2].
  destruct (run_ops_pres st ops1 [] W F1) as [PI _]; [discriminate|].
  apply (run_ops_pres st ops2 _ W F2 PI); auto.
Qed.

(* GitScm.invoke (update / creation of a checkout) keeps every user commit
   reachable from a local ref and every uncommitted file, whatever the upstream
   state and whether or not it succeeds. *)
Theorem git_invoke_keeps_user_objects : forall st up g url r g' ok,
  store_wf st -> up_ok' st up -> ginv st g ->
  git_invoke st up g url r false = (g', ok) ->
  (forall o, holds_g st g o -> holds_g st g' o) /\ ginv st g'.
Proof. intros. apply gsafe_ginv; auto. eapply git_invoke_safe; eauto. discriminate. Qed.

(* GitScm.switch (inline switch after a recipe change), including the partial
   effects of a switch that fails half way (detached-HEAD rule, ff-only merge,
   the "contains" guard of reset --keep). *)
Theorem git_switch_keeps_user_objects : forall st up g oldr url newr g' ok,
  store_wf st -> up_ok' st up -> ginv st g -> rev_ok st oldr -> rev_ok st newr ->
  git_switch st up g oldr url newr = (g', ok) ->
  (forall o, holds_g st g o -> holds_g st g' o) /\ ginv st g'.
Proof.
  intros st up g oldr url newr g' ok W UO GI RO RN H. apply gsafe_ginv; auto.
  exact (git_switch_safe W UO GI RO RN H).
Qed.

(* After the switch-or-attic loop over the recorded directories in
   checkoutsFromState order: every recorded directory at or below a directory
   that was moved to the attic is gone from the workspace state and is recorded
   as attic directory at the re-homed location with its old spec. *)
Theorem attic_nested_consistent : forall st up newmap ds L0 L r k d e,
  NoDup (map fst ds) -> l_tracker L0 = [] -> l_ds L0 = ds ->
  L = fold_left (loop_step st up newmap) (sort_paths ds) L0 ->
  In (r, k) (l_tracker L) -> In (d, e) ds -> is_prefix r d = true ->
  pget (l_ds L) d = None /\ In ((k, skipn (length r) d), de_spec e) (l_astate L).
Proof.
  intros st up newmap ds L0 L r k d e ND T0 D0 EL IT ID P.
  subst L. apply (ti_homed (tinv_loop st up newmap ds L0 T0 ND) IT); auto. apply sort_paths_In. auto.
Qed.

Theorem clean_requires_expendable : forall st used w,
  w_exists w = true -> w_exists (clean_src_one st used w) = false ->
  used = false /\
  forall d e, In (d, e) (w_ds w) ->
    exists s, de_spec e = Some s /\ s_expendable (scm_status st (w_nodes w) d s) = true.
Proof.
  intros st used w E H.
  destruct used; [rewrite clean_src_else_unchanged in H by auto; congruence|].
  destruct (all_expendable st w) eqn:A; [|rewrite clean_src_else_unchanged in H by auto; congruence].
  split; auto. intros d e I. unfold all_expendable in A. rewrite forallb_forall in A.
  specialize (A _ I). simpl in A. unfold entry_expendable in A.
  destruct (de_spec e) as [s|]; [eauto|discriminate].
Qed.

Theorem clean_attic_requires_expendable : forall st w ae,
  attic_deletable st w ae = true ->
  attic_expendable st w ae = true /\
  forall other, In other (w_astate w) ->
    fst (fst other) = fst (fst ae) -> strict_prefix (snd (fst ae)) (snd (fst other)) = true ->
    attic_exists w (fst other) = true -> attic_expendable st w other = true.
Proof. exact attic_deletable_expendable. Qed.

(* ScmStatus.expendable implies that the directory holds no user object. *)
Theorem expendable_holds_nothing : forall st g nv url r o,
  store_wf st -> up_refs st g ->
  s_expendable (git_status st g nv url r) = true -> ~ holds_g st g o.
Proof. exact expendable_no_user_objects. Qed.

(* FULL STATEMENT (false of the faithful model, see the _refuted witnesses):
     forall untouched git directory g (clean work tree), after a successful
     inline switch / update to (url, rev): HEAD is the commit a fresh checkout
     selects and the work tree is its tree.
   PROVED: the same with the two named exceptions [ahead_of_upstream]
   (known finding inline-switch-leaves-branch-ahead-of-new-upstream, also the
   rewind half of untouched-not-converged-after-upstream-history-rewrite) and
   [stale_local_tag] (finding tag-on-branch-switch-trusts-stale-local-tag);
   the failing cases (non fast-forward rewrite, url digest change for the same
   url) are the _refuted / _stuck statements below. *)
Theorem untouched_converges_partial : forall st up g oldr url newr g' tgt,
  gclean st g -> fresh_target up url newr = Some tgt ->
  git_switch st up g oldr url newr = (g', true) ->
  gclean st g' /\
  (converged st tgt g' \/ ahead_of_upstream st newr tgt g' \/ stale_local_tag newr tgt g).
Proof.
  intros st up g oldr url newr g' tgt C FT H. unfold git_switch in H.
  destruct (switch_guard g oldr newr); [|discriminate H].
  destruct (git_invoke_converges C FT (or_introl eq_refl) H) as [C' [K|[[_ K]|K]]]; auto.
Qed.

Theorem untouched_update_converges_partial : forall st up g url b g' tgt,
  gclean st g -> g_url g = url -> g_head g = HBranch b -> head_valid g = true ->
  fresh_target up url (RBranch b) = Some tgt ->
  git_invoke st up g url (RBranch b) false = (g', true) ->
  gclean st g' /\ (converged st tgt g' \/ ahead_of_upstream st (RBranch b) tgt g').
Proof.
  intros st up g url b g' tgt C U HB HV FT H.
  destruct (git_invoke_converges C FT (or_intror (or_intror HB)) H)
    as [C' [K|[[_ K]|(b0 & t & c & E & _)]]]; auto.
  discriminate E.
Qed.

Theorem fresh_checkout_reaches_target : forall st up url r g' tgt,
  fresh_target up url r = Some tgt ->
  git_invoke st up (g_init url []) url r false = (g', true) ->
  converged st tgt g'.
Proof.
  intros st up url r g' tgt FT H.
  assert (C : gclean st (g_init url [])) by (intro f; reflexivity).
  destruct (git_invoke_converges C FT (or_intror (or_introl eq_refl)) H)
    as [_ [K|[[E _]|(b0 & t & c & _ & T & _)]]]; [exact K|discriminate E|discriminate T].
Qed.

Theorem url_invoke_verified : forall st up ns u dig d ns',
  invoke_scm st up ns (SUrl u dig d) = (ns', true) ->
  exists n b, pget ns' d = Some n /\ aget (node_files n) (url_fname u) = Some b /\
    match dig with Some dd => b = dd | None => aget (up_url up) u = Some b end.
Proof.
  intros st up ns u dig d ns' H. simpl in H.
  set (n := match pget ns d with Some n => n | None => NPlain [] end) in *.
  match type of H with (match ?f with _ => _ end) = _ => destruct f as [files'|] eqn:F end; [|discriminate H].
  injection H as <- OK. exists (node_with_files n files'). rewrite pget_put_node_same, node_files_with.
  destruct dig as [dd|]; simpl in F.
  - apply oeqb_spec in OK. exists dd. auto.
  - destruct (aget (up_url up) u) as [b|]; [|discriminate F]. injection F as <-. exists b. rewrite aget_aset_same. auto.
Qed.

(* known finding url-digest-change-same-url-never-converges: the stale file stays, every run fails *)
Theorem url_digest_change_stuck : forall st up ns u dd d n x,
  pget ns d = Some n -> aget (node_files n) (url_fname u) = Some x -> x <> dd ->
  exists ns', invoke_scm st up ns (SUrl u (Some dd) d) = (ns', false) /\
    exists n', pget ns' d = Some n' /\ aget (node_files n') (url_fname u) = Some x.
Proof.
  intros st up ns u dd d n x P A NE. simpl. rewrite P. rewrite A. simpl.
  assert (H : oeqb (Some x) (Some dd) = false) by (apply (e_neq oeqb oeqb_spec); congruence).
  rewrite A, H. eexists. split; [reflexivity|].
  exists (node_with_files n (node_files n)). rewrite pget_put_node_same, node_files_with. auto.
Qed.

Definition ex_store : store :=
  [(1, mkC None [(0, 21)] false);
   (2, mkC (Some 1) [(0, 21); (1, 22)] false);
   (3, mkC (Some 2) [(0, 23); (1, 22)] false);
   (4, mkC (Some 3) [(0, 23); (1, 22); (10, 30)] true);      (* a local commit of the user *)
   (5, mkC (Some 1) [(0, 24)] false)].                       (* rewritten upstream history *)
Definition ex_up : upstream :=
  mkUp [(0, mkU [(0, 3)] [(0, 1)]); (1, mkU [(0, 2)] [(0, 2)]); (2, mkU [(0, 5)] [])] [(0, 40)] [].
Definition ex_g0 : gitws := fst (git_invoke ex_store ex_up (g_init 0 []) 0 (RBranch 0) false).
Definition ex_guser : gitws :=
  user_op ex_store (user_op ex_store ex_g0 (UCommit 4)) (UWrite 11 31).

(* the inline switch to the repository that is behind succeeds and stays ahead *)
Example untouched_converges_refuted_ahead :
  gclean ex_store ex_g0 /\ fresh_target ex_up 1 (RBranch 0) = Some 2 /\
  exists g', git_switch ex_store ex_up ex_g0 (RBranch 0) 1 (RBranch 0) = (g', true) /\
             head_commit g' = Some 3.
Proof.
  split; [intro f; reflexivity|]. split; [reflexivity|].
  eexists. split; vm_compute; reflexivity.
Qed.

(* branch+tag: the local tag of the old repository is trusted *)
Definition ex_gtag : gitws := fst (git_invoke ex_store ex_up (g_init 0 []) 0 (RTagOn 0 0) false).
Example untouched_converges_refuted_stale_tag :
  gclean ex_store ex_gtag /\ fresh_target ex_up 1 (RTagOn 0 0) = Some 2 /\
  exists g', git_switch ex_store ex_up ex_gtag (RTagOn 0 0) 1 (RTagOn 0 0) = (g', true) /\
             head_commit g' = Some 1.
Proof.
  split; [intro f; reflexivity|]. split; [reflexivity|].
  eexists. split; vm_compute; reflexivity.
Qed.

(* upstream history rewrite: the update of the untouched directory fails, a fresh checkout works *)
Definition ex_up_rewritten : upstream := mkUp [(0, mkU [(0, 5)] [(0, 1)])] [] [].
Example untouched_converges_refuted_rewrite :
  snd (git_invoke ex_store ex_up_rewritten ex_g0 0 (RBranch 0) false) = false /\
  snd (git_invoke ex_store ex_up_rewritten (g_init 0 []) 0 (RBranch 0) false) = true.
Proof. split; vm_compute; reflexivity. Qed.

(* non-vacuity: convergence does happen (switch from the branch to the earlier commit 2 on it) *)
Example untouched_converges_nonvacuous :
  exists g', git_switch ex_store ex_up ex_g0 (RBranch 0) 0 (RCommitOn 0 2) = (g', true) /\
             head_commit g' = Some 2 /\ g_wt g' = [(0, 21); (1, 22)].
Proof. eexists. split; [|split]; vm_compute; reflexivity. Qed.

(* non-vacuity of user_objects: a user commit on master and a dirty file; the switch to the
   pinned older commit is refused by the "contains" guard (nothing else holds commit 4), the
   directory keeps both objects (and then goes to the attic as a whole) *)
Example user_objects_nonvacuous :
  holds_g ex_store ex_guser (OCommit 4) /\ holds_g ex_store ex_guser (OFile 11 31) /\
  exists g', git_switch ex_store ex_up ex_guser (RBranch 0) 0 (RCommitOn 0 2) = (g', false) /\
             aget (g_branches g') 0 = Some 4 /\ aget (g_wt g') 11 = Some 31.
Proof.
  split; [|split].
  - split.
    + exists (mkC (Some 3) [(0, 23); (1, 22); (10, 30)] true). split; reflexivity.
    + exists 4. split; [left; exists 0; vm_compute; reflexivity | apply R_refl].
  - split; vm_compute; [reflexivity | discriminate].
  - eexists. split; [|split]; vm_compute; reflexivity.
Qed.

Example expendable_nonvacuous :
  s_expendable (git_status ex_store ex_g0 false 0 (RBranch 0)) = true /\
  s_expendable (git_status ex_store ex_guser false 0 (RBranch 0)) = false.
Proof. split; vm_compute; reflexivity. Qed.

(* project level non-vacuity: build, user commit + dirty file; the recipe then pins an older commit on
   the branch (switch refused by the reset --keep guard -> attic), followed by clean --attic, clean -s
   and a --clean-checkout build from another repository: both objects are in the attic directory *)
Definition ex_ops1 : list op :=
  [OBuild false ex_up [(0, [SGit 0 (RBranch 0) [1]])]; OUser 0 [1] (UCommit 4); OUser 0 [1] (UWrite 11 31)].
Definition ex_ops2 : list op :=
  [OBuild false ex_up [(0, [SGit 0 (RCommitOn 0 2) [1]])]; OCleanAttic; OCleanSrc []; OBuild true ex_up [(0, [SGit 1 (RBranch 0) [1]])]].
Example user_objects_monotone_nonvacuous :
  holds_P ex_store (run_ops ex_store [] ex_ops1) (OCommit 4) /\
  holds_P ex_store (run_ops ex_store [] ex_ops1) (OFile 11 31) /\
  exists w a g, aget (run_ops ex_store [] (ex_ops1 ++ ex_ops2)) 0 = Some w /\ w_attic w = [a] /\
                pget a [] = Some (NGit g) /\ aget (g_branches g) 0 = Some 4 /\ aget (g_wt g) 11 = Some 31.
Proof.
  (* each history is run once *)
  set (P1 := run_ops ex_store [] ex_ops1). vm_compute in P1.
  set (P2 := run_ops ex_store [] (ex_ops1 ++ ex_ops2)). vm_compute in P2.
  split; [|split].
  - exists 0. eexists. split; [reflexivity|].
    eexists. split; [left; exists [1]; reflexivity|].
    split.
    + exists (mkC (Some 3) [(0, 23); (1, 22); (10, 30)] true). split; reflexivity.
    + exists 4. split; [left; exists 0; reflexivity|apply R_refl].
  - exists 0. eexists. split; [reflexivity|].
    eexists. split; [left; exists [1]; reflexivity|].
    split; vm_compute; [reflexivity|discriminate].
  - eexists. eexists. eexists. split; [reflexivity|]. split; [reflexivity|].
    split; [reflexivity|]. split; reflexivity.
Qed.
