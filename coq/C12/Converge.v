(* C12 — convergence of an untouched git directory: after a successful
   GitScm.switch / invoke the work tree is the tree of HEAD, and HEAD is the
   commit a fresh checkout would select, except in the named shapes.  Every
   statement is about a run that returns true; a run that fails (the update
   after a non fast-forward rewrite of the upstream history) is no case here. *)
From Coq Require Import List NArith Bool.
Require Import BobV.Common.Cases BobV.C12.Model BobV.C12.Proofs.
Import ListNotations.
Open Scope N_scope.

(* the work tree has no modification and no untracked file *)
Definition gclean (st : store) (g : gitws) : Prop := tree_equiv (g_wt g) (head_tree st g).

Definition fresh_target (up : upstream) (url : N) (r : gitrev) : option cid :=
  match aget (up_git up) url with
  | None => None
  | Some ur =>
      match r with
      | RBranch b => aget (u_branches ur) b
      | RTag t | RTagOn _ t => aget (u_tags ur) t
      | RCommit c | RCommitOn _ c => Some c
      end
  end.

(* the named shapes in which an untouched directory does not end up on the
   commit [tgt] a fresh checkout selects *)
Definition ahead_of_upstream (st : store) (r : gitrev) (tgt : cid) (g' : gitws) : Prop :=
  exists b h, r = RBranch b /\ head_commit g' = Some h /\ h <> tgt /\ is_anc st tgt h = true.
Definition stale_local_tag (r : gitrev) (tgt : cid) (g : gitws) : Prop :=
  exists b t c, r = RTagOn b t /\ aget (g_tags g) t = Some c /\ c <> tgt.

Definition converged (st : store) (tgt : cid) (g' : gitws) : Prop :=
  head_commit g' = Some tgt /\ tree_equiv (g_wt g') (tree_of st (Some tgt)).

Lemma clean_converged st g' c : gclean st g' -> head_commit g' = Some c -> converged st c g'.
Proof.
  intros C H. split; auto. unfold gclean, head_tree in C. rewrite H in C. exact C.
Qed.

Lemma same_local_clean st g g' : same_local g g' -> gclean st g -> gclean st g'.
Proof.
  intros (B & H & W) C f. unfold gclean, tree_equiv, head_tree, head_commit in *.
  rewrite B, H, W. apply C.
Qed.

Lemma move_clean st g t wt' br h :
  gclean st g -> move_wt st g t = Some wt' -> head_of br h = Some t ->
  gclean st (with_co g br h wt') /\ head_commit (with_co g br h wt') = Some t.
Proof.
  intros C M Hh. split; [|exact Hh].
  unfold gclean. rewrite head_tree_with_co, Hh. eapply checkout_wt_clean; eauto.
Qed.

Lemma co_new_branch_ok {st g b s g'} :
  gclean st g -> co_new_branch st g b s = (g', true) -> gclean st g' /\ head_commit g' = s.
Proof.
  intros C H. destruct (co_new_branch_inv H) as (c & wt' & -> & _ & M & ->).
  eapply move_clean; eauto. apply aget_aset_same.
Qed.

Lemma co_branch_ok {st g b g'} :
  gclean st g -> co_branch st g b = (g', true) -> gclean st g' /\ g_remotes g' = g_remotes g.
Proof.
  intros C H. destruct (co_branch_inv H) as (c & wt' & B & M & ->).
  split; [|reflexivity]. exact (proj1 (move_clean st g c wt' (g_branches g) (HBranch b) C M B)).
Qed.

Lemma co_detach_ok {st g oc g'} :
  gclean st g -> co_detach st g oc = (g', true) -> gclean st g' /\ head_commit g' = oc.
Proof.
  intros C H. destruct (co_detach_inv H) as (c & wt' & -> & M & ->).
  eapply move_clean; eauto.
Qed.

Lemma merge_ff_ok {st g b g'} :
  gclean st g -> merge_ff st g b = (g', true) ->
  gclean st g' /\ exists t h, aget (g_remotes g) b = Some t /\ head_commit g' = Some h /\
                              (h = t \/ is_anc st t h = true).
Proof.
  intros C H.
  destruct (merge_ff_inv H) as (t & hb & h & R & Hd & B & [[A ->]|(A & wt' & M & ->)]).
  - split; auto. exists t, h. unfold head_commit. rewrite Hd. auto.
  - destruct (move_clean st g t wt' (aset (g_branches g) hb t) (HBranch hb) C M (aget_aset_same _ _ _ _)) as [C' HC].
    split; [exact C'|]. exists t, t. auto.
Qed.

Lemma reset_keep_ok {st g c g'} :
  gclean st g -> reset_keep st g c = (g', true) -> gclean st g' /\ head_commit g' = Some c.
Proof.
  intros C H. destruct (reset_keep_inv H) as (hb & wt' & Hd & M & ->).
  eapply move_clean; eauto. apply aget_aset_same.
Qed.

Lemma follow_tags_keeps : forall st objs rtags tags t c,
  aget tags t = Some c -> aget (follow_tags st objs rtags tags) t = Some c.
Proof.
  induction rtags as [|[t0 c0] r IH]; intros tags t c H; simpl; auto.
  destruct (is_some (aget (follow_tags st objs r tags) t0)) eqn:S; auto.
  destruct (has_obj st objs c0); auto.
  destruct (N.eq_dec t0 t) as [->|N].
  - rewrite (IH _ _ _ H) in S. discriminate.
  - rewrite aget_aset_other; auto.
Qed.

Lemma fetch_ok {st up g tag g1} :
  fetch st up g tag = (g1, true) ->
  same_local g g1 /\
  exists ur, aget (up_git up) (g_url g) = Some ur /\ g_remotes g1 = u_branches ur /\
    (forall t, tag = Some t -> exists c, aget (u_tags ur) t = Some c /\ aget (g_tags g1) t = Some c).
Proof.
  intros H. destruct (fetch_inv H) as [[E _]|(ur & objs & tags & R & -> & _ & TG)]; [discriminate|].
  repeat split; auto. exists ur. repeat split; auto.
  intros t E. destruct (TG eq_refl t E) as (c & A & B). exists c. split; auto. apply follow_tags_keeps; auto.
Qed.

Lemma resolve_target st up g g1 r c tgt :
  fetch st up g (rev_tag r) = (g1, true) ->
  fresh_target up (g_url g) r = Some tgt ->
  resolve_rev st g1 r = Some c -> c = tgt.
Proof.
  intros F FT R.
  destruct (fetch_ok F) as (_ & ur & UR & _ & TG).
  unfold fresh_target in FT. rewrite UR in FT.
  destruct r; simpl in *; try discriminate.
  - destruct (TG t eq_refl) as [c' [T1 T2]]. congruence.
  - destruct (has_obj st (g_objs g1) c0); congruence.
  - destruct (TG t eq_refl) as [c' [T1 T2]]. congruence.
  - destruct (has_obj st (g_objs g1) c0); congruence.
Qed.

(* [git_invoke] acts: it was asked to switch, there is no checkout yet, or HEAD
   is on the configured branch (otherwise Bob leaves the directory alone) *)
Definition acts (g : gitws) (r : gitrev) (switch : bool) : Prop :=
  switch = true \/ head_valid g = false \/
  match r with RBranch b => g_head g = HBranch b | _ => False end.

Lemma checkout_branch_conv st up g b switch g' tgt :
  gclean st g -> fresh_target up (g_url g) (RBranch b) = Some tgt ->
  acts g (RBranch b) switch ->
  checkout_branch st up g b switch = (g', true) ->
  gclean st g' /\ (converged st tgt g' \/ (head_valid g = true /\ ahead_of_upstream st (RBranch b) tgt g')).
Proof.
  intros C FT ACT H. unfold checkout_branch in H.
  destruct (fetch st up g None) as [g1 ok1] eqn:F. destruct ok1; cbn [negb] in H; [|discriminate H].
  destruct (fetch_ok F) as (SL & ur & UR & RM & _).
  assert (C1 : gclean st g1) by (eapply same_local_clean; eauto).
  assert (FT1 : aget (g_remotes g1) b = Some tgt).
  { unfold fresh_target in FT. rewrite UR in FT. rewrite RM. auto. }
  rewrite (same_local_head_valid _ _ SL) in H.
  assert (NEW : forall g2, co_new_branch st g1 b (aget (g_remotes g1) b) = (g2, true) ->
                gclean st g2 /\ converged st tgt g2).
  { intros g2 H2. destruct (co_new_branch_ok C1 H2) as [C2 HC]. split; auto.
    apply clean_converged; auto. congruence. }
  assert (FF : forall g2, gclean st g2 -> g_remotes g2 = g_remotes g1 -> merge_ff st g2 b = (g', true) ->
               gclean st g' /\ (converged st tgt g' \/ ahead_of_upstream st (RBranch b) tgt g')).
  { intros g2 C2 RM2 H2. destruct (merge_ff_ok C2 H2) as (C3 & t & h & R & HC & D). split; auto.
    rewrite RM2, FT1 in R. injection R as <-.
    destruct (N.eq_dec h tgt) as [->|NE]; [left; apply clean_converged; auto|].
    right. exists b, h. destruct D; [contradiction|auto]. }
  destruct (head_valid g) eqn:HV; cbn [negb] in H; [|destruct (NEW _ H); auto].
  destruct switch.
  - destruct (aget (g_branches g1) b); [|destruct (NEW _ H); auto].
    destruct (co_branch st g1 b) as [g2 ok2] eqn:CB. destruct ok2; [|discriminate H].
    destruct (co_branch_ok C1 CB) as [C2 RM2]. destruct (FF _ C2 RM2 H) as [C' [K|K]]; auto.
  - destruct ACT as [ACT|[ACT|ACT]]; try congruence.
    destruct SL as (_ & HD & _). rewrite HD, ACT, N.eqb_refl in H.
    destruct (FF _ C1 eq_refl H) as [C' [K|K]]; auto.
Qed.

Lemma checkout_tag_conv st up g r switch g' tgt :
  gclean st g -> fresh_target up (g_url g) r = Some tgt ->
  switch = true \/ head_valid g = false ->
  checkout_tag st up g r switch = (g', true) ->
  gclean st g' /\ converged st tgt g'.
Proof.
  intros C FT ACT H. unfold checkout_tag in H.
  replace (negb (head_valid g) || switch) with true in H
    by (destruct ACT as [->| ->]; [rewrite orb_true_r|]; reflexivity).
  destruct (fetch st up g (rev_tag r)) as [g1 ok1] eqn:F. destruct ok1; cbn [negb] in H; [|discriminate H].
  destruct (fetch_ok F) as (SL & _).
  assert (C1 : gclean st g1) by (eapply same_local_clean; eauto).
  destruct (co_detach_ok C1 H) as [C2 K]. split; auto.
  destruct (resolve_rev st g1 r) as [c|] eqn:R; [|discriminate H].
  apply clean_converged; auto. rewrite K. f_equal. eapply resolve_target; eauto.
Qed.

Lemma checkout_tag_on_branch_conv st up g b r switch g' tgt :
  gclean st g -> fresh_target up (g_url g) r = Some tgt ->
  switch = true \/ head_valid g = false ->
  checkout_tag_on_branch st up g b r switch = (g', true) ->
  gclean st g' /\ (converged st tgt g' \/ stale_local_tag r tgt g).
Proof.
  intros C FT ACT H. unfold checkout_tag_on_branch in H.
  replace (head_valid g && negb switch) with false in H
    by (destruct ACT as [->| ->]; [rewrite andb_false_r|]; reflexivity).
  match type of H with (if ?hv && ?c then _ else _) = _ => destruct (hv && c) eqn:AT end.
  - (* HEAD already at the commit / at what the LOCAL tag names *)
    injection H as <-. split; auto.
    apply andb_true_iff in AT. destruct AT as [_ AT].
    destruct r as [b0|t|c|b0 t|b0 c]; try discriminate AT.
    + destruct (aget (g_tags g) t) as [c|] eqn:T; [|discriminate]. apply oeqb_spec in AT.
      destruct (N.eq_dec c tgt) as [->|NE].
      * left. apply clean_converged; auto.
      * right. exists b0, t, c. auto.
    + apply oeqb_spec in AT. left. apply clean_converged; auto.
      unfold fresh_target in FT. destruct (aget (up_git up) (g_url g)); congruence.
  - destruct (fetch st up g (rev_tag r)) as [g1 ok1] eqn:F. destruct ok1; cbn [negb] in H; [|discriminate H].
    destruct (fetch_ok F) as (SL & _).
    assert (C1 : gclean st g1) by (eapply same_local_clean; eauto).
    destruct (resolve_rev st g1 r) as [c|] eqn:R; [|discriminate H].
    assert (c = tgt) by (eapply resolve_target; eauto). subst c.
    destruct (aget (g_remotes g1) b) as [rb|]; [|discriminate H].
    destruct (negb (is_anc st tgt rb)); [discriminate H|].
    assert (G : gclean st g' /\ head_commit g' = Some tgt).
    { match type of H with (if ?c then _ else _) = _ => destruct c end.
      - eapply co_new_branch_ok; eauto.
      - destruct (co_branch st g1 b) as [g2 ok2] eqn:CB. destruct ok2; cbn [negb] in H; [|discriminate H].
        destruct (co_branch_ok C1 CB) as [C2 _].
        destruct (contains_other st g2); cbn [negb] in H; [|discriminate H].
        eapply reset_keep_ok; eauto. }
    destruct G. split; auto. left. apply clean_converged; auto.
Qed.

Theorem git_invoke_converges {st up g url r switch g' tgt} :
  gclean st g -> fresh_target up url r = Some tgt -> acts g r switch ->
  git_invoke st up g url r switch = (g', true) ->
  gclean st g' /\
  (converged st tgt g' \/ (head_valid g = true /\ ahead_of_upstream st r tgt g') \/ stale_local_tag r tgt g).
Proof.
  intros C FT ACT H. unfold git_invoke in H.
  assert (C0 : gclean st (with_url g url)).
  { eapply same_local_clean; eauto. apply (with_url_safe st g url). }
  assert (ACT' : match r with RBranch _ => True | _ => switch = true \/ head_valid (with_url g url) = false end).
  { destruct r; auto; destruct ACT as [A|[A|[]]]; auto. }
  destruct r.
  - destruct (checkout_branch_conv _ _ _ _ _ _ _ C0 FT ACT H) as [C' [K|K]]; auto.
  - destruct (checkout_tag_conv _ _ _ _ _ _ _ C0 FT ACT' H); auto.
  - destruct (checkout_tag_conv _ _ _ _ _ _ _ C0 FT ACT' H); auto.
  - destruct (checkout_tag_on_branch_conv _ _ _ _ _ _ _ _ C0 FT ACT' H) as [C' [K|K]]; auto.
  - destruct (checkout_tag_on_branch_conv _ _ _ _ _ _ _ _ C0 FT ACT' H) as [C' [K|K]]; auto.
Qed.
