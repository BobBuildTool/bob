(* C12 — _cookCheckoutStep and bob clean over the source workspaces of a project.
   Beside what Model's path order, sort_paths, pget and put_node do: the
   switch-or-attic loop along the sorted list of recorded directories, with two
   invariants that do not use each other: tinv, of the AtticTracker alone (what
   lies below a moved directory is re-homed in the attic state), carries
   attic_nested_consistent; linv, of the workspace, carries the rest.  winv is
   what holds of a workspace between Bob runs: kept by cook (cook_pres, with
   run_inv while the SCMs run), by bob clean -s / --attic (clean_src_pres,
   clean_attic_pres: the user's objects survive; Clean.v has what may be deleted)
   and by user actions, up to histories over a project (run_ops_pres).  wpres
   says that every git work space is found again, advanced at most by
   GitScm.invoke / switch. *)
From Coq Require Import List NArith Bool Lia Sorted Permutation PeanoNat.
Require BobV.Common.ListFacts.
Require Import BobV.Common.Cases BobV.C12.Model BobV.C12.Proofs BobV.C12.Clean.
Import ListNotations.
Open Scope N_scope.

Lemma path_leb_total : forall p q, path_leb p q = true \/ path_leb q p = true.
Proof.
  induction p as [|x p IH]; intros [|y q]; simpl; auto.
  destruct (N.ltb_spec x y); auto. destruct (N.ltb_spec y x); auto.
  assert (x = y) by lia. subst. rewrite N.eqb_refl. apply IH.
Qed.

Lemma path_leb_trans : forall p q r, path_leb p q = true -> path_leb q r = true -> path_leb p r = true.
Proof.
  induction p as [|x p IH]; intros [|y q] [|z r] H1 H2; simpl in *; auto; try discriminate.
  destruct (x <? y) eqn:L1.
  - apply N.ltb_lt in L1. destruct (y <? z) eqn:L2.
    + apply N.ltb_lt in L2. assert (H : x < z) by lia. apply N.ltb_lt in H. rewrite H. auto.
    + destruct (y =? z) eqn:E2; try discriminate. apply N.eqb_eq in E2. subst.
      apply N.ltb_lt in L1. rewrite L1. auto.
  - destruct (x =? y) eqn:E1; try discriminate. apply N.eqb_eq in E1. subst.
    destruct (y <? z); auto. destruct (y =? z); try discriminate. eapply IH; eauto.
Qed.

Lemma path_leb_antisym : forall p q, path_leb p q = true -> path_leb q p = true -> p = q.
Proof.
  induction p as [|x p IH]; intros [|y q] H1 H2; simpl in *; auto; try discriminate.
  destruct (x <? y) eqn:L1.
  - apply N.ltb_lt in L1. destruct (y <? x) eqn:L2.
    + apply N.ltb_lt in L2. lia.
    + destruct (y =? x) eqn:E; try discriminate. apply N.eqb_eq in E. lia.
  - destruct (x =? y) eqn:E1; try discriminate. apply N.eqb_eq in E1. subst.
    rewrite N.ltb_irrefl, N.eqb_refl in H2. f_equal. auto.
Qed.

(* the order of checkoutsFromState puts a directory before everything below it *)
Lemma prefix_leb : forall p q, is_prefix p q = true -> path_leb p q = true.
Proof.
  induction p as [|x p IH]; intros [|y q] H; simpl in *; auto; try discriminate.
  apply andb_true_iff in H. destruct H as [E H]. apply N.eqb_eq in E. subst.
  rewrite N.ltb_irrefl, N.eqb_refl. auto.
Qed.

Lemma prefix_refl : forall p, is_prefix p p = true.
Proof. induction p; simpl; auto. rewrite N.eqb_refl. auto. Qed.

Lemma path_leb_refl : forall p, path_leb p p = true.
Proof. intro p. apply prefix_leb, prefix_refl. Qed.

Lemma prefix_comparable : forall p q d, is_prefix p d = true -> is_prefix q d = true ->
  is_prefix p q = true \/ is_prefix q p = true.
Proof.
  induction p as [|x p IH]; intros [|y q] [|z d] H1 H2; simpl in *; auto; try discriminate.
  apply andb_true_iff in H1. apply andb_true_iff in H2. destruct H1 as [E1 H1]. destruct H2 as [E2 H2].
  apply N.eqb_eq in E1. apply N.eqb_eq in E2. subst. rewrite N.eqb_refl. simpl. eapply IH; eauto.
Qed.

Lemma prefix_antisym : forall p q, is_prefix p q = true -> is_prefix q p = true -> p = q.
Proof. intros. apply path_leb_antisym; apply prefix_leb; auto. Qed.

Lemma prefix_app : forall p q, is_prefix p (p ++ q) = true.
Proof. induction p; simpl; auto. intros. rewrite N.eqb_refl. simpl. auto. Qed.

Lemma prefix_app_skipn : forall p q, is_prefix p q = true -> q = p ++ skipn (length p) q.
Proof.
  induction p as [|x p IH]; intros [|y q] H; simpl in *; auto; try discriminate.
  apply andb_true_iff in H. destruct H as [E H]. apply N.eqb_eq in E. subst. f_equal. auto.
Qed.

Lemma prefix_trans : forall p q r, is_prefix p q = true -> is_prefix q r = true -> is_prefix p r = true.
Proof.
  intros p q r H1 H2. apply prefix_app_skipn in H1, H2.
  rewrite H2, H1, <- app_assoc. apply prefix_app.
Qed.

Lemma skipn_app_self : forall A (a b : list A), skipn (length a) (a ++ b) = b.
Proof. induction a; simpl; auto. Qed.

Definition key_leb {V} (a b : path * V) : Prop := path_leb (fst a) (fst b) = true.

Lemma insert_sorted_In : forall V (x : path * V) l y, In y (insert_sorted x l) <-> y = x \/ In y l.
Proof.
  induction l as [|z l IH]; intros y; simpl.
  - split; intros [H|H]; auto; contradiction.
  - destruct (path_leb (fst x) (fst z)); simpl.
    + split; intros [H|H]; auto.
    + rewrite IH. split; intros [H|[H|H]]; auto.
Qed.

Lemma insert_sorted_sorted : forall V (x : path * V) l,
  StronglySorted key_leb l -> StronglySorted key_leb (insert_sorted x l).
Proof.
  induction l as [|z l IH]; intros S; simpl.
  - constructor; constructor.
  - destruct (StronglySorted_inv S) as [S' F]. rewrite Forall_forall in *.
    destruct (path_leb (fst x) (fst z)) eqn:E.
    + constructor; auto. rewrite Forall_forall. intros y [<-|I]; auto.
      unfold key_leb. eapply path_leb_trans; [exact E|]. apply F. auto.
    + constructor; auto. rewrite Forall_forall. intros y I. apply insert_sorted_In in I.
      destruct I as [->|I]; auto. unfold key_leb. destruct (path_leb_total (fst z) (fst x)); auto. congruence.
Qed.

Lemma sort_paths_In : forall V (l : list (path * V)) y, In y (sort_paths l) <-> In y l.
Proof.
  induction l as [|x l IH]; intros y; simpl; [reflexivity|].
  rewrite insert_sorted_In, IH. split; intros [H|H]; auto.
Qed.

Lemma sort_paths_sorted : forall V (l : list (path * V)), StronglySorted key_leb (sort_paths l).
Proof. induction l; simpl; [constructor|]. apply insert_sorted_sorted. auto. Qed.

Lemma insert_sorted_keys_perm : forall V (x : path * V) l,
  Permutation (map fst (insert_sorted x l)) (fst x :: map fst l).
Proof.
  induction l as [|z l IH]; simpl; auto.
  destruct (path_leb (fst x) (fst z)); simpl; auto.
  eapply perm_trans; [apply perm_skip; exact IH|]. apply perm_swap.
Qed.

Lemma sort_paths_keys_perm : forall V (l : list (path * V)), Permutation (map fst (sort_paths l)) (map fst l).
Proof.
  induction l as [|x l IH]; simpl; auto.
  eapply perm_trans; [apply insert_sorted_keys_perm|]. apply perm_skip. auto.
Qed.

Lemma sort_paths_nodup V (l : list (path * V)) : NoDup (map fst l) -> NoDup (map fst (sort_paths l)).
Proof. intros. eapply Permutation_NoDup; [apply Permutation_sym; apply sort_paths_keys_perm|]. auto. Qed.

Definition nothing_below {V} (d : path) (done : list (path * V)) : Prop :=
  forall d0 e0, In (d0, e0) done -> is_prefix d d0 = false.

Lemma sorted_split {V} {done rest : list (path * V)} {d e} :
  StronglySorted key_leb (done ++ (d, e) :: rest) -> NoDup (map fst (done ++ (d, e) :: rest)) ->
  nothing_below d done /\ ~ In d (map fst rest).
Proof.
  intros S ND. rewrite map_app in ND. simpl in ND. apply NoDup_remove_2 in ND.
  split; [|intro I; apply ND; apply in_or_app; auto].
  intros d0 e0 I. destruct (is_prefix d d0) eqn:P; auto. exfalso. apply ND, in_or_app. left.
  replace d with d0; [apply (in_map fst _ _ I)|].
  apply path_leb_antisym; [|apply prefix_leb; auto].
  apply ListFacts.StronglySorted_app_iff in S. destruct S as (_ & _ & LE).
  apply (LE (d0, e0) (d, e)); simpl; auto.
Qed.

(* an invariant of a loop over the sorted list: when the loop comes to d, nothing at or below d has
   been processed, and d does not come again *)
Lemma sorted_loop_ind {V S} (I : S -> list (path * V) -> list (path * V) -> Prop) (f : S -> path * V -> S) :
  (forall s done d e rest, I s done ((d, e) :: rest) ->
     nothing_below d done -> ~ In d (map fst rest) ->
     I (f s (d, e)) (done ++ [(d, e)]) rest) ->
  forall l s, NoDup (map fst l) -> I s [] (sort_paths l) ->
  I (fold_left f (sort_paths l) s) (sort_paths l) [].
Proof.
  intros STEP l s0 ND H0.
  assert (G : forall rest done s, I s done rest ->
            StronglySorted key_leb (done ++ rest) -> NoDup (map fst (done ++ rest)) ->
            I (fold_left f rest s) (done ++ rest) []).
  { induction rest as [|[d e] rest IH]; intros done s H S0 N; simpl.
    - rewrite app_nil_r. exact H.
    - destruct (sorted_split S0 N) as [TOP NDr].
      replace (done ++ (d, e) :: rest) with ((done ++ [(d, e)]) ++ rest) in * by (rewrite <- app_assoc; auto).
      apply IH; auto. }
  exact (G _ [] s0 H0 (sort_paths_sorted _ l) (sort_paths_nodup _ l ND)).
Qed.

Lemma pget_pdel_same V (l : list (path * V)) k : pget (pdel l k) k = None.
Proof. apply (kget_kdel_same path_eqb). Qed.
Lemma pget_pdel_other V (l : list (path * V)) k k' : k <> k' -> pget (pdel l k) k' = pget l k'.
Proof. intros. apply (kget_kdel_other path_eqb path_eqb_spec); auto. Qed.
Lemma pget_pset_same V (l : list (path * V)) k v : pget (pset l k v) k = Some v.
Proof. apply (kget_kset_same path_eqb path_eqb_spec). Qed.
Lemma pget_pset_other V (l : list (path * V)) k v k' : k <> k' -> pget (pset l k v) k' = pget l k'.
Proof. intros. apply (kget_kset_other path_eqb path_eqb_spec); auto. Qed.
Lemma pget_In V (l : list (path * V)) k v : pget l k = Some v -> In (k, v) l.
Proof. apply (kget_In path_eqb path_eqb_spec). Qed.
Lemma In_pget_nodup V (l : list (path * V)) k v : NoDup (map fst l) -> In (k, v) l -> pget l k = Some v.
Proof. apply (In_kget_nodup path_eqb path_eqb_spec). Qed.
Lemma pget_filter_neg V (F : path -> bool) (l : list (path * V)) p :
  pget (filter (fun pn => negb (F (fst pn))) l) p = if F p then None else pget l p.
Proof. apply (kget_filter_neg path_eqb path_eqb_spec). Qed.

Lemma pget_map_replace V (l : list (path * V)) d v p :
  pget (map (fun pn => if path_eqb (fst pn) d then (d, v) else pn) l) p =
  match pget l p with Some x => if path_eqb p d then Some v else Some x | None => None end.
Proof. apply (kget_map_replace path_eqb path_eqb_spec). Qed.

Lemma tracker_match_some {tr d r k} :
  tracker_match tr d = Some (r, k) -> In (r, k) tr /\ is_prefix r d = true.
Proof. intros H. unfold tracker_match in H. apply find_some in H. simpl in H. auto. Qed.

Lemma tracker_match_none {tr d r k} :
  tracker_match tr d = None -> In (r, k) tr -> is_prefix r d = false.
Proof. intros H I. unfold tracker_match in H. apply (find_none _ _ H (r, k) I). Qed.

Definition new_digest (newmap : list (path * scm)) (p : path) : option dg :=
  match pget newmap p with Some s => Some (digest s) | None => None end.

(* a recorded directory that is neither kept nor switched: to the attic if it
   exists, just forgotten otherwise *)
Definition retire (L : loopst) (d : path) (spec : option scm) : loopst :=
  if dir_exists L d then move_to_attic L d spec else with_ds L (pdel (l_ds L) d).

Inductive step_case (st : store) (up : upstream) (newmap : list (path * scm)) (L : loopst)
          (d : path) (e : dsentry) : loopst -> Prop :=
| SC_affected : forall r k,
    tracker_match (l_tracker L) d = Some (r, k) ->
    step_case st up newmap L d e
      (mkL (l_exists L) (l_nodes L) (pdel (l_ds L) d) (l_attic L)
           (l_astate L ++ [((k, skipn (length r) d), de_spec e)]) (l_tracker L) (l_dec L))
| SC_same :
    tracker_match (l_tracker L) d = None ->
    odg_eqb (de_dig e) (new_digest newmap d) = true ->
    step_case st up newmap L d e L
| SC_retire :
    tracker_match (l_tracker L) d = None ->
    step_case st up newmap L d e (retire L d (de_spec e))
| SC_switch : forall snew sold ns1 did,
    tracker_match (l_tracker L) d = None ->
    pget newmap d = Some snew -> de_spec e = Some sold -> can_switch snew sold = true ->
    do_switch st up (l_nodes L) d snew sold = (ns1, did) ->
    step_case st up newmap L d e
      (let L1 := with_nodes_dec L ns1 (l_dec L ++ [(1, d)]) in
       if did then with_ds L1 (pset (l_ds L) d (mkDE (Some (digest snew)) (Some snew)))
       else retire L1 d (de_spec e)).

Lemma loop_step_cases st up newmap L d e :
  step_case st up newmap L d e (loop_step st up newmap L (d, e)).
Proof.
  unfold loop_step. cbn [fst snd]. fold (new_digest newmap d).
  destruct (tracker_match (l_tracker L) d) as [[r k]|] eqn:T; [apply SC_affected; auto|].
  destruct (odg_eqb (de_dig e) (new_digest newmap d)) eqn:E; [apply SC_same; auto|].
  pose proof (SC_retire st up newmap L d e T) as NOSW. unfold retire in NOSW.
  destruct (pget newmap d) as [snew|] eqn:NM; [|exact NOSW].
  destruct (de_dig e); [|exact NOSW].
  destruct (de_spec e) as [sold|] eqn:SP; [|exact NOSW].
  destruct (can_switch snew sold && dir_exists L d) eqn:CS; [|exact NOSW].
  apply andb_true_iff in CS. destruct CS as [CS _].
  destruct (do_switch st up (l_nodes L) d snew sold) as [ns1 did] eqn:DS.
  pose proof (SC_switch st up newmap L d e snew sold ns1 did T NM SP CS DS) as SW. rewrite SP in SW. exact SW.
Qed.

Set Implicit Arguments. Unset Strict Implicit.
Record tinv (L : loopst) (done : list (path * dsentry)) : Prop := mkTI {
  ti_roots : forall r k, In (r, k) (l_tracker L) -> In r (map fst done);
  ti_homed : forall r k d e, In (r, k) (l_tracker L) -> In (d, e) done -> is_prefix r d = true ->
             pget (l_ds L) d = None /\ In ((k, skipn (length r) d), de_spec e) (l_astate L);
  ti_apart : forall r1 k1 r2 k2, In (r1, k1) (l_tracker L) -> In (r2, k2) (l_tracker L) ->
             is_prefix r1 r2 = true -> (r1, k1) = (r2, k2)
}.
Unset Implicit Arguments. Set Strict Implicit.

Lemma tinv_keep L L' done d e :
  tinv L done -> nothing_below d done ->
  l_tracker L' = l_tracker L ->
  (forall q, q <> d -> pget (l_ds L') q = pget (l_ds L) q) ->
  (forall x, In x (l_astate L) -> In x (l_astate L')) ->
  (forall r k, In (r, k) (l_tracker L) -> is_prefix r d = true ->
     pget (l_ds L') d = None /\ In ((k, skipn (length r) d), de_spec e) (l_astate L')) ->
  tinv L' (done ++ [(d, e)]).
Proof.
  intros [I1 I2 I3] TOP ET ED EA ENEW. constructor; rewrite ET.
  - intros r k I. rewrite map_app. apply in_or_app. left. eauto.
  - intros r k d0 e0 I ID P. apply in_app_or in ID. destruct ID as [ID|[[= <- <-]|[]]]; auto.
    destruct (I2 _ _ _ _ I ID P) as [A B]. split; auto. rewrite ED; auto.
    intros ->. pose proof (TOP _ _ ID) as F. rewrite prefix_refl in F. discriminate.
  - exact I3.
Qed.

Lemma tinv_untracked L L' done d e :
  tinv L done -> nothing_below d done ->
  tracker_match (l_tracker L) d = None ->
  l_tracker L' = l_tracker L -> l_astate L' = l_astate L ->
  (forall q, q <> d -> pget (l_ds L') q = pget (l_ds L) q) ->
  tinv L' (done ++ [(d, e)]).
Proof.
  intros TI TOP T ET EA ED. eapply tinv_keep; eauto.
  - rewrite EA. auto.
  - intros r k I P. rewrite (tracker_match_none T I) in P. discriminate.
Qed.

Lemma tinv_retire L done d e :
  tinv L done -> nothing_below d done ->
  tracker_match (l_tracker L) d = None ->
  tinv (retire L d (de_spec e)) (done ++ [(d, e)]).
Proof.
  intros TI TOP T. unfold retire. destruct (dir_exists L d).
  2:{ eapply tinv_untracked; eauto. intros. apply pget_pdel_other. auto. }
  (* moved to the attic: d becomes a tracked root *)
  destruct TI as [I1 I2 I3]. set (k := N.of_nat (length (l_attic L))).
  constructor; simpl.
  - intros r k0 I. rewrite map_app. apply in_or_app. apply in_app_or in I. destruct I as [I|[[= <- <-]|[]]].
    + left. eauto.
    + right. simpl. auto.
  - intros r k0 d0 e0 I ID P.
    apply in_app_or in I. apply in_app_or in ID.
    destruct I as [I|[[= <- <-]|[]]]; destruct ID as [ID|[[= <- <-]|[]]].
    + destruct (I2 _ _ _ _ I ID P) as [A B]. split.
      * rewrite pget_pdel_other; auto. intros <-. pose proof (TOP _ _ ID) as F.
        rewrite prefix_refl in F. discriminate.
      * apply in_or_app. auto.
    + rewrite (tracker_match_none T I) in P. discriminate.
    + rewrite (TOP _ _ ID) in P. discriminate.
    + split; [apply pget_pdel_same|]. rewrite skipn_all. apply in_or_app. right. left. auto.
  - intros r1 k1 r2 k2 J1 J2 P.
    apply in_app_or in J1. apply in_app_or in J2.
    destruct J1 as [J1|[[= <- <-]|[]]]; destruct J2 as [J2|[[= <- <-]|[]]]; [eapply I3; eauto| | |reflexivity].
    + rewrite (tracker_match_none T J1) in P. discriminate.
    + (* an earlier root below the new one would have been processed before it *)
      pose proof (I1 _ _ J2) as IR. apply in_map_iff in IR. destruct IR as [[d0 e0] [E ID]].
      simpl in E. subst d0. rewrite (TOP _ _ ID) in P. discriminate.
Qed.

Lemma tinv_nodes L ns dec done : tinv L done -> tinv (with_nodes_dec L ns dec) done.
Proof. intros []. constructor; auto. Qed.

Lemma tinv_step st up newmap L done d e :
  tinv L done -> nothing_below d done ->
  tinv (loop_step st up newmap L (d, e)) (done ++ [(d, e)]).
Proof.
  intros TI TOP.
  destruct (loop_step_cases st up newmap L d e) as [r k T | T _ | T | snew sold ns1 did T _ SP _ _].
  - (* below a tracked root: that root is unique *)
    destruct (tracker_match_some T) as [IT PT].
    eapply tinv_keep; eauto; simpl; auto.
    + intros. apply pget_pdel_other. auto.
    + intros. apply in_or_app. auto.
    + intros r' k' I' P'. split; [apply pget_pdel_same|].
      assert (E : (r', k') = (r, k)).
      { destruct (prefix_comparable _ _ _ P' PT) as [C|C]; [|symmetry]; eapply (ti_apart TI); eauto. }
      injection E as -> ->. apply in_or_app. right. left. auto.
  - eapply tinv_untracked; eauto.
  - apply tinv_retire; auto.
  - destruct did; [|apply tinv_retire; auto using tinv_nodes].
    eapply tinv_untracked; eauto. intros. apply pget_pset_other. auto.
Qed.

Lemma tinv_loop st up newmap ds L0 :
  l_tracker L0 = [] -> NoDup (map fst ds) ->
  tinv (fold_left (loop_step st up newmap) (sort_paths ds) L0) (sort_paths ds).
Proof.
  intros T0 ND. apply (sorted_loop_ind (fun L done _ => tinv L done)); auto.
  - intros L done d e rest TI TOP _. apply tinv_step; auto.
  - constructor; rewrite T0; simpl; intros; contradiction.
Qed.

(* an object of the user is in a git directory of the workspace or of one of its attic directories; plain url /
   import nodes carry none *)
Definition git_in_nodes (ns : nodes) (g : gitws) : Prop := exists p, pget ns p = Some (NGit g).
Definition git_in_w (w : wstate) (g : gitws) : Prop :=
  git_in_nodes (w_nodes w) g \/ exists a, In a (w_attic w) /\ git_in_nodes a g.
Definition holds_w (st : store) (w : wstate) (o : uobj) : Prop := exists g, git_in_w w g /\ holds_g st g o.
Definition holds_P (st : store) (P : proj) (o : uobj) : Prop :=
  exists k w, aget P k = Some w /\ holds_w st w o.

Definition scm_ok (st : store) (s : scm) : Prop :=
  match s with SGit _ r _ => rev_ok st r | _ => True end.

Definition wpres (st : store) (w w' : wstate) : Prop :=
  forall g, git_in_w w g -> exists g', git_in_w w' g' /\ gpres st g g'.

Lemma wpres_refl : forall st w, wpres st w w.
Proof. intros st w g H. exists g. split; auto. apply gpres_refl. Qed.

Lemma wpres_trans : forall st a b c, wpres st a b -> wpres st b c -> wpres st a c.
Proof.
  intros st a b c H1 H2 g G. destruct (H1 g G) as (g1 & G1 & P1). destruct (H2 g1 G1) as (g2 & G2 & P2).
  exists g2. split; auto. eapply gpres_trans; eauto.
Qed.

Lemma wpres_holds st w w' o : wpres st w w' -> holds_w st w o -> holds_w st w' o.
Proof.
  intros P (g & G & H). destruct (P g G) as (g' & G' & GP). exists g'. split; auto.
Qed.

Definition npres (st : store) (ns ns' : nodes) : Prop :=
  forall p g, pget ns p = Some (NGit g) -> exists g', pget ns' p = Some (NGit g') /\ gpres st g g'.

Lemma npres_refl st ns : npres st ns ns.
Proof. intros p g H. exists g. split; auto. apply gpres_refl. Qed.

Lemma npres_trans st a b c : npres st a b -> npres st b c -> npres st a c.
Proof.
  intros H1 H2 p g G. destruct (H1 p g G) as (g1 & G1 & P1). destruct (H2 p g1 G1) as (g2 & G2 & P2).
  exists g2. split; auto. eapply gpres_trans; eauto.
Qed.

Lemma pget_ensure_dir ns q p :
  pget (ensure_dir ns q) p =
  match pget ns p with Some x => Some x | None => if path_eqb q p then Some (NPlain []) else None end.
Proof.
  unfold ensure_dir. destruct (is_some (pget ns q)) eqn:E.
  - destruct (pget ns p) eqn:G; auto. destruct (path_eqb q p) eqn:Q; auto.
    apply path_eqb_spec in Q. subst. rewrite G in E. discriminate.
  - unfold pget. rewrite (kget_app path_eqb). destruct (kget path_eqb ns p); auto.
Qed.

Lemma pget_ensure_dirs qs ns p :
  pget (fold_left ensure_dir qs ns) p =
  match pget ns p with
  | Some x => Some x
  | None => if existsb (fun q => path_eqb q p) qs then Some (NPlain []) else None
  end.
Proof.
  revert ns. induction qs as [|q qs IH]; intro ns; simpl.
  - destruct (pget ns p); auto.
  - rewrite IH, pget_ensure_dir. destruct (pget ns p); auto. destruct (path_eqb q p); auto.
Qed.

Lemma pget_put_node ns d n p :
  pget (put_node ns d n) p =
  if path_eqb p d then Some n else
  match pget ns p with
  | Some x => Some x
  | None => if existsb (fun q => path_eqb q p) (proper_prefixes d) then Some (NPlain []) else None
  end.
Proof.
  rewrite <- (pget_ensure_dirs (proper_prefixes d) ns p). unfold put_node.
  set (ns1 := fold_left ensure_dir (proper_prefixes d) ns).
  destruct (pget ns1 d) eqn:E; simpl.
  - rewrite pget_map_replace. destruct (path_eqb p d) eqn:Q.
    + apply path_eqb_spec in Q. subst p. rewrite E. reflexivity.
    + destruct (pget ns1 p); reflexivity.
  - unfold pget at 1. rewrite (kget_app path_eqb). fold (pget ns1 p). simpl.
    destruct (path_eqb p d) eqn:Q.
    + apply path_eqb_spec in Q. subst p. rewrite E, path_eqb_refl. reflexivity.
    + destruct (pget ns1 p); auto. rewrite path_eqb_neq; auto.
      intros ->. rewrite path_eqb_refl in Q. discriminate.
Qed.

Lemma pget_put_node_same ns d n : pget (put_node ns d n) d = Some n.
Proof. rewrite pget_put_node, path_eqb_refl. auto. Qed.

Lemma put_node_keeps ns d n p x : p <> d -> pget ns p = Some x -> pget (put_node ns d n) p = Some x.
Proof. intros NE H. rewrite pget_put_node, (path_eqb_neq _ _ NE), H. auto. Qed.

Lemma put_node_git ns d n p g :
  pget (put_node ns d n) p = Some (NGit g) -> (p = d /\ n = NGit g) \/ (p <> d /\ pget ns p = Some (NGit g)).
Proof.
  rewrite pget_put_node. destruct (path_eqb p d) eqn:Q.
  - apply path_eqb_spec in Q. intros [= ->]. auto.
  - intro H. right. split; [intros ->; rewrite path_eqb_refl in Q; discriminate|].
    destruct (pget ns p); auto. destruct (existsb _ _); discriminate.
Qed.

Lemma proper_prefixes_from_prefix : forall p acc q,
  In q (proper_prefixes_from acc p) -> is_prefix q (acc ++ p) = true.
Proof.
  induction p as [|x p IH]; intros acc q H; simpl in H; [contradiction|].
  replace (acc ++ x :: p) with ((acc ++ [x]) ++ p) by (rewrite <- app_assoc; auto).
  destruct p as [|y p]; [contradiction|]. destruct H as [<-|H]; [apply prefix_app|auto].
Qed.

Lemma put_node_new ns d n p : pget ns p = None -> pget (put_node ns d n) p <> None ->
  is_prefix p d = true.
Proof.
  intros H K. rewrite pget_put_node, H in K. destruct (path_eqb p d) eqn:Q.
  - apply path_eqb_spec in Q. subst. apply prefix_refl.
  - destruct (existsb (fun q => path_eqb q p) (proper_prefixes d)) eqn:X; [|contradiction].
    apply existsb_exists in X. destruct X as (q & I & E). apply path_eqb_spec in E. subst q.
    apply (proper_prefixes_from_prefix d [] p I).
Qed.

Lemma put_node_npres st ns d g' :
  (forall g, pget ns d = Some (NGit g) -> gpres st g g') -> npres st ns (put_node ns d (NGit g')).
Proof.
  intros GP p x H. destruct (list_eq_dec N.eq_dec p d) as [->|NE].
  - exists g'. split; [apply pget_put_node_same|auto].
  - exists x. split; [apply put_node_keeps; auto|apply gpres_refl].
Qed.

Lemma pget_rebased (ns : nodes) d q :
  pget (map (rebase_path d) (filter (under d) ns)) q = pget ns (d ++ q).
Proof.
  unfold pget. induction ns as [|[p n] ns IH]; simpl; auto.
  unfold under at 1. simpl. destruct (path_eqb p (d ++ q)) eqn:E2.
  - apply path_eqb_spec in E2. subst p. rewrite prefix_app. simpl.
    rewrite skipn_app_self, path_eqb_refl. auto.
  - destruct (is_prefix d p) eqn:P; simpl; auto.
    destruct (path_eqb (skipn (length d) p) q) eqn:E1; auto.
    apply path_eqb_spec in E1. subst q. rewrite <- (prefix_app_skipn _ _ P) in E2.
    rewrite path_eqb_refl in E2. discriminate.
Qed.

Lemma pget_some_exists (ns : nodes) p x : pget ns p = Some x -> path_exists ns p = true.
Proof.
  intros H. unfold path_exists. apply existsb_exists. exists (p, x). split.
  - apply pget_In. auto.
  - unfold under. simpl. apply prefix_refl.
Qed.

Lemma digest_kind : forall s s', digest s = digest s' -> is_git s = is_git s'.
Proof.
  intros [u r d|u g d|src pr d] [u' r' d'|u' g' d'|src' pr' d'] H; simpl in *; auto;
    try (destruct r; discriminate); try (destruct r'; discriminate).
Qed.

Lemma can_switch_kind : forall a b, can_switch a b = true -> is_git a = is_git b.
Proof. intros [? ? ?|? ? ?|? ? ?] [? ? ?|? ? ?|? ? ?] H; simpl in *; auto; discriminate. Qed.

Lemma dg_eqb_spec a b : dg_eqb a b = true <-> a = b.
Proof.
  split.
  - destruct a; destruct b; simpl; intro H; try discriminate;
      repeat (apply andb_true_iff in H; destruct H as [H ?]);
      repeat match goal with
             | X : (_ =? _) = true |- _ => apply N.eqb_eq in X
             | X : path_eqb _ _ = true |- _ => apply path_eqb_spec in X
             | X : oeqb _ _ = true |- _ => apply oeqb_spec in X
             end; subst; auto.
  - intros <-. destruct a; simpl; rewrite ?N.eqb_refl, ?path_eqb_refl, ?(proj2 (oeqb_spec _ _) eq_refl); auto.
Qed.

Lemma odg_eqb_eq : forall a b, odg_eqb a b = true -> a = b.
Proof.
  intros [a|] [b|] H; simpl in H; try discriminate; auto. apply dg_eqb_spec in H. subst. auto.
Qed.

(* what __runScmSwitch does to the nodes: nothing, or the git node at d advances *)
Lemma do_switch_inv st up ns d snew sold ns1 ok :
  store_wf st -> up_ok' st up -> scm_ok st snew -> scm_ok st sold ->
  (forall g, pget ns d = Some (NGit g) -> ginv st g) ->
  do_switch st up ns d snew sold = (ns1, ok) ->
  ns1 = ns \/
  (exists g g', pget ns d = Some (NGit g) /\ ns1 = put_node ns d (NGit g') /\
                gpres st g g' /\ ginv st g' /\ is_git snew = true).
Proof.
  intros W UO OKN OKO GI H. unfold do_switch in H.
  destruct snew as [u r dn|? ? ?|? ? ?]; destruct sold as [uo ro do_|? ? ?|? ? ?];
    try (injection H as <- <-; left; reflexivity).
  destruct (pget ns d) as [[g|f]|] eqn:P; try (injection H as <- <-; left; reflexivity).
  destruct (git_switch st up g ro u r) as [g' ok'] eqn:S.
  injection H as <- <-. right. exists g, g'.
  destruct (gsafe_ginv (git_switch_safe W UO (GI g eq_refl) OKO OKN S) (GI g eq_refl)).
  auto.
Qed.

(* bob clean -s asks only the recorded entries whether they are expendable: a git directory without one would
   go unasked, and its objects with it (clean_src_pres) *)
Definition recorded (st : store) (ns : nodes) (ds : list (path * dsentry)) : Prop :=
  forall p g, pget ns p = Some (NGit g) ->
    ginv st g /\ exists e s, pget ds p = Some e /\ de_spec e = Some s /\ is_git s = true.

Lemma recorded_pdel st ns ds d :
  recorded st ns ds -> (forall g, pget ns d <> Some (NGit g)) -> recorded st ns (pdel ds d).
Proof.
  intros R ND p g H. destruct (R _ _ H) as (GI & e & s & E1 & E2 & E3). split; auto.
  exists e, s. split; auto. rewrite pget_pdel_other; auto. intros <-. eapply ND; eauto.
Qed.

Definition lws (L : loopst) (vid : option (list dg)) : wstate :=
  mkW (l_exists L) (l_nodes L) (l_ds L) vid (l_attic L) (l_astate L).

Lemma npres_wpres st w w' :
  npres st (w_nodes w) (w_nodes w') -> w_attic w' = w_attic w -> wpres st w w'.
Proof.
  intros NP EA g [[p H]|H].
  - destruct (NP _ _ H) as (g' & H' & GP). exists g'. split; auto. left. exists p. auto.
  - exists g. split; [right; rewrite EA; auto|apply gpres_refl].
Qed.

Lemma wpres_same_nodes st w w' : w_nodes w' = w_nodes w -> w_attic w' = w_attic w -> wpres st w w'.
Proof. intros EN EA. apply npres_wpres; [rewrite EN; apply npres_refl|exact EA]. Qed.

(* every git node stays where it is or is found in the new attic directory *)
Lemma retire_wpres st L d spec : wpres st (lws L None) (lws (retire L d spec) None).
Proof.
  unfold retire. destruct (dir_exists L d); [|apply wpres_same_nodes; reflexivity].
  set (moved := map (rebase_path d) (filter (under d) (l_nodes L))).
  intros g [[p H]|[a [IA H]]]; exists g; (split; [|apply gpres_refl]).
  - destruct (is_prefix d p) eqn:PD.
    + right. exists moved. simpl. split; [apply in_or_app; right; left; auto|].
      exists (skipn (length d) p). unfold moved. rewrite pget_rebased, <- prefix_app_skipn; auto.
    + left. exists p. simpl. unfold under. rewrite pget_filter_neg, PD. auto.
  - right. exists a. simpl. split; auto. apply in_or_app. auto.
Qed.

Definition attic_key_git (astate : list ((N * path) * option scm)) (k : nat) (p : path) : Prop :=
  (exists os, In ((N.of_nat k, p), os) astate) /\
  (forall s, In ((N.of_nat k, p), Some s) astate -> is_git s = true).

(* the attic state entries the loop still owes: an entry to come that lies below a moved directory r
   (attic index k) will be recorded at its place below r in attic directory k *)
Definition pending (tr : list (path * N)) (rest : list (path * dsentry)) : list ((N * path) * option scm) :=
  flat_map (fun de => match tracker_match tr (fst de) with
                      | Some (r, k) => [((k, skipn (length r) (fst de)), de_spec (snd de))]
                      | None => []
                      end) rest.

Lemma pending_nil rest : pending [] rest = [].
Proof. induction rest; auto. Qed.

Lemma tracker_match_snoc tr d k d' :
  tracker_match (tr ++ [(d, k)]) d' =
  match tracker_match tr d' with
  | Some x => Some x
  | None => if is_prefix d d' then Some (d, k) else None
  end.
Proof.
  unfold tracker_match. induction tr as [|[r0 k0] tr IH]; simpl; [reflexivity|].
  destruct (is_prefix r0 d'); auto.
Qed.

Lemma pending_snoc astate tr rest d k x :
  In x (astate ++ pending (tr ++ [(d, k)]) rest) <->
  In x (astate ++ pending tr rest) \/
  exists p e, In (d ++ p, e) rest /\ tracker_match tr (d ++ p) = None /\ x = ((k, p), de_spec e).
Proof.
  split.
  - intro H. apply in_app_or in H. destruct H as [H|H]; [left; apply in_or_app; auto|].
    apply in_flat_map in H. destruct H as ([d' e] & I & H). simpl in H. rewrite tracker_match_snoc in H.
    destruct (tracker_match tr d') as [[r k']|] eqn:T.
    + left. apply in_or_app. right. apply in_flat_map. exists (d', e). simpl. rewrite T. auto.
    + destruct (is_prefix d d') eqn:P; [|contradiction]. destruct H as [<-|[]].
      right. exists (skipn (length d) d'), e. rewrite <- (prefix_app_skipn _ _ P). auto.
  - intros [H|(p & e & I & T & ->)]; apply in_or_app.
    + apply in_app_or in H. destruct H as [H|H]; [auto|right].
      apply in_flat_map in H. destruct H as ([d' e] & I & H). apply in_flat_map. exists (d', e). split; auto.
      simpl in H |- *. rewrite tracker_match_snoc. destruct (tracker_match tr d') as [[r k']|]; [exact H|contradiction].
    + right. apply in_flat_map. exists (d ++ p, e). split; auto.
      simpl. rewrite tracker_match_snoc, T, prefix_app, skipn_app_self. left. auto.
Qed.

(* `recorded` for bob clean --attic, which asks the attic state: a git node has an entry under its own key and
   none there is non-git (attic_key_git; clean_attic_pres); by the last clause an entry under the index of a new
   attic directory is a new entry (linv_retire) *)
Definition attic_ok (st : store) (attic : list nodes) (astate : list ((N * path) * option scm)) : Prop :=
  (forall k p g, pget (nth k attic []) p = Some (NGit g) -> ginv st g /\ attic_key_git astate k p) /\
  (forall k p os, In ((k, p), os) astate -> (N.to_nat k < length attic)%nat).

Lemma attic_ok_snoc st attic astate astate' a :
  attic_ok st attic astate ->
  (forall x, In x astate -> In x astate') ->
  (forall x, In x astate' -> In x astate \/ fst (fst x) = N.of_nat (length attic)) ->
  (forall p g, pget a p = Some (NGit g) -> ginv st g /\ attic_key_git astate' (length attic) p) ->
  attic_ok st (attic ++ [a]) astate'.
Proof.
  intros [G I] SUB NEW A. split.
  - intros k p g H. destruct (Nat.lt_trichotomy k (length attic)) as [LT|[->|GT]].
    + rewrite app_nth1 in H by auto. destruct (G _ _ _ H) as [GI [[os IO] ALL]].
      split; auto. split; [eauto|].
      intros s J. destruct (NEW _ J) as [J'|E]; [eauto|]. simpl in E. apply Nat2N.inj in E. lia.
    + rewrite app_nth2, Nat.sub_diag in H by lia. auto.
    + rewrite nth_overflow in H by (rewrite app_length; simpl; lia). discriminate.
  - intros k p os J. rewrite app_length. simpl. destruct (NEW _ J) as [J'|E].
    + apply I in J'. lia.
    + simpl in E. subst k. rewrite Nat2N.id. lia.
Qed.

Section Loop.
  Variable st : store.
  Variable up : upstream.
  Variable newmap : list (path * scm).
  Hypothesis W : store_wf st.
  Hypothesis UO : up_ok' st up.
  Hypothesis NEWOK : forall d s, pget newmap d = Some s -> scm_ok st s.

  (* a recorded entry has the digest of its spec, unless --clean-checkout has taken it away *)
  Definition entry_ok (p : path) (e : dsentry) : Prop :=
    exists s, de_spec e = Some s /\ scm_ok st s /\
              (de_dig e = Some (digest s) \/ (de_dig e = None /\ pget newmap p <> None)).

  Set Implicit Arguments. Unset Strict Implicit.

  (* the recorded entries during the loop: each is settled (done, and with the recipe's digest) or still to come
     unchanged, so that at the end every entry, and by `recorded` every git node, is one the new recipe asks for
     (loop_end_ent, cook_loop) *)
  Record dinv (ds : list (path * dsentry)) (done rest : list (path * dsentry)) : Prop := mkDI {
    di_ent : forall p e, pget ds p = Some e -> entry_ok p e;
    di_keys : forall p e, pget ds p = Some e ->
              (In p (map fst done) /\ odg_eqb (de_dig e) (new_digest newmap p) = true) \/ In (p, e) rest;
    di_rest : forall d e, In (d, e) rest -> pget ds d = Some e;
    di_nodup : NoDup (map fst ds)
  }.

  (* A move to the attic is one act whose book-keeping the loop spreads over later iterations: the
     git nodes go at once, the recorded entries below the moved directory are re-homed when their
     turn comes.  The invariant counts what is still owed ([pending]) as paid, so it says of the loop
     state what winv says of a workspace, and is winv when nothing is left. *)
  Record linv (L : loopst) (done rest : list (path * dsentry)) : Prop := mkLI {
    li_rec : recorded st (l_nodes L) (l_ds L);
    li_d : dinv (l_ds L) done rest;
    li_clear : forall p x, tracker_match (l_tracker L) p = Some x -> pget (l_nodes L) p = None;
    li_gone : l_exists L = false -> forall p, pget (l_nodes L) p = None;
    li_attic : attic_ok st (l_attic L) (l_astate L ++ pending (l_tracker L) rest)
  }.
  Unset Implicit Arguments. Set Strict Implicit.

  Lemma dinv_next ds ds' done rest d e :
    dinv ds done ((d, e) :: rest) -> ~ In d (map fst rest) ->
    (forall q, q <> d -> pget ds' q = pget ds q) ->
    (forall e', pget ds' d = Some e' -> entry_ok d e' /\ odg_eqb (de_dig e') (new_digest newmap d) = true) ->
    NoDup (map fst ds') ->
    dinv ds' (done ++ [(d, e)]) rest.
  Proof.
    intros [E K R N] NR FR AT ND'.
    assert (G : forall p e', pget ds' p = Some e' -> p = d \/ (p <> d /\ pget ds p = Some e')).
    { intros p e' H. destruct (list_eq_dec N.eq_dec p d) as [->|NE]; auto. rewrite FR in H; auto. }
    constructor; auto.
    - intros p e' H. destruct (G _ _ H) as [->|[_ H']]; [apply AT; auto|eauto].
    - intros p e' H. rewrite map_app, in_app_iff. simpl. destruct (G _ _ H) as [->|[NE H']].
      + left. split; [auto|apply AT; auto].
      + destruct (K _ _ H') as [[I Q]|[[= <- _]|I]]; [auto|contradiction|auto].
    - intros d0 e0 I. rewrite FR; [apply R; right; auto|].
      intros ->. apply NR. apply (in_map fst _ _ I).
  Qed.

  Lemma dinv_pdel ds done rest d e :
    dinv ds done ((d, e) :: rest) -> ~ In d (map fst rest) ->
    dinv (pdel ds d) (done ++ [(d, e)]) rest.
  Proof.
    intros DI NR. apply (dinv_next _ _ _ _ _ _ DI NR).
    - intros. apply pget_pdel_other. auto.
    - intros e' H. rewrite pget_pdel_same in H. discriminate.
    - apply (NoDup_kdel path_eqb path_eqb_spec), DI.
  Qed.

  Lemma linv_switch L done rest d e snew sold ns1 ok dec :
    linv L done rest ->
    tracker_match (l_tracker L) d = None ->
    pget newmap d = Some snew -> pget (l_ds L) d = Some e -> de_spec e = Some sold ->
    can_switch snew sold = true ->
    do_switch st up (l_nodes L) d snew sold = (ns1, ok) ->
    linv (with_nodes_dec L ns1 dec) done rest /\ npres st (l_nodes L) ns1 /\
    (forall g, pget ns1 d = Some (NGit g) -> is_git snew = true).
  Proof.
    intros LI T NM HD SP CS DS.
    assert (OKO : scm_ok st sold).
    { destruct (di_ent (li_d LI) HD) as (s & E1 & E2 & _). congruence. }
    destruct (do_switch_inv _ _ _ _ _ _ _ _ W UO (NEWOK _ _ NM) OKO
                (fun g H => proj1 (li_rec LI H)) DS) as [->|(g & g' & P & -> & GP & GI & K1)].
    - split; [destruct LI; constructor; assumption|]. split; [apply npres_refl|].
      intros g H. destruct (li_rec LI H) as (_ & e' & s & E1 & E2 & E3).
      rewrite (can_switch_kind _ _ CS). congruence.
    - split; [|split; [apply put_node_npres; intros g0 E; rewrite P in E; injection E as <-; exact GP|auto]].
      pose proof LI as [Lrec Ld Lclear Lgone Lattic]. constructor; simpl; try assumption.
      + intros p x H. apply put_node_git in H. destruct H as [[-> H]|[_ H]]; [|apply (Lrec _ _ H)].
        injection H as <-. split; [exact GI|apply (Lrec _ _ P)].
      + (* put_node fills in directories above d only, and d is below no tracked root *)
        intros p [r k] T'. destruct (tracker_match_some T') as [I PR].
        destruct (pget (put_node (l_nodes L) d (NGit g')) p) eqn:Q; auto. exfalso.
        assert (PD : is_prefix p d = true).
        { eapply put_node_new; [apply (Lclear _ _ T')|]. rewrite Q. discriminate. }
        pose proof (tracker_match_none T I) as F. rewrite (prefix_trans _ _ _ PR PD) in F. discriminate.
      + intros EX. rewrite (Lgone EX d) in P. discriminate.
  Qed.

  Lemma linv_retire L done rest d e :
    linv L done ((d, e) :: rest) ->
    tracker_match (l_tracker L) d = None ->
    nothing_below d done -> ~ In d (map fst rest) ->
    linv (retire L d (de_spec e)) (done ++ [(d, e)]) rest.
  Proof.
    intros LI T TOP NDr.
    pose proof (li_d LI) as DI.
    unfold retire. destruct (dir_exists L d) eqn:X.
    2:{ assert (NOD : pget (l_nodes L) d = None).
      { destruct d as [|x d']; simpl in X; [apply (li_gone LI X)|].
        destruct (pget (l_nodes L) (x :: d')) eqn:G; auto. apply pget_some_exists in G. congruence. }
      pose proof LI as [Lrec Ld Lclear Lgone Lattic]. constructor; simpl; try assumption.
      - apply recorded_pdel; [exact Lrec|congruence].
      - apply dinv_pdel; auto.
      - simpl in Lattic. rewrite T in Lattic. exact Lattic. }
    constructor; simpl.
    - apply recorded_pdel.
      + intros p g H. unfold under in H. rewrite pget_filter_neg in H.
        destruct (is_prefix d p); [discriminate|]. eapply (li_rec LI); eauto.
      + intros g. unfold under. rewrite pget_filter_neg, prefix_refl. discriminate.
    - apply dinv_pdel; auto.
    - intros p x H. unfold under. rewrite pget_filter_neg. destruct (is_prefix d p) eqn:PD; auto.
      rewrite tracker_match_snoc, PD in H.
      destruct (tracker_match (l_tracker L) p) eqn:T'; [apply (li_clear LI T')|discriminate].
    - intros EX p. unfold under. rewrite pget_filter_neg. destruct d; [reflexivity|].
      destruct (is_prefix (n :: d) p); [reflexivity|apply (li_gone LI EX)].
    - (* the move pays d's own entry under the new root *)
      set (k := N.of_nat (length (l_attic L))).
      replace ((l_astate L ++ [((k, []), de_spec e)]) ++ pending (l_tracker L ++ [(d, k)]) rest)
        with (l_astate L ++ pending (l_tracker L ++ [(d, k)]) ((d, e) :: rest))
        by (simpl; rewrite tracker_match_snoc, T, prefix_refl, skipn_all, <- app_assoc; reflexivity).
      pose proof (li_attic LI) as AT.
      apply (attic_ok_snoc _ _ _ _ _ AT).
      + intros x H. apply pending_snoc. auto.
      + intros x H. apply pending_snoc in H. destruct H as [H|(p & e' & _ & _ & ->)]; auto.
      + (* a git node of the new attic directory was recorded, as git, at or below d; that entry is
           still to come, and no older root claims it *)
        intros p g PG. rewrite pget_rebased in PG.
        destruct (li_rec LI PG) as (GI & e' & s & E1 & E2 & E3). split; [exact GI|].
        assert (T' : tracker_match (l_tracker L) (d ++ p) = None).
        { destruct (tracker_match (l_tracker L) (d ++ p)) eqn:T'; auto.
          rewrite (li_clear LI T') in PG. discriminate. }
        assert (I : In (d ++ p, e') ((d, e) :: rest)).
        { destruct (di_keys DI E1) as [[ID _]|IR]; auto.
          apply in_map_iff in ID. destruct ID as [[d0 e0] [E0 ID]]. simpl in E0. subst d0.
          pose proof (TOP _ _ ID) as F. rewrite prefix_app in F. discriminate. }
        split.
        * exists (de_spec e'). apply pending_snoc. right. exists p, e'. auto.
        * intros s0 H. apply pending_snoc in H. destruct H as [H|(p' & e'' & I' & _ & E)].
          -- apply (proj2 AT) in H. rewrite Nat2N.id in H. lia.
          -- injection E as <- E. apply (di_rest DI) in I'. congruence.
  Qed.

  Lemma linv_step L done rest d e :
    linv L done ((d, e) :: rest) ->
    nothing_below d done -> ~ In d (map fst rest) ->
    linv (loop_step st up newmap L (d, e)) (done ++ [(d, e)]) rest /\
    wpres st (lws L None) (lws (loop_step st up newmap L (d, e)) None).
  Proof.
    intros LI TOP NDr.
    pose proof (li_d LI) as DI.
    pose proof (di_rest DI (or_introl eq_refl)) as HD.
    pose proof (li_attic LI) as AT. simpl in AT.
    destruct (loop_step_cases st up newmap L d e) as [r k T | T Q | T | snew sold ns1 did T NM SP CS DS].
    - (* below a directory moved earlier: nothing of it is left in the nodes, and the entry owed is paid *)
      rewrite T in AT.
      split; [|apply wpres_same_nodes; reflexivity].
      pose proof LI as [Lrec Ld Lclear Lgone Lattic]. constructor; simpl; try assumption.
      + apply recorded_pdel; [exact Lrec|]. rewrite (Lclear _ _ T). discriminate.
      + apply dinv_pdel; auto.
      + rewrite <- app_assoc. exact AT.
    - split; [|apply wpres_refl]. rewrite T in AT.
      pose proof LI as [Lrec Ld Lclear Lgone Lattic]. constructor; try assumption.
      apply (dinv_next _ _ _ _ _ _ DI NDr); [auto| |apply DI]. intros e' H. rewrite HD in H. injection H as <-.
      split; [apply (di_ent DI HD)|exact Q].
    - split; [apply linv_retire; auto|apply retire_wpres].
    - destruct (linv_switch _ _ _ _ _ _ _ _ _ (l_dec L ++ [(1, d)]) LI T NM HD SP CS DS) as (LI1 & NP & GS).
      assert (P1 : wpres st (lws L None) (lws (with_nodes_dec L ns1 (l_dec L ++ [(1, d)])) None))
        by (apply npres_wpres; auto).
      cbv zeta. destruct did.
      + split; [|exact P1]. rewrite T in AT.
        pose proof LI1 as [Lrec Ld Lclear Lgone Lattic]. constructor; simpl; try assumption.
        * intros p g H. destruct (list_eq_dec N.eq_dec d p) as [<-|NE].
          -- split; [apply (Lrec _ _ H)|]. rewrite pget_pset_same. eexists. exists snew.
             split; [reflexivity|]. simpl. eauto.
          -- rewrite pget_pset_other by auto. apply (Lrec _ _ H).
        * apply (dinv_next _ _ _ _ _ _ Ld NDr).
          -- intros. apply pget_pset_other. auto.
          -- intros e' H. rewrite pget_pset_same in H. injection H as <-. simpl. split; [exists snew; simpl; eauto|].
             unfold new_digest. rewrite NM. apply dg_eqb_spec. auto.
          -- apply (NoDup_kset path_eqb path_eqb_spec), DI.
      + split; [apply linv_retire; auto|]. eapply wpres_trans; [exact P1|apply retire_wpres].
  Qed.

  Lemma linv_loop ds1 L0 :
    NoDup (map fst ds1) -> linv L0 [] (sort_paths ds1) ->
    let L := fold_left (loop_step st up newmap) (sort_paths ds1) L0 in
    linv L (sort_paths ds1) [] /\ wpres st (lws L0 None) (lws L None).
  Proof.
    intros ND LI0.
    apply (sorted_loop_ind (fun L done rest => linv L done rest /\ wpres st (lws L0 None) (lws L None))); auto.
    - intros L done d e rest (LI & LP) TOP NDr.
      destruct (linv_step _ _ _ _ _ LI TOP NDr) as [LI' LP'].
      split; auto. eapply wpres_trans; eauto.
    - split; auto. apply wpres_refl.
  Qed.

  Lemma loop_end_ent {ds done p e} :
    dinv ds done [] -> pget ds p = Some e ->
    exists s, de_spec e = Some s /\ scm_ok st s /\ de_dig e = Some (digest s) /\ de_dig e = new_digest newmap p.
  Proof.
    intros DI H.
    destruct (di_ent DI H) as (s & S & OK & D).
    destruct (di_keys DI H) as [[_ Q]|[]]. apply odg_eqb_eq in Q.
    exists s. repeat split; auto.
    destruct D as [D|[D1 D2]]; auto. exfalso. rewrite D1 in Q. unfold new_digest in Q.
    destruct (pget newmap p); [discriminate|]. apply D2. auto.
  Qed.
End Loop.

Set Implicit Arguments. Unset Strict Implicit.
Record winv (st : store) (w : wstate) : Prop := mkWI {
  wi_rec : recorded st (w_nodes w) (w_ds w);
  wi_ent : forall p e, pget (w_ds w) p = Some e ->
           exists s, de_spec e = Some s /\ scm_ok st s /\ de_dig e = Some (digest s);
  wi_nodup : NoDup (map fst (w_ds w));
  wi_gone : w_exists w = false -> forall p, pget (w_nodes w) p = None;
  wi_attic : attic_ok st (w_attic w) (w_astate w)
}.
Unset Implicit Arguments. Set Strict Implicit.

Lemma winv_empty : forall st, winv st w_empty.
Proof.
  intro st. constructor; simpl; intros; try discriminate; try contradiction; auto.
  - constructor.
  - split; [intros [|k] p g H; discriminate H|intros k p os []].
Qed.

(* what input.py asks of two SCMs of a recipe, x listed before y *)
Definition spec_rel (x y : scm) : Prop :=
  is_prefix (scm_dir y) (scm_dir x) = false /\
  (is_prefix (scm_dir x) (scm_dir y) && is_git y && negb (is_git x)) = false.

Lemma spec_ok_from_pairs : forall l known,
  spec_ok_from known l = true ->
  (forall s kn, In s l -> In kn known ->
     is_prefix (scm_dir s) (fst kn) = false /\ (is_prefix (fst kn) (scm_dir s) && is_git s && negb (snd kn)) = false) /\
  ForallOrdPairs spec_rel l.
Proof.
  induction l as [|s l IH]; intros known H; simpl in H.
  - split; [intros; contradiction|constructor].
  - apply andb_true_iff in H. destruct H as [H1 H2]. rewrite forallb_forall in H1.
    destruct (IH _ H2) as [K1 K2]. split.
    + intros s0 kn [->|I] IK.
      * specialize (H1 _ IK). apply andb_true_iff in H1. destruct H1 as [A B].
        apply negb_true_iff in A. apply negb_true_iff in B. auto.
      * apply K1; auto. apply in_or_app. auto.
    + constructor; auto. rewrite Forall_forall. intros y I.
      apply (K1 y (scm_dir s, is_git s) I). apply in_or_app. right. left. auto.
Qed.

Lemma spec_ok_no_git_below spec s s' : spec_ok spec = true -> In s spec -> In s' spec ->
  is_git s = false -> is_git s' = true -> is_prefix (scm_dir s) (scm_dir s') = false.
Proof.
  intros H I I' G G'. destruct (spec_ok_from_pairs _ _ H) as [_ P].
  destruct (ForallOrdPairs_In P _ _ I I') as [E|[[A B]|[A B]]]; [congruence| |auto].
  rewrite G, G', !andb_true_r in B. auto.
Qed.

Lemma spec_ok_dirs_nodup spec : spec_ok spec = true -> NoDup (map scm_dir spec).
Proof.
  intros H. destruct (spec_ok_from_pairs _ _ H) as [_ P]. clear H.
  induction P as [|s l F P IH]; simpl; constructor; auto.
  intro I. apply in_map_iff in I. destruct I as [s' [E I]]. rewrite Forall_forall in F.
  destruct (F _ I) as [A _]. rewrite E in A. rewrite prefix_refl in A. discriminate.
Qed.

Lemma pget_spec_map spec s : NoDup (map scm_dir spec) -> In s spec ->
  pget (spec_map spec) (scm_dir s) = Some s.
Proof.
  intros ND I. unfold spec_map. apply In_pget_nodup.
  - rewrite map_map. auto.
  - apply in_map_iff. exists s. auto.
Qed.

Lemma pget_spec_map_inv {spec p s} : pget (spec_map spec) p = Some s -> In s spec /\ scm_dir s = p.
Proof.
  intros H. apply pget_In in H. unfold spec_map in H. apply in_map_iff in H.
  destruct H as [s' [E I]]. injection E as <- <-. auto.
Qed.

Lemma pget_new_ds : forall spec p,
  pget (new_ds spec) p = option_map (fun s => mkDE (Some (digest s)) (Some s)) (pget (spec_map spec) p).
Proof.
  induction spec as [|s spec IH]; intros p; simpl; auto.
  unfold pget in *. simpl. destruct (path_eqb (scm_dir s) p); auto.
Qed.

Section Invoke.
  Variable st : store.
  Variable up : upstream.
  Variable spec : list scm.
  Hypothesis W : store_wf st.
  Hypothesis UO : up_ok' st up.
  Hypothesis SOK : spec_ok spec = true.

  (* `recorded` against the recipe while invoke_all runs, between cook_loop, which establishes it, and cook_pres,
     which ends it as `recorded` for new_ds; with spec_ok, why no url or import SCM writes over a git node *)
  Definition run_inv (ns : nodes) : Prop :=
    forall p g, pget ns p = Some (NGit g) ->
      ginv st g /\ exists s, pget (spec_map spec) p = Some s /\ is_git s = true.

  Lemma ginv_init u f : ginv st (g_init u f).
  Proof. repeat split; simpl; intros; try contradiction; constructor. Qed.

  Lemma nongit_not_above ns s p g : run_inv ns -> In s spec -> is_git s = false ->
    pget ns p = Some (NGit g) -> is_prefix (scm_dir s) p = false.
  Proof.
    intros J I G H. destruct (J _ _ H) as [_ (s' & NM & GS)].
    destruct (pget_spec_map_inv NM) as [I' D]. rewrite <- D.
    eapply spec_ok_no_git_below; eauto.
  Qed.

  Lemma put_plain_pres ns ns1 d n : run_inv ns ->
    (forall p g, pget ns1 p = Some (NGit g) <-> pget ns p = Some (NGit g)) ->
    (forall g, n <> NGit g) -> (forall g, pget ns d <> Some (NGit g)) ->
    run_inv (put_node ns1 d n) /\ npres st ns (put_node ns1 d n).
  Proof.
    intros J G1 NG ND. split.
    - intros p g H. apply put_node_git in H. destruct H as [[_ E]|[_ H]]; [destruct (NG _ E)|apply J, G1, H].
    - intros p g H. exists g. split; [|apply gpres_refl].
      apply put_node_keeps; [|apply G1; auto]. intros ->. eapply ND; eauto.
  Qed.

  Lemma plain_at ns d : (forall g, pget ns d <> Some (NGit g)) ->
    forall g, match pget ns d with Some n => n | None => NPlain [] end <> NGit g.
  Proof. intros ND g E. destruct (pget ns d) eqn:P; [subst; eapply ND; eauto|discriminate]. Qed.

  Lemma node_files_with : forall n f, node_files (node_with_files n f) = f.
  Proof. intros [g|f0] f; reflexivity. Qed.

  Lemma node_with_files_plain n f : (forall g, n <> NGit g) -> forall g, node_with_files n f <> NGit g.
  Proof. intros H g. destruct n; simpl; [exfalso; eapply H; eauto|discriminate]. Qed.

  Lemma invoke_scm_pres ns s ns' ok :
    run_inv ns -> In s spec -> invoke_scm st up ns s = (ns', ok) ->
    run_inv ns' /\ npres st ns ns'.
  Proof.
    intros J I H.
    destruct s as [u r d|u dig d|src prune d]; simpl in H.
    - set (g := match pget ns d with Some (NGit g) => g | Some (NPlain f) => g_init u f | None => g_init u [] end) in *.
      destruct (git_invoke st up g u r false) as [g' ok'] eqn:GI. injection H as <- <-.
      assert (GINV : ginv st g).
      { unfold g. destruct (pget ns d) as [[g0|f]|] eqn:P; try apply ginv_init. apply (J _ _ P). }
      destruct (gsafe_ginv (git_invoke_safe W UO GINV
                  (fun E => False_ind _ (Bool.diff_false_true E)) GI) GINV) as [GP GI'].
      split.
      + intros p x H. apply put_node_git in H. destruct H as [[-> E]|[_ H]]; [|apply J; auto].
        injection E as <-. split; auto. exists (SGit u r d). split; auto.
        apply (pget_spec_map spec (SGit u r d) (spec_ok_dirs_nodup _ SOK) I).
      + apply put_node_npres. intros g0 P. unfold g in GP. rewrite P in GP. exact GP.
    - assert (ND : forall g, pget ns d <> Some (NGit g)).
      { intros g P. pose proof (nongit_not_above ns (SUrl u dig d) d g J I eq_refl P) as F.
        simpl in F. rewrite prefix_refl in F. discriminate. }
      match type of H with (match ?f with _ => _ end) = _ => destruct f as [files'|] end;
        injection H as <- <-; apply put_plain_pres; auto using node_with_files_plain, plain_at; reflexivity.
    - (* import: no git node at or below d, so pruning and copying touch plain nodes only *)
      assert (NG : forall p g, pget ns p = Some (NGit g) -> is_prefix d p = false).
      { intros p g P. apply (nongit_not_above ns (SImport src prune d) p g J I eq_refl P). }
      assert (ND : forall g, pget ns d <> Some (NGit g)).
      { intros g P. pose proof (NG _ _ P) as F. rewrite prefix_refl in F. discriminate. }
      assert (G1 : forall p g, pget (filter (fun pn => negb (strict_prefix d (fst pn))) ns) p = Some (NGit g) <->
                               pget ns p = Some (NGit g)).
      { intros p g. rewrite pget_filter_neg. unfold strict_prefix.
        destruct (is_prefix d p) eqn:PD; simpl; [|reflexivity].
        split; [destruct (negb (path_eqb d p)); [discriminate|auto]|]. intro P. rewrite (NG _ _ P) in PD. discriminate. }
      destruct prune.
      + destruct (aget (up_imp up) src) as [srcf|]; injection H as <- <-; apply put_plain_pres; auto; discriminate.
      + destruct (aget (up_imp up) src) as [srcf|]; injection H as <- <-;
          apply put_plain_pres; auto using node_with_files_plain, plain_at; reflexivity.
  Qed.

  Lemma invoke_all_pres : forall l ns ns' ok,
    run_inv ns -> (forall s, In s l -> In s spec) -> invoke_all st up ns l = (ns', ok) ->
    run_inv ns' /\ npres st ns ns'.
  Proof.
    induction l as [|s l IH]; intros ns ns' ok J SUB H; simpl in H.
    - injection H as <- _. split; auto. apply npres_refl.
    - destruct (invoke_scm st up ns s) as [ns1 ok1] eqn:E.
      destruct (invoke_scm_pres _ _ _ _ J (SUB s (or_introl eq_refl)) E) as [J1 P1].
      destruct ok1; [|injection H as <- _; auto].
      destruct (IH _ _ _ J1 (fun x I => SUB x (or_intror I)) H) as [J2 P2].
      split; auto. eapply npres_trans; eauto.
  Qed.
End Invoke.

Lemma invalidate_dirty_entry st ns newmap p e :
  fst (invalidate_dirty st ns newmap (p, e)) = p /\
  de_spec (snd (invalidate_dirty st ns newmap (p, e))) = de_spec e /\
  (de_dig (snd (invalidate_dirty st ns newmap (p, e))) = de_dig e \/
   (de_dig (snd (invalidate_dirty st ns newmap (p, e))) = None /\ pget newmap p <> None)).
Proof.
  unfold invalidate_dirty. simpl. destruct (pget newmap p); [|auto].
  match goal with |- context [if ?c then _ else _] => destruct c end; simpl; auto.
  repeat split; auto. right. split; auto. discriminate.
Qed.

(* what linv_init needs of the recorded state the loop starts from; cook_start gets it from winv, whether or not
   --clean-checkout has taken digests away *)
Definition start_state (st : store) (newmap : list (path * scm)) (w : wstate) (ds1 : list (path * dsentry)) : Prop :=
  NoDup (map fst ds1) /\
  (forall p e, pget ds1 p = Some e -> entry_ok st newmap p e) /\
  recorded st (w_nodes w) ds1.

Lemma cook_start st (cc : bool) newmap w : winv st w ->
  let ds0 := if negb (w_exists w) then [] else w_ds w in
  let ds1 := if cc then map (invalidate_dirty st (w_nodes w) newmap) ds0 else ds0 in
  start_state st newmap w ds1.
Proof.
  intros WI ds0 ds1.
  assert (D0 : start_state st newmap w ds0).
  { unfold ds0. destruct (w_exists w) eqn:EX; simpl.
    - split; [exact (wi_nodup WI)|]. split; [|exact (wi_rec WI)].
      intros p e P. destruct (wi_ent WI P) as (s & S & OK & D). exists s. auto.
    - split; [constructor|]. split; [discriminate|].
      intros p g P. rewrite (wi_gone WI EX p) in P. discriminate. }
  unfold ds1. destruct cc; [|exact D0]. destruct D0 as (N0 & E0 & R0).
  assert (G : forall p, pget (map (invalidate_dirty st (w_nodes w) newmap) ds0) p =
                        option_map (fun e => snd (invalidate_dirty st (w_nodes w) newmap (p, e))) (pget ds0 p)).
  { intro p. apply (kget_map_keys path_eqb path_eqb_spec). intros [d e]. apply invalidate_dirty_entry. }
  split; [|split].
  - rewrite map_map. erewrite map_ext; [exact N0|]. intros [d e]. apply invalidate_dirty_entry.
  - intros p e1 H. rewrite G in H. destruct (pget ds0 p) as [e0|] eqn:P0; [|discriminate].
    injection H as <-. destruct (E0 _ _ P0) as (s & S & OK & D).
    destruct (invalidate_dirty_entry st (w_nodes w) newmap p e0) as (_ & S' & D').
    exists s. rewrite S'. repeat split; auto. destruct D' as [->|D']; auto.
  - intros p g P. destruct (R0 _ _ P) as (GI & e & s & P0 & S & GS). split; [exact GI|]. rewrite G, P0. simpl.
    eexists. exists s. split; [reflexivity|]. split; auto. rewrite <- S. apply invalidate_dirty_entry.
Qed.

Definition loop_start (w : wstate) (ds1 : list (path * dsentry)) : loopst :=
  mkL true (w_nodes w) ds1 (w_attic w) (w_astate w) [] [].

Lemma linv_init st newmap ds1 (w : wstate) :
  winv st w ->
  start_state st newmap w ds1 ->
  linv st newmap (loop_start w ds1) [] (sort_paths ds1).
Proof.
  intros WI (ND & ENT & REC). constructor; simpl; auto; try contradiction; try discriminate.
  - constructor; auto; try contradiction.
    + intros p e H. right. apply sort_paths_In, pget_In, H.
    + intros d e I. apply (proj1 (sort_paths_In _ ds1 (d, e))) in I. apply In_pget_nodup; auto.
  - rewrite pending_nil, app_nil_r. apply (wi_attic WI).
Qed.

Lemma cook_loop st up newmap ds1 w vid :
  store_wf st -> up_ok' st up -> (forall d s, pget newmap d = Some s -> scm_ok st s) ->
  winv st w -> start_state st newmap w ds1 ->
  let L := fold_left (loop_step st up newmap) (sort_paths ds1) (loop_start w ds1) in
  winv st (lws L vid) /\ wpres st w (lws L vid) /\
  forall p g, pget (l_nodes L) p = Some (NGit g) ->
    ginv st g /\ exists s, pget newmap p = Some s /\ is_git s = true.
Proof.
  intros W UO NEWOK WI SS L.
  destruct (linv_loop st up newmap W UO NEWOK ds1 _ (proj1 SS) (linv_init st newmap ds1 w WI SS)) as [LI LP].
  fold L in LI, LP. pose proof (li_d LI) as DI.
  pose proof (li_attic LI) as AT. simpl in AT. rewrite app_nil_r in AT.
  split; [|split; [exact LP|]].
  - constructor; simpl; auto.
    + apply (li_rec LI).
    + intros p e P. destruct (loop_end_ent _ _ DI P) as (s & S & OK & D & _). eauto.
    + apply (di_nodup DI).
    + apply (li_gone LI).
  - intros p g P. destruct (li_rec LI P) as (GI & e & s & PE & S & G). split; [exact GI|].
    destruct (loop_end_ent _ _ DI PE) as (s' & S' & _ & D & DN).
    rewrite S in S'. injection S' as <-. rewrite D in DN. unfold new_digest in DN.
    destruct (pget newmap p) as [sn|]; [|discriminate]. exists sn. split; auto.
    injection DN as DD. rewrite <- (digest_kind _ _ DD). auto.
Qed.

Lemma cook_pres st up cc spec w w' o :
  store_wf st -> up_ok' st up -> spec_ok spec = true -> (forall s, In s spec -> scm_ok st s) ->
  winv st w -> cook st up cc spec w = (w', o) ->
  winv st w' /\ wpres st w w'.
Proof.
  intros W UO SOK SCMOK WI H. unfold cook in H.
  pose proof (cook_start st cc (spec_map spec) w WI) as SS.
  set (created := negb (w_exists w)) in *.
  set (ds0 := if created then [] else w_ds w) in *.
  set (vid0 := if created then None else w_vid w) in *.
  set (newmap := spec_map spec) in *.
  set (ds1 := if cc then map (invalidate_dirty st (w_nodes w) newmap) ds0 else ds0) in *.
  match type of H with (if negb ?r then _ else _) = _ => destruct r eqn:REASON end; cbn [negb] in H.
  2:{ injection H as <- _.
    assert (E : created = false) by (destruct created; [discriminate|auto]).
    unfold ds0, vid0. rewrite E. split; [|apply wpres_same_nodes; reflexivity].
    destruct WI. constructor; simpl; auto. discriminate. }
  assert (NEWOK : forall d s, pget newmap d = Some s -> scm_ok st s).
  { intros d s NM. apply SCMOK. apply (pget_spec_map_inv NM). }
  destruct (cook_loop st up newmap ds1 w vid0 W UO NEWOK WI SS) as (WL & LP & SET).
  fold (loop_start w ds1) in H.
  set (L := fold_left (loop_step st up newmap) (sort_paths ds1) (loop_start w ds1)) in *.
  match type of H with (if ?c then _ else _) = _ => destruct c end.
  - (* collision: the state after the loop is kept *)
    injection H as <- _. auto.
  - destruct (invoke_all st up (l_nodes L) spec) as [ns2 ok] eqn:INV. injection H as <- _.
    destruct (invoke_all_pres st up spec W UO SOK spec _ _ _ SET (fun s I => I) INV) as [J2 NP].
    split.
    + constructor; simpl; try discriminate.
      * intros p g P. destruct (J2 _ _ P) as [GI (s & NM & G)]. split; [exact GI|].
        rewrite pget_new_ds, NM. eexists. exists s. split; [reflexivity|]. simpl. auto.
      * intros p e P. rewrite pget_new_ds in P. destruct (pget (spec_map spec) p) as [s|] eqn:NM; [|discriminate].
        injection P as <-. exists s. simpl. repeat split; auto. apply (NEWOK _ _ NM).
      * unfold new_ds. rewrite map_map. simpl. apply spec_ok_dirs_nodup. auto.
      * apply (wi_attic WL).
    + eapply wpres_trans; [exact LP|]. apply npres_wpres; auto.
Qed.

Lemma expendable_node st ns p g s o :
  store_wf st -> ginv st g -> pget ns p = Some (NGit g) -> is_git s = true ->
  s_expendable (scm_status st ns p s) = true -> ~ holds_g st g o.
Proof.
  intros W [U _] P GS E.
  destruct s as [u r d|? ? ?|? ? ?]; try discriminate. simpl in E. rewrite P in E.
  eapply expendable_no_user_objects; eauto.
Qed.

Lemma clean_src_pres st used w :
  store_wf st -> winv st w ->
  winv st (clean_src_one st used w) /\ (forall o, holds_w st w o -> holds_w st (clean_src_one st used w) o).
Proof.
  intros W WI. unfold clean_src_one.
  destruct (negb used && w_exists w && all_expendable st w) eqn:C; [|split; auto].
  apply andb_true_iff in C. destruct C as [_ A]. unfold all_expendable in A. rewrite forallb_forall in A.
  split.
  - destruct WI. constructor; simpl; auto; try (intros; discriminate). constructor.
  - intros o (g & [[p P]|G] & H); [|exists g; split; auto; right; exact G].
    destruct (wi_rec WI P) as (GI & e & s & PE & S & GS).
    specialize (A _ (pget_In _ _ _ _ PE)). simpl in A. unfold entry_expendable in A. rewrite S in A.
    destruct (expendable_node st (w_nodes w) p g s o W GI P GS A H).
Qed.

Lemma clean_attic_pres st w :
  store_wf st -> winv st w ->
  winv st (clean_attic_one st w) /\ (forall o, holds_w st w o -> holds_w st (clean_attic_one st w) o).
Proof.
  intros W WI. destruct (wi_attic WI) as [AG AI].
  (* a git node at or below a deletable recorded directory holds nothing of the user: the node is
     recorded itself, as git, and its record is the deletable one or an existing one below it *)
  assert (DEAD : forall k p g o, pget (nth k (w_attic w) []) p = Some (NGit g) ->
            attic_doomed st w (N.of_nat k) p = true -> ~ holds_g st g o).
  { intros k p g o PG X. unfold attic_doomed in X. apply existsb_exists in X.
    destruct X as [[[k' q] os] [IF B]]. apply filter_In in IF. destruct IF as [IA DEL].
    simpl in B. apply andb_true_iff in B. destruct B as [EK PR]. apply N.eqb_eq in EK. subst k'.
    destruct (AG _ _ _ PG) as [GI [[os' IO'] ALL]].
    destruct (attic_deletable_expendable _ _ _ DEL) as [EXP NEST].
    assert (STAT : forall os0, In ((N.of_nat k, p), os0) (w_astate w) ->
                     attic_expendable st w ((N.of_nat k, p), os0) = true -> ~ holds_g st g o).
    { intros os0 I0 E0. unfold attic_expendable in E0. simpl in E0.
      rewrite Nat2N.id in E0. destruct os0 as [s|]; [|discriminate].
      eapply expendable_node; eauto. }
    destruct (list_eq_dec N.eq_dec q p) as [->|NE]; [apply (STAT os); auto|].
    apply (STAT os'); auto. apply (NEST _ IO'); simpl; auto.
    - unfold strict_prefix. rewrite PR, (path_eqb_neq q p); auto.
    - unfold attic_exists. simpl. rewrite Nat2N.id. eapply pget_some_exists; eauto. }
  split; [constructor; try (destruct WI; simpl; auto; fail); split|].
  - intros k p g PG. rewrite clean_attic_nth, pget_filter_neg in PG.
    destruct (attic_doomed st w (N.of_nat k) p) eqn:X; [discriminate|].
    destruct (AG _ _ _ PG) as [GI [[os IO] ALL]]. split; auto. split.
    + exists os. apply clean_attic_astate. split; auto.
      unfold attic_exists. cbn [fst snd]. rewrite Nat2N.id, clean_attic_nth.
      eapply pget_some_exists. rewrite pget_filter_neg, X. eauto.
    + intros s I'. apply clean_attic_astate in I'. destruct I' as [I' _]. eauto.
  - intros k p os I. rewrite clean_attic_length. apply clean_attic_astate in I. apply (AI _ _ _ (proj1 I)).
  - intros o (g & [G|(a & IA & [p PG])] & H); [exists g; split; auto; left; exact G|].
    destruct (In_nth _ _ [] IA) as (k & LT & <-).
    destruct (attic_doomed st w (N.of_nat k) p) eqn:X; [destruct (DEAD _ _ _ o PG X H)|].
    exists g. split; auto. right. exists (nth k (w_attic (clean_attic_one st w)) []).
    split; [apply nth_In; rewrite clean_attic_length; exact LT|].
    exists p. rewrite clean_attic_nth, pget_filter_neg, X. auto.
Qed.

Lemma nth_error_nth' : forall A (l : list A) k a d, nth_error l k = Some a -> nth k l d = a.
Proof. exact nth_error_nth. Qed.

(* user actions keep the invariant (they may of course destroy the user's own objects) *)
Lemma user_op_ginv st g u : ginv st g -> ginv st (user_op st g u).
Proof.
  intros GI. apply (frame_ginv st g); auto.
  destruct u as [f b|c|b|b|[c|]]; unfold user_op.
  - apply frame_with_co_same.
  - destruct (g_head g); [apply frame_with_co_aset|apply frame_with_co_same].
  - destruct (head_commit g); [apply frame_with_co_aset|apply frame_refl].
  - destruct (aget (g_branches g) b).
    + destruct (co_branch st g b) eqn:E. simpl. eapply co_branch_frame; eauto.
    + destruct (co_new_branch st g b (aget (g_remotes g) b)) eqn:E. simpl. eapply co_new_branch_frame; eauto.
  - destruct (co_detach st g (Some c)) eqn:E. simpl. eapply co_detach_frame; eauto.
  - destruct (head_commit g); [apply frame_with_co_same|apply frame_refl].
Qed.

Definition P_inv (st : store) (P : proj) : Prop := forall k w, aget P k = Some w -> winv st w.

(* what is assumed of a build beside input.py's validation: upstream refs, and the commits recipes pin, are
   upstream commits, never the user's (up_ok', scm_ok; why, at rev_ok) *)
Definition op_ok (st : store) (o : op) : Prop :=
  match o with
  | OBuild _ up specs =>
      up_ok' st up /\
      forall k spec, In (k, spec) specs -> spec_ok spec = true /\ forall s, In s spec -> scm_ok st s
  | _ => True
  end.

Definition bob_op (o : op) : Prop := match o with OUser _ _ _ => False | _ => True end.

Lemma getw_inv st P k : P_inv st P -> winv st (getw P k).
Proof. intros PI. unfold getw. destruct (aget P k) eqn:E; [eauto|apply winv_empty]. Qed.

Lemma P_inv_aset st P k w : P_inv st P -> winv st w -> P_inv st (aset P k w).
Proof.
  intros PI WI k0 w0 A. destruct (N.eq_dec k k0) as [->|NE].
  - rewrite aget_aset_same in A. injection A as <-. auto.
  - rewrite aget_aset_other in A; eauto.
Qed.

Lemma build_all_pres st up cc specs : forall P P' os,
  store_wf st -> up_ok' st up ->
  (forall k spec, In (k, spec) specs -> spec_ok spec = true /\ forall s, In s spec -> scm_ok st s) ->
  P_inv st P -> build_all st up cc specs P = (P', os) ->
  P_inv st P' /\ forall o, holds_P st P o -> holds_P st P' o.
Proof.
  induction specs as [|[k spec] specs IH]; intros P P' os W UO OK PI H; simpl in H.
  - injection H as <- _. auto.
  - assert (OK' : forall k0 spec0, In (k0, spec0) specs -> spec_ok spec0 = true /\ forall s, In s spec0 -> scm_ok st s).
    { intros k0 spec1 I0. apply (OK k0 spec1). right. auto. }
    destruct spec as [|s0 spec0]; [eapply IH; eauto|].
    destruct (cook st up cc (s0 :: spec0) (getw P k)) as [w' o] eqn:C.
    destruct (OK k (s0 :: spec0) (or_introl eq_refl)) as [SOK SCM].
    destruct (cook_pres _ _ _ _ _ _ _ W UO SOK SCM (getw_inv st P k PI) C) as [WI' WP].
    destruct (build_all st up cc specs (aset P k w')) as [P'' os'] eqn:B.
    injection H as <- _.
    destruct (IH _ _ _ W UO OK' (P_inv_aset _ _ _ _ PI WI') B) as [PI'' HP]. split; auto.
    intros x (k0 & w0 & A & HW). apply HP.
    destruct (N.eq_dec k k0) as [->|NE].
    + exists k0, w'. split; [apply aget_aset_same|].
      eapply wpres_holds; eauto. unfold getw. rewrite A. auto.
    + exists k0, w0. split; auto. rewrite aget_aset_other; auto.
Qed.

Lemma map_ws_pres st (F : N -> wstate -> wstate) P :
  (forall k w, winv st w -> winv st (F k w) /\ forall o, holds_w st w o -> holds_w st (F k w) o) ->
  P_inv st P ->
  P_inv st (map (fun kw => (fst kw, F (fst kw) (snd kw))) P) /\
  forall x, holds_P st P x -> holds_P st (map (fun kw => (fst kw, F (fst kw) (snd kw))) P) x.
Proof.
  intros HF PI.
  assert (G : forall k, aget (map (fun kw => (fst kw, F (fst kw) (snd kw))) P) k = option_map (F k) (aget P k)).
  { intro k. apply (kget_map_keys N.eqb N.eqb_eq). auto. }
  split.
  - intros k w A. rewrite G in A. destruct (aget P k) eqn:E; [|discriminate]. injection A as <-. apply HF; eauto.
  - intros x (k & w & A & HW). exists k, (F k w). rewrite G, A. split; auto. apply HF; eauto.
Qed.

Lemma run_op_pres st P o : store_wf st -> op_ok st o -> P_inv st P ->
  P_inv st (fst (run_op st P o)) /\
  (bob_op o -> forall x, holds_P st P x -> holds_P st (fst (run_op st P o)) x).
Proof.
  intros W OK PI. destruct o as [cc up specs|used| |k d u]; simpl in *.
  - destruct OK as [UO OK]. destruct (build_all st up cc specs P) as [P' os] eqn:B. simpl.
    destruct (build_all_pres _ _ _ _ _ _ _ W UO OK PI B). auto.
  - destruct (map_ws_pres st (fun k w => clean_src_one st (memN k used) w) P); auto using clean_src_pres.
  - destruct (map_ws_pres st (fun _ w => clean_attic_one st w) P); auto using clean_attic_pres.
  - split; [|contradiction].
    destruct (pget (w_nodes (getw P k)) d) as [[g|f]|] eqn:PG; simpl; auto.
    apply P_inv_aset; auto. destruct (getw_inv st P k PI). set (w := getw P k) in *.
    constructor; simpl; auto.
    + intros p x H. rewrite pget_map_replace in H. destruct (pget (w_nodes w) p) eqn:E; [|discriminate].
      destruct (path_eqb p d) eqn:Q.
      * injection H as <-. apply path_eqb_spec in Q. subst p. destruct (wi_rec0 _ _ PG) as [GI R].
        split; [apply user_op_ginv, GI|exact R].
      * injection H as ->. apply (wi_rec0 _ _ E).
    + intros EX p. rewrite pget_map_replace, (wi_gone0 EX p). auto.
Qed.

Lemma run_ops_app : forall st ops1 ops2 P, run_ops st P (ops1 ++ ops2) = run_ops st (run_ops st P ops1) ops2.
Proof. induction ops1; simpl; auto. Qed.

Theorem run_ops_pres : forall st ops P, store_wf st -> Forall (op_ok st) ops -> P_inv st P ->
  P_inv st (run_ops st P ops) /\
  (Forall bob_op ops -> forall x, holds_P st P x -> holds_P st (run_ops st P ops) x).
Proof.
  induction ops as [|o ops IH]; intros P W F PI; simpl; auto.
  apply Forall_cons_iff in F. destruct F as [F1 F2]. destruct (run_op_pres st P o W F1 PI) as [PI1 HP1].
  destruct (IH _ W F2 PI1) as [PI2 HP2]. split; auto.
  intros B x H. apply Forall_cons_iff in B. destruct B. auto.
Qed.
