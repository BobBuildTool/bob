(* C12 — the modelled git operations, GitScm.invoke and GitScm.switch keep the
   user's objects; an expendable git directory holds none.  Each local operation
   is unfolded once (its _inv lemma) and is a move of HEAD (move_pres); invoke
   and switch are chains of such moves (gsafe). *)
From Coq Require Import List NArith Bool.
Require BobV.Common.ListFacts.
Require Import BobV.Common.Cases BobV.C12.Model.
Import ListNotations.
Open Scope N_scope.

Section Assoc.
  Context {K V : Type} (e : K -> K -> bool).
  Hypothesis e_spec : forall a b, e a b = true <-> a = b.
  Implicit Types (l : list (K * V)) (k : K) (v : V).

  Lemma e_refl k : e k k = true.
  Proof. apply e_spec. reflexivity. Qed.

  Lemma e_neq k k' : k <> k' -> e k k' = false.
  Proof. intro N. destruct (e k k') eqn:E; auto. apply e_spec in E. contradiction. Qed.

  Lemma kget_kdel_same l k : kget e (kdel e l k) k = None.
  Proof.
    induction l as [|[k' v] l IH]; simpl; auto.
    destruct (e k' k) eqn:E; auto. simpl. rewrite E. auto.
  Qed.

  Lemma kget_kdel_other l k k' : k <> k' -> kget e (kdel e l k) k' = kget e l k'.
  Proof.
    intro N. induction l as [|[k0 v] l IH]; simpl; auto.
    destruct (e k0 k) eqn:E.
    - apply e_spec in E. subst k0. rewrite (e_neq _ _ N). auto.
    - simpl. destruct (e k0 k'); auto.
  Qed.

  Lemma kget_kset_same l k v : kget e (kset e l k v) k = Some v.
  Proof. simpl. rewrite e_refl. reflexivity. Qed.

  Lemma kget_kset_other l k v k' : k <> k' -> kget e (kset e l k v) k' = kget e l k'.
  Proof. intro N. simpl. rewrite (e_neq _ _ N). apply kget_kdel_other; auto. Qed.

  Lemma kget_In l k v : kget e l k = Some v -> In (k, v) l.
  Proof.
    induction l as [|[k' v'] l IH]; simpl; intro H; try discriminate.
    destruct (e k' k) eqn:E; auto.
    apply e_spec in E. injection H as <-. subst. auto.
  Qed.

  Lemma In_kget_nodup l k v : NoDup (map fst l) -> In (k, v) l -> kget e l k = Some v.
  Proof.
    induction l as [|[k' v'] l IH]; simpl; intros ND H; try contradiction.
    apply NoDup_cons_iff in ND. destruct ND as [NI ND]. destruct H as [H|H].
    - injection H as -> ->. rewrite e_refl. auto.
    - destruct (e k' k) eqn:E; auto.
      apply e_spec in E. subst. exfalso. apply NI. apply in_map_iff. exists (k, v). auto.
  Qed.

  Lemma In_kdel l k x : In x (kdel e l k) -> In x l /\ fst x <> k.
  Proof.
    induction l as [|[k' v] l IH]; simpl; intro H; try contradiction.
    destruct (e k' k) eqn:E.
    - destruct (IH H). auto.
    - destruct H as [<-|H]; [|destruct (IH H); auto].
      split; auto. simpl. intros ->. rewrite e_refl in E. discriminate.
  Qed.

  Lemma In_kset l k v x : In x (kset e l k v) -> x = (k, v) \/ In x l.
  Proof. intros [H|H]; auto. right. apply (In_kdel _ _ _ H). Qed.

  Lemma kdel_keys l k x : In x (map fst (kdel e l k)) -> In x (map fst l) /\ x <> k.
  Proof.
    intro H. apply in_map_iff in H. destruct H as (y & <- & H). apply In_kdel in H. destruct H as [I NE].
    split; [apply in_map; exact I|exact NE].
  Qed.

  Lemma NoDup_kdel l k : NoDup (map fst l) -> NoDup (map fst (kdel e l k)).
  Proof.
    induction l as [|[k' v] l IH]; simpl; intro H; auto.
    apply NoDup_cons_iff in H. destruct H as [NI ND]. destruct (e k' k); auto.
    simpl. constructor; auto. intro J. apply kdel_keys in J. destruct J; auto.
  Qed.

  Lemma NoDup_kset l k v : NoDup (map fst l) -> NoDup (map fst (kset e l k v)).
  Proof.
    intro H. simpl. constructor; [|apply NoDup_kdel; auto].
    intro J. apply kdel_keys in J. destruct J; auto.
  Qed.

  Lemma kget_filter_neg (F : K -> bool) l k :
    kget e (filter (fun kv => negb (F (fst kv))) l) k = if F k then None else kget e l k.
  Proof.
    induction l as [|[k' v] l IH]; simpl.
    - destruct (F k); auto.
    - destruct (e k' k) eqn:E.
      + apply e_spec in E. subst k'. destruct (F k); simpl; [|rewrite e_refl]; auto.
      + destruct (F k'); simpl; [|rewrite E]; apply IH.
  Qed.

  Lemma kget_map_keys (f : K * V -> K * V) l k :
    (forall x, fst (f x) = fst x) ->
    kget e (map f l) k = option_map (fun v => snd (f (k, v))) (kget e l k).
  Proof.
    intro F. induction l as [|[k' v] l IH]; simpl; auto.
    specialize (F (k', v)). destruct (f (k', v)) as [k1 v1] eqn:Fx. simpl in F. subst k1.
    destruct (e k' k) eqn:E; auto. apply e_spec in E. subst. simpl. rewrite Fx. auto.
  Qed.

  Lemma kget_map_replace l d n k :
    kget e (map (fun pn => if e (fst pn) d then (d, n) else pn) l) k =
    match kget e l k with
    | Some v => if e k d then Some n else Some v
    | None => None
    end.
  Proof.
    rewrite kget_map_keys.
    - destruct (kget e l k); simpl; auto. destruct (e k d); auto.
    - intros [k' v]. simpl. destruct (e k' d) eqn:E; auto. apply e_spec in E. auto.
  Qed.

  Lemma kget_app l1 l2 k :
    kget e (l1 ++ l2) k = match kget e l1 k with Some v => Some v | None => kget e l2 k end.
  Proof. induction l1 as [|[k' v] l1 IH]; simpl; auto. destruct (e k' k); auto. Qed.
End Assoc.

Lemma path_eqb_spec : forall a b : path, path_eqb a b = true <-> a = b.
Proof. exact ListFacts.eqb_str_eq. Qed.

Lemma path_eqb_refl p : path_eqb p p = true.
Proof. apply path_eqb_spec. reflexivity. Qed.

Lemma path_eqb_neq p q : p <> q -> path_eqb p q = false.
Proof. apply (e_neq path_eqb path_eqb_spec). Qed.

Lemma oeqb_spec : forall a b : option N, oeqb a b = true <-> a = b.
Proof.
  intros [a|] [b|]; simpl; split; intro H; try discriminate; auto.
  - apply N.eqb_eq in H. subst. auto.
  - injection H as ->. apply N.eqb_refl.
Qed.

Lemma aget_aset_same V (l : list (N * V)) k v : aget (aset l k v) k = Some v.
Proof. apply (kget_kset_same N.eqb N.eqb_eq). Qed.

Lemma aget_aset_other V (l : list (N * V)) k v k' : k <> k' -> aget (aset l k v) k' = aget l k'.
Proof. intros. apply (kget_kset_other N.eqb N.eqb_eq); auto. Qed.

Lemma aget_In V (l : list (N * V)) k v : aget l k = Some v -> In (k, v) l.
Proof. apply (kget_In N.eqb N.eqb_eq). Qed.

Lemma aget_notin V (l : list (N * V)) k : ~ In k (map fst l) -> aget l k = None.
Proof.
  intros H. destruct (aget l k) eqn:E; auto.
  exfalso. apply H. apply (in_map fst _ _ (aget_In _ _ _ _ E)).
Qed.

Lemma In_aget_weak : forall (l : list (N * cid)) b c, In (b, c) l -> exists c', aget l b = Some c'.
Proof.
  unfold aget. induction l as [|[b' c'] l IH]; simpl; intros b c H; [contradiction|].
  destruct (N.eqb_spec b' b) as [E|NE]; [eauto|]. destruct H as [[= -> _]|H]; [contradiction|eauto].
Qed.

Lemma memN_In : forall x l, memN x l = true <-> In x l.
Proof. exact (ListFacts.mem_In _ _ N.eqb_spec). Qed.

Lemma nodupN_In : forall x l, In x (nodupN l) <-> In x l.
Proof.
  induction l as [|y l IH]; simpl; [reflexivity|].
  destruct (memN y l) eqn:M.
  - rewrite IH. split; auto. intros [H|H]; auto. subst. apply memN_In. auto.
  - simpl. rewrite IH. reflexivity.
Qed.

Inductive Reach (st : store) : cid -> cid -> Prop :=
| R_refl : forall c, Reach st c c
| R_step : forall c cm p a, getc st c = Some cm -> c_parent cm = Some p -> Reach st p a -> Reach st c a.

Lemma Reach_trans st a b c : Reach st a b -> Reach st b c -> Reach st a c.
Proof.
  intros H. induction H; intros; auto.
  eapply R_step; eauto.
Qed.

Lemma is_anc_f_sound : forall st fuel a c, is_anc_f st fuel a c = true -> Reach st c a.
Proof.
  induction fuel as [|k IH]; intros a c H; simpl in H;
    (destruct (a =? c) eqn:E; [apply N.eqb_eq in E; subst; constructor|]); try discriminate.
  destruct (getc st c) as [cm|] eqn:G; try discriminate.
  destruct (c_parent cm) as [p|] eqn:P; try discriminate.
  eapply R_step; eauto.
Qed.

Lemma is_anc_sound st a c : is_anc st a c = true -> Reach st c a.
Proof. apply is_anc_f_sound. Qed.

(* commits of the upstream world / commits the user made locally *)
Definition upc (st : store) (c : cid) : Prop := exists cm, getc st c = Some cm /\ c_user cm = false.
Definition userc (st : store) (c : cid) : Prop := exists cm, getc st c = Some cm /\ c_user cm = true.

(* the history of an upstream commit consists of upstream commits *)
Definition store_wf (st : store) : Prop :=
  forall c cm p, getc st c = Some cm -> c_user cm = false -> c_parent cm = Some p -> upc st p.

Lemma upc_not_userc st c : upc st c -> userc st c -> False.
Proof. intros [cm [G U]] [cm' [G' U']]. congruence. Qed.

Lemma reach_upc st : store_wf st -> forall c a, Reach st c a -> upc st c -> upc st a.
Proof.
  intros W c a H. induction H; intros U; auto.
  apply IHReach. destruct U as [cm' [G' U']]. rewrite H in G'. injection G' as <-. eapply W; eauto.
Qed.

Lemma upc_reach_user st r c : store_wf st -> upc st r -> Reach st r c -> userc st c -> False.
Proof. intros W U R. apply upc_not_userc. eapply reach_upc; eauto. Qed.

Lemma co_files_spec ta tb wt fs t f :
  co_files ta tb wt fs = Some t ->
  (In f fs -> file_step ta tb wt f = Some (aget t f)) /\ (~ In f fs -> aget t f = None).
Proof.
  revert t. induction fs as [|g fs IH]; intros t H; simpl in H.
  - injection H as <-. split; [contradiction|reflexivity].
  - destruct (file_step ta tb wt g) as [rg|] eqn:Sg; try discriminate.
    destruct (co_files ta tb wt fs) as [t'|]; [|destruct rg; discriminate].
    destruct (IH t' eq_refl) as [IH1 IH2].
    assert (T : aget t f = if g =? f then match rg with Some c => Some c | None => aget t' f end else aget t' f).
    { destruct rg; injection H as <-; unfold aget; simpl; destruct (g =? f); auto. }
    rewrite T. simpl. destruct (N.eqb_spec g f) as [->|NE].
    + split; [intros _|intros X; destruct X; auto]. rewrite Sg. destruct rg; auto.
      (* deleted here: a second occurrence further down deletes it again *)
      destruct (in_dec N.eq_dec f fs) as [I|I]; [rewrite <- (IH1 I)|rewrite (IH2 I)]; auto.
    + split; [intros [E|I]; [contradiction|auto]|intros X; apply IH2; intro I; apply X; auto].
Qed.

Lemma checkout_wt_spec ta tb wt wt' f :
  checkout_wt ta tb wt = Some wt' -> file_step ta tb wt f = Some (aget wt' f).
Proof.
  intros H. destruct (co_files_spec _ _ _ _ _ f H) as [S1 S2].
  destruct (in_dec N.eq_dec f (names3 ta tb wt)) as [I|I]; auto.
  rewrite (S2 I). unfold names3 in I. rewrite nodupN_In, !in_app_iff in I.
  unfold file_step. rewrite !aget_notin by (intro J; apply I; auto). reflexivity.
Qed.

Lemma checkout_wt_keeps ta tb wt wt' f b :
  checkout_wt ta tb wt = Some wt' ->
  aget wt f = Some b -> aget ta f <> Some b ->
  aget wt' f = Some b /\ aget tb f <> Some b.
Proof.
  intros H W A. pose proof (checkout_wt_spec _ _ _ _ f H) as S.
  unfold file_step in S. rewrite W in S.
  destruct (oeqb (aget ta f) (aget tb f)) eqn:E1.
  - apply oeqb_spec in E1. injection S as S. split; congruence.
  - destruct (oeqb (Some b) (aget ta f)) eqn:E2; try discriminate.
    apply oeqb_spec in E2. congruence.
Qed.

Definition tree_equiv (a b : tree) : Prop := forall f, aget a f = aget b f.

Lemma checkout_wt_clean ta tb wt wt' :
  checkout_wt ta tb wt = Some wt' -> tree_equiv wt ta -> tree_equiv wt' tb.
Proof.
  intros H Q f. pose proof (checkout_wt_spec _ _ _ _ f H) as S.
  unfold file_step in S. rewrite (Q f) in S.
  destruct (oeqb (aget ta f) (aget tb f)) eqn:E1.
  - apply oeqb_spec in E1. congruence.
  - rewrite (proj2 (oeqb_spec _ _) eq_refl) in S. congruence.
Qed.

Definition local_ref (g : gitws) (r : cid) : Prop :=
  (exists b, aget (g_branches g) b = Some r) \/ g_head g = HDetached r.

Inductive uobj := OCommit (c : cid) | OFile (f b : N).

(* a user commit is held when a local branch or the detached HEAD reaches it; a
   file content is held when it is in the work tree and not what HEAD has there *)
Definition holds_g (st : store) (g : gitws) (o : uobj) : Prop :=
  match o with
  | OCommit c => userc st c /\ exists r, local_ref g r /\ Reach st r c
  | OFile f b => aget (g_wt g) f = Some b /\ aget (head_tree st g) f <> Some b
  end.

Definition gpres (st : store) (g g' : gitws) : Prop := forall o, holds_g st g o -> holds_g st g' o.

Lemma gpres_refl st g : gpres st g g.
Proof. intros o H. exact H. Qed.

Lemma gpres_trans st a b c : gpres st a b -> gpres st b c -> gpres st a c.
Proof. intros H1 H2 o H. auto. Qed.

Definition up_refs (st : store) (g : gitws) : Prop :=
  (forall b c, In (b, c) (g_remotes g) -> upc st c) /\
  (forall t c, In (t, c) (g_tags g) -> upc st c).

Definition up_ok (st : store) (up : upstream) : Prop :=
  forall u r, aget (up_git up) u = Some r ->
    (forall b c, aget (u_branches r) b = Some c -> upc st c) /\
    (forall t c, aget (u_tags r) t = Some c -> upc st c).

(* a commit pinned by a recipe is an upstream commit: the detached-HEAD rule of GitScm.switch moves a HEAD that
   sits on one (switch_guard_safe), and only from an upstream commit is that without loss (hsafe) *)
Definition rev_ok (st : store) (r : gitrev) : Prop :=
  match rev_commit r with Some c => upc st c | None => True end.

(* HEAD can be moved without loss: it is on a branch, or detached on an upstream
   commit, from which no commit of the user is reached *)
Definition hsafe (st : store) (g : gitws) : Prop :=
  match g_head g with HDetached d => upc st d | HBranch _ => True end.

Lemma hsafe_on_branch st g b : g_head g = HBranch b -> hsafe st g.
Proof. intros H. unfold hsafe. rewrite H. exact I. Qed.

Lemma hsafe_unborn st g : head_valid g = false -> hsafe st g.
Proof.
  intros H. unfold hsafe. unfold head_valid, head_commit in H.
  destruct (g_head g); auto. discriminate.
Qed.

Definition head_of (br : list (N * cid)) (h : head) : option cid :=
  match h with HBranch b => aget br b | HDetached c => Some c end.

Lemma head_tree_with_co : forall st g br h wt,
  head_tree st (with_co g br h wt) = tree_of st (head_of br h).
Proof. reflexivity. Qed.

Definition br_keeps (st : store) (br br' : list (N * cid)) : Prop :=
  forall b r c, aget br b = Some r -> Reach st r c -> userc st c ->
    exists b' r', aget br' b' = Some r' /\ Reach st r' c.

Lemma br_keeps_refl st br : br_keeps st br br.
Proof. intros b r c B R _. eauto. Qed.

Lemma br_keeps_aset st br b t :
  (forall r c, aget br b = Some r -> Reach st r c -> userc st c ->
     exists b' r', aget (aset br b t) b' = Some r' /\ Reach st r' c) ->
  br_keeps st br (aset br b t).
Proof.
  intros H b0 r c B R U. destruct (N.eq_dec b b0) as [->|NE]; [eauto|].
  exists b0, r. rewrite aget_aset_other; auto.
Qed.

Lemma move_pres st g t wt' br h :
  store_wf st -> hsafe st g ->
  move_wt st g t = Some wt' -> head_of br h = Some t -> br_keeps st (g_branches g) br ->
  gpres st g (with_co g br h wt').
Proof.
  intros W S M Hh K [c|f b] Ho; simpl in *.
  - destruct Ho as [U (r & [[b B]|D] & R)].
    + destruct (K _ _ _ B R U) as (b' & r' & B' & R'). split; auto. exists r'. split; auto. left. eauto.
    + unfold hsafe in S. rewrite D in S. destruct (upc_reach_user st r c); auto.
  - destruct Ho as [A N]. rewrite head_tree_with_co, Hh. eapply checkout_wt_keeps; eauto.
Qed.

(* what a local operation leaves alone; the last clause is the part of ginv it can touch, so that a frame
   carries ginv (frame_ginv) *)
Definition frame (g g' : gitws) : Prop :=
  g_remotes g' = g_remotes g /\ g_tags g' = g_tags g /\ g_url g' = g_url g /\ g_objs g' = g_objs g /\
  (NoDup (map fst (g_branches g)) -> NoDup (map fst (g_branches g'))).

Lemma frame_refl : forall g, frame g g.
Proof. intro. repeat split; auto. Qed.

Lemma frame_trans : forall a b c, frame a b -> frame b c -> frame a c.
Proof.
  intros a b c (A1 & A2 & A3 & A4 & A5) (B1 & B2 & B3 & B4 & B5).
  repeat split; try congruence. auto.
Qed.

Lemma frame_with_co_same g h wt : frame g (with_co g (g_branches g) h wt).
Proof. repeat split; auto. Qed.

Lemma frame_with_co_aset g b c h wt : frame g (with_co g (aset (g_branches g) b c) h wt).
Proof. repeat split; auto. apply (NoDup_kset N.eqb N.eqb_eq). Qed.

(* reset --keep behind the "contains" guard: the guard is evaluated on refs as
   listed (all entries); an entry that is shadowed cannot occur in a state that
   git can be in, so we ask the key lists to be duplicate free. *)
Definition refs_nodup (g : gitws) : Prop :=
  NoDup (map fst (g_branches g)) /\ NoDup (map fst (g_remotes g)).

(* assumed of every git work space and handed on by every operation: the refs Bob compares HEAD with are
   upstream commits *)
Definition ginv (st : store) (g : gitws) : Prop := up_refs st g /\ refs_nodup g.

Lemma frame_ginv st g g' : frame g g' -> ginv st g -> ginv st g'.
Proof.
  intros (F1 & F2 & F3 & F4 & F5) [[U1 U2] [N1 N2]]. unfold ginv, up_refs, refs_nodup.
  rewrite F1, F2. repeat split; auto.
Qed.

(* one git operation or a chain of them, failing ones included: the user's objects are kept and ginv is handed
   on to the next (gsafe_trans) *)
Definition gsafe (st : store) (g g' : gitws) : Prop := gpres st g g' /\ (ginv st g -> ginv st g').

Lemma gsafe_refl st g : gsafe st g g.
Proof. split; [apply gpres_refl|auto]. Qed.

Lemma gsafe_trans st a b c : gsafe st a b -> gsafe st b c -> gsafe st a c.
Proof. intros [P1 I1] [P2 I2]. split; [eapply gpres_trans; eauto|auto]. Qed.

Lemma gsafe_ginv {st g g'} : gsafe st g g' -> ginv st g -> gpres st g g' /\ ginv st g'.
Proof. intros [P I] GI. auto. Qed.

Lemma gsafe_ret st g g' (ok ok' : bool) : (g, ok) = (g', ok') -> gsafe st g g'.
Proof. intros [= <- _]. apply gsafe_refl. Qed.

Lemma frame_gsafe st g g' : gpres st g g' -> frame g g' -> gsafe st g g'.
Proof. intros P F. split; [exact P|apply frame_ginv; exact F]. Qed.

Definition same_local (g g' : gitws) : Prop :=
  g_branches g' = g_branches g /\ g_head g' = g_head g /\ g_wt g' = g_wt g.

Lemma same_local_gpres st g g' : same_local g g' -> gpres st g g'.
Proof.
  intros (B & H & W) [c|f b]; simpl; unfold local_ref, head_tree, head_commit; rewrite B, H; [|rewrite W]; auto.
Qed.

Lemma same_local_hsafe st g g' : same_local g g' -> hsafe st g -> hsafe st g'.
Proof. intros (B & H & W) S. unfold hsafe in *. rewrite H. auto. Qed.

Lemma same_local_head_valid g g' : same_local g g' -> head_valid g' = head_valid g.
Proof. intros (B & H & W). unfold head_valid, head_commit. rewrite B, H. auto. Qed.

Lemma with_url_safe st g u : same_local g (with_url g u) /\ gsafe st g (with_url g u).
Proof.
  assert (SL : same_local g (with_url g u)) by (repeat split).
  split; [exact SL|]. split; [apply same_local_gpres, SL|].
  intros [[U1 U2] [N1 N2]]; repeat split; auto.
Qed.

Lemma co_new_branch_inv {st g b s g' ok} : co_new_branch st g b s = (g', ok) ->
  if ok then exists c wt', s = Some c /\ aget (g_branches g) b = None /\ move_wt st g c = Some wt' /\
                           g' = with_co g (aset (g_branches g) b c) (HBranch b) wt'
  else g' = g.
Proof.
  unfold co_new_branch.
  destruct s as [c|]; [destruct (aget (g_branches g) b); [|destruct (move_wt st g c) as [wt'|] eqn:M]|];
    intros [= <- <-]; auto. exists c, wt'. auto.
Qed.

Lemma co_branch_inv {st g b g' ok} : co_branch st g b = (g', ok) ->
  if ok then exists c wt', aget (g_branches g) b = Some c /\ move_wt st g c = Some wt' /\
                           g' = with_co g (g_branches g) (HBranch b) wt'
  else g' = g.
Proof.
  unfold co_branch.
  destruct (aget (g_branches g) b) as [c|]; [destruct (move_wt st g c) as [wt'|] eqn:M|];
    intros [= <- <-]; auto. exists c, wt'. auto.
Qed.

Lemma co_detach_inv {st g oc g' ok} : co_detach st g oc = (g', ok) ->
  if ok then exists c wt', oc = Some c /\ move_wt st g c = Some wt' /\
                           g' = with_co g (g_branches g) (HDetached c) wt'
  else g' = g.
Proof.
  unfold co_detach.
  destruct oc as [c|]; [destruct (move_wt st g c) as [wt'|] eqn:M|]; intros [= <- <-]; auto.
  exists c, wt'. auto.
Qed.

Lemma merge_ff_inv {st g b g' ok} : merge_ff st g b = (g', ok) ->
  if ok then exists t hb h, aget (g_remotes g) b = Some t /\ g_head g = HBranch hb /\ aget (g_branches g) hb = Some h /\
               ((is_anc st t h = true /\ g' = g) \/
                (is_anc st h t = true /\ exists wt', move_wt st g t = Some wt' /\
                                           g' = with_co g (aset (g_branches g) hb t) (HBranch hb) wt'))
  else g' = g.
Proof.
  unfold merge_ff.
  destruct (aget (g_remotes g) b) as [t|]; [|intros [= <- <-]; auto].
  destruct (g_head g) as [hb|d]; [|intros [= <- <-]; auto].
  destruct (aget (g_branches g) hb) as [h|] eqn:B; [|intros [= <- <-]; auto].
  destruct (is_anc st t h) eqn:A1; [intros [= <- <-]; exists t, hb, h; auto 6|].
  destruct (is_anc st h t) eqn:A2; [|intros [= <- <-]; auto].
  destruct (move_wt st g t) as [wt'|] eqn:M; intros [= <- <-]; [|reflexivity].
  exists t, hb, h. repeat split; auto. right. eauto.
Qed.

Lemma reset_keep_inv {st g c g' ok} : reset_keep st g c = (g', ok) ->
  if ok then exists hb wt', g_head g = HBranch hb /\ move_wt st g c = Some wt' /\
                            g' = with_co g (aset (g_branches g) hb c) (HBranch hb) wt'
  else g' = g.
Proof.
  unfold reset_keep.
  destruct (g_head g) as [hb|d]; [destruct (move_wt st g c) as [wt'|] eqn:M|]; intros [= <- <-]; auto.
  exists hb, wt'. auto.
Qed.

Lemma co_new_branch_frame st g b s g' ok : co_new_branch st g b s = (g', ok) -> frame g g'.
Proof.
  intros H. apply co_new_branch_inv in H.
  destruct ok; [destruct H as (c & wt' & _ & _ & _ & ->); apply frame_with_co_aset|subst; apply frame_refl].
Qed.

Lemma co_branch_frame st g b g' ok : co_branch st g b = (g', ok) -> frame g g'.
Proof.
  intros H. apply co_branch_inv in H.
  destruct ok; [destruct H as (c & wt' & _ & _ & ->); apply frame_with_co_same|subst; apply frame_refl].
Qed.

Lemma co_detach_frame st g oc g' ok : co_detach st g oc = (g', ok) -> frame g g'.
Proof.
  intros H. apply co_detach_inv in H.
  destruct ok; [destruct H as (c & wt' & _ & _ & ->); apply frame_with_co_same|subst; apply frame_refl].
Qed.

Lemma co_new_branch_safe st g b s g' ok :
  store_wf st -> hsafe st g -> co_new_branch st g b s = (g', ok) -> gsafe st g g'.
Proof.
  intros W S H. apply frame_gsafe; [|eapply co_new_branch_frame; eauto].
  apply co_new_branch_inv in H. destruct ok; [|subst; apply gpres_refl].
  destruct H as (c & wt' & _ & B & M & ->).
  eapply move_pres; eauto; [apply aget_aset_same|].
  apply br_keeps_aset. congruence.
Qed.

Lemma co_branch_safe st g b g' ok :
  store_wf st -> hsafe st g -> co_branch st g b = (g', ok) -> gsafe st g g'.
Proof.
  intros W S H. apply frame_gsafe; [|eapply co_branch_frame; eauto].
  apply co_branch_inv in H. destruct ok; [|subst; apply gpres_refl].
  destruct H as (c & wt' & B & M & ->). eapply move_pres; eauto. apply br_keeps_refl.
Qed.

Lemma co_detach_safe st g oc g' ok :
  store_wf st -> hsafe st g -> co_detach st g oc = (g', ok) -> gsafe st g g'.
Proof.
  intros W S H. apply frame_gsafe; [|eapply co_detach_frame; eauto].
  apply co_detach_inv in H. destruct ok; [|subst; apply gpres_refl].
  destruct H as (c & wt' & _ & M & ->). eapply move_pres; eauto. apply br_keeps_refl.
Qed.

Lemma merge_ff_safe st g b g' ok : store_wf st -> merge_ff st g b = (g', ok) -> gsafe st g g'.
Proof.
  intros W H. apply merge_ff_inv in H. destruct ok; [|subst; apply gsafe_refl].
  destruct H as (t & hb & h & _ & Hd & B & [[_ ->]|(A & wt' & M & ->)]); [apply gsafe_refl|].
  apply frame_gsafe; [|apply frame_with_co_aset].
  eapply move_pres; eauto; [eapply hsafe_on_branch; eauto|apply aget_aset_same|].
  (* what hung on the old tip hangs on the new one *)
  apply br_keeps_aset. intros r c B0 R _. exists hb, t. rewrite aget_aset_same. split; auto.
  apply is_anc_sound in A. eapply Reach_trans; eauto. congruence.
Qed.

Lemma reset_keep_safe st g c g' ok :
  store_wf st -> ginv st g -> contains_other st g = true -> reset_keep st g c = (g', ok) -> gsafe st g g'.
Proof.
  intros W [[U1 _] [ND _]] G H. apply reset_keep_inv in H. destruct ok; [|subst; apply gsafe_refl].
  destruct H as (hb & wt' & Hd & M & ->). apply frame_gsafe; [|apply frame_with_co_aset].
  eapply move_pres; eauto; [eapply hsafe_on_branch; eauto|apply aget_aset_same|].
  (* the commits hanging on the branch being reset: another ref contains HEAD *)
  apply br_keeps_aset. intros r uc B R Uc.
  unfold contains_other, head_commit in G. rewrite Hd, B in G.
  apply orb_true_iff in G. destruct G as [G|G]; apply existsb_exists in G; destruct G as [[b' c'] [I G]]; simpl in G.
  - apply andb_true_iff in G. destruct G as [G1 G2]. apply negb_true_iff, N.eqb_neq in G1.
    exists b', c'. split.
    + rewrite aget_aset_other; auto. apply (In_kget_nodup N.eqb N.eqb_eq); auto.
    + eapply Reach_trans; [apply is_anc_sound; eauto|]. auto.
  - destruct (upc_reach_user st c' uc); eauto.
    eapply Reach_trans; [apply is_anc_sound; eauto|]. auto.
Qed.

(* up_ok on the entries as listed, not as looked up: fetch copies the upstream's lists whole into the work
   space, where ginv speaks of every entry *)
Definition up_ok' (st : store) (up : upstream) : Prop :=
  forall u r, aget (up_git up) u = Some r ->
    (forall b c, In (b, c) (u_branches r) -> upc st c) /\
    (forall t c, In (t, c) (u_tags r) -> upc st c) /\
    NoDup (map fst (u_branches r)).

Lemma follow_tags_In st objs rtags tags x :
  In x (follow_tags st objs rtags tags) -> In x tags \/ In x rtags.
Proof.
  induction rtags as [|[t0 c0] r IH]; simpl; auto.
  destruct (is_some (aget (follow_tags st objs r tags) t0)); [intro H; destruct (IH H); auto|].
  destruct (has_obj st objs c0); [|intro H; destruct (IH H); auto].
  intro H. apply (In_kset N.eqb N.eqb_eq) in H. destruct H as [->|H]; auto. destruct (IH H); auto.
Qed.

Lemma fetch_inv {st up g tag g' ok} : fetch st up g tag = (g', ok) ->
  (ok = false /\ g' = g) \/
  exists ur objs tags, aget (up_git up) (g_url g) = Some ur /\
    g' = with_fetch g objs (u_branches ur) (follow_tags st objs (u_tags ur) tags) /\
    (forall t c, In (t, c) tags -> In (t, c) (g_tags g) \/ In (t, c) (u_tags ur)) /\
    (ok = true -> forall t, tag = Some t -> exists c, aget (u_tags ur) t = Some c /\ aget tags t = Some c).
Proof.
  unfold fetch. destruct (aget (up_git up) (g_url g)) as [ur|]; [|intros [= <- <-]; auto].
  destruct tag as [t|].
  - destruct (aget (u_tags ur) t) as [c|] eqn:T; [|intros [= <- <-]; auto].
    destruct (aget (g_tags g) t) as [c'|] eqn:T'; intros [= <- <-]; right; exists ur; do 2 eexists;
      (split; [reflexivity|]); (split; [reflexivity|]); split; auto.
    + intros E t0 [= <-]. apply N.eqb_eq in E. subst c'. eauto.
    + intros t0 c0 I. apply (In_kset N.eqb N.eqb_eq) in I. destruct I as [[= -> ->]|I]; auto.
      right. apply aget_In. exact T.
    + intros _ t0 [= <-]. exists c. split; auto. apply aget_aset_same.
  - intros [= <- <-]. right. exists ur. do 2 eexists. repeat split; auto. discriminate.
Qed.

Lemma fetch_safe {st up g tag g' ok} :
  up_ok' st up -> ginv st g -> fetch st up g tag = (g', ok) -> same_local g g' /\ gsafe st g g'.
Proof.
  intros UO GI H.
  assert (K : same_local g g' /\ ginv st g').
  { destruct GI as [[U1 U2] [N1 N2]].
    destruct (fetch_inv H) as [[_ ->]|(ur & objs & tags & R & -> & TG & _)]; [repeat split; auto|].
    destruct (UO _ _ R) as (UB & UT & UN). repeat split; simpl; auto.
    intros t c I. destruct (follow_tags_In _ _ _ _ _ I) as [I'|I']; [destruct (TG _ _ I')|]; eauto. }
  destruct K as [SL GI']. split; auto. split; [apply same_local_gpres|]; auto.
Qed.

Lemma checkout_branch_safe st up g b switch g' ok :
  store_wf st -> up_ok' st up -> ginv st g -> (switch = true -> hsafe st g) ->
  checkout_branch st up g b switch = (g', ok) -> gsafe st g g'.
Proof.
  intros W UO GI HS H. unfold checkout_branch in H.
  destruct (fetch st up g None) as [g1 ok1] eqn:F.
  destruct (fetch_safe UO GI F) as [SL K1].
  eapply gsafe_trans; [exact K1|].
  destruct ok1; cbn [negb] in H; [|eapply gsafe_ret; eauto].
  destruct (head_valid g1) eqn:HV; cbn [negb] in H; [|eapply co_new_branch_safe; eauto using hsafe_unborn].
  destruct switch.
  - assert (S1 : hsafe st g1) by (eapply same_local_hsafe; eauto).
    destruct (aget (g_branches g1) b); [|eapply co_new_branch_safe; eauto].
    destruct (co_branch st g1 b) as [g2 ok2] eqn:C.
    eapply gsafe_trans; [eapply co_branch_safe; eauto|].
    destruct ok2; [eapply merge_ff_safe|eapply gsafe_ret]; eauto.
  - destruct (g_head g1) as [hb|d]; [destruct (hb =? b)|]; try (eapply gsafe_ret; eauto; fail).
    eapply merge_ff_safe; eauto.
Qed.

Lemma checkout_tag_safe st up g r switch g' ok :
  store_wf st -> up_ok' st up -> ginv st g -> (switch = true -> hsafe st g) ->
  checkout_tag st up g r switch = (g', ok) -> gsafe st g g'.
Proof.
  intros W UO GI HS H. unfold checkout_tag in H.
  destruct (negb (head_valid g) || switch) eqn:C; [|eapply gsafe_ret; eauto].
  assert (S : hsafe st g).
  { apply orb_true_iff in C. destruct C as [C|C]; auto.
    apply hsafe_unborn. apply negb_true_iff in C. auto. }
  destruct (fetch st up g (rev_tag r)) as [g1 ok1] eqn:F.
  destruct (fetch_safe UO GI F) as [SL K1].
  eapply gsafe_trans; [exact K1|].
  destruct ok1; cbn [negb] in H; [|eapply gsafe_ret; eauto].
  eapply co_detach_safe; eauto using same_local_hsafe.
Qed.

Lemma checkout_tag_on_branch_safe st up g b r switch g' ok :
  store_wf st -> up_ok' st up -> ginv st g -> (switch = true -> hsafe st g) ->
  checkout_tag_on_branch st up g b r switch = (g', ok) -> gsafe st g g'.
Proof.
  intros W UO GI HS H. unfold checkout_tag_on_branch in H.
  destruct (head_valid g && negb switch) eqn:C0; [eapply gsafe_ret; eauto|].
  assert (S : hsafe st g).
  { destruct (head_valid g) eqn:HV; [|apply hsafe_unborn; auto].
    destruct switch; [auto|discriminate]. }
  (* HEAD already at the target: nothing is done *)
  match type of H with (if ?c then _ else _) = _ => destruct c end; [eapply gsafe_ret; eauto|].
  destruct (fetch st up g (rev_tag r)) as [g1 ok1] eqn:F.
  destruct (fetch_safe UO GI F) as [SL K1].
  eapply gsafe_trans; [exact K1|].
  assert (S1 : hsafe st g1) by (eapply same_local_hsafe; eauto).
  destruct ok1; cbn [negb] in H; [|eapply gsafe_ret; eauto].
  destruct (resolve_rev st g1 r) as [c|]; [|eapply gsafe_ret; eauto].
  destruct (aget (g_remotes g1) b) as [rb|]; [|eapply gsafe_ret; eauto].
  destruct (negb (is_anc st c rb)); [eapply gsafe_ret; eauto|].
  (* no checkout or no such local branch yet: it is created at the target *)
  match type of H with (if ?c then _ else _) = _ => destruct c end; [eapply co_new_branch_safe; eauto|].
  destruct (co_branch st g1 b) as [g2 ok2] eqn:CB.
  pose proof (co_branch_safe _ _ _ _ _ W S1 CB) as K2.
  eapply gsafe_trans; [exact K2|].
  destruct ok2; cbn [negb] in H; [|eapply gsafe_ret; eauto].
  destruct (contains_other st g2) eqn:CO; cbn [negb] in H; [|eapply gsafe_ret; eauto].
  eapply reset_keep_safe; eauto. apply K2, K1, GI.
Qed.

(* hsafe is asked of a switch only: without one Bob moves HEAD only when there is no checkout yet (hsafe_unborn)
   or by a fast-forward of the branch HEAD is on (merge_ff_safe asks nothing), and else leaves the directory alone *)
Theorem git_invoke_safe {st up g url r switch g' ok} :
  store_wf st -> up_ok' st up -> ginv st g -> (switch = true -> hsafe st g) ->
  git_invoke st up g url r switch = (g', ok) -> gsafe st g g'.
Proof.
  intros W UO GI HS H. unfold git_invoke in H.
  destruct (with_url_safe st g url) as [SL K0].
  eapply gsafe_trans; [exact K0|]. apply K0 in GI.
  assert (HS0 : switch = true -> hsafe st (with_url g url)) by (intro; eapply same_local_hsafe; eauto).
  destruct r; [eapply checkout_branch_safe|eapply checkout_tag_safe|eapply checkout_tag_safe|
              eapply checkout_tag_on_branch_safe|eapply checkout_tag_on_branch_safe]; eauto.
Qed.

(* the detached-HEAD rule of GitScm.switch lets only a HEAD that sits on an upstream commit through *)
Lemma switch_guard_safe st g oldr newr :
  up_refs st g -> rev_ok st oldr -> rev_ok st newr -> switch_guard g oldr newr = true -> hsafe st g.
Proof.
  intros [U1 U2] RO RN H. unfold switch_guard in H. unfold hsafe.
  destruct (g_head g) as [b|cur]; auto.
  unfold rev_ok in *.
  match type of H with match ?old with _ => _ end = _ =>
    assert (OLD : forall c, old = Some (Some c) -> upc st c); [|destruct old as [oc|]; [|discriminate]] end.
  { intro c. destruct (rev_commit oldr); [intros [= <-]; auto|].
    destruct (rev_tag oldr) as [t|]; [|discriminate].
    destruct (aget (g_tags g) t) as [c'|] eqn:T; intros [= <-]. apply (U2 t c'). apply aget_In. exact T. }
  apply orb_true_iff in H. destruct H as [H|H]; apply oeqb_spec in H.
  - apply OLD. congruence.
  - rewrite <- H in RN. exact RN.
Qed.

Theorem git_switch_safe {st up g oldr url newr g' ok} :
  store_wf st -> up_ok' st up -> ginv st g -> rev_ok st oldr -> rev_ok st newr ->
  git_switch st up g oldr url newr = (g', ok) -> gsafe st g g'.
Proof.
  intros W UO GI RO RN H. unfold git_switch in H.
  destruct (switch_guard g oldr newr) eqn:SG; [|eapply gsafe_ret; eauto].
  eapply git_invoke_safe; eauto. intros _. exact (switch_guard_safe st g oldr newr (proj1 GI) RO RN SG).
Qed.

Lemma existsb_false {A} {f : A -> bool} {l x} : existsb f l = false -> In x l -> f x = false.
Proof.
  intros H I. destruct (f x) eqn:E; auto.
  rewrite <- H. symmetry. apply existsb_exists. eauto.
Qed.

Lemma wt_clean_of_status st g f b :
  wt_modified st g = false -> aget (g_wt g) f = Some b -> aget (head_tree st g) f = Some b.
Proof.
  intros M A. unfold wt_modified in M.
  destruct (in_dec N.eq_dec f (names3 (head_tree st g) [] (g_wt g))) as [I|I].
  - apply (existsb_false M) in I. apply negb_false_iff, oeqb_spec in I. congruence.
  - unfold names3 in I. rewrite nodupN_In, !in_app_iff in I.
    rewrite aget_notin in A by (intro J; apply I; auto). discriminate.
Qed.

Theorem expendable_no_user_objects st g nv url r o :
  store_wf st -> up_refs st g ->
  s_expendable (git_status st g nv url r) = true ->
  ~ holds_g st g o.
Proof.
  intros W [U1 U2] E Ho. unfold git_status in E.
  destruct (head_commit g) as [h|] eqn:HC; [|discriminate].
  (* of the flags only this matters: HEAD itself is excluded from the unpushed test only
     on the configured branch, and then it is contained in the remote branch *)
  match type of E with context [match ?q with (_, _) => _ end] =>
    assert (Q : forall err sw um onb, q = (err, sw, um, onb) -> onb = true -> um = false -> upc st h) end.
  { clear E Ho. intros err sw um onb Q -> ->.
    destruct r; try discriminate Q.
    destruct (g_head g) as [hb|d]; [|discriminate Q].
    destruct (negb (hb =? b)); [discriminate Q|].
    destruct (aget (g_remotes g) b) as [rb|] eqn:RB; [|discriminate Q].
    injection Q as _ _ Eum. apply negb_false_iff, is_anc_sound in Eum.
    eapply reach_upc; [exact W|exact Eum|]. apply (U1 b rb). apply aget_In. exact RB. }
  match type of E with context [match ?q with (_, _) => _ end] => destruct q as [[[err sw] um] onb] end.
  specialize (Q _ _ _ _ eq_refl).
  destruct err; [discriminate|].
  cbn [s_expendable] in E. apply andb_true_iff in E. destruct E as [E1 E2].
  apply negb_true_iff in E1. apply negb_true_iff in E2.
  repeat (apply orb_false_iff in E1; destruct E1 as [E1 ?]).
  destruct o as [c|f b].
  - (* commits: the tip holding c is an ancestor of an upstream commit *)
    destruct Ho as [Uc [tip [L R]]].
    assert (T : In tip (local_tips g)).
    { unfold local_tips. apply in_or_app. destruct L as [[b B]|D].
      - left. apply in_map_iff. exists (b, tip). split; auto. apply aget_In. exact B.
      - right. rewrite HC. unfold head_commit in HC. rewrite D in HC. injection HC as <-. simpl. auto. }
    apply (existsb_false E2) in T. apply negb_false_iff in T. rename T into C.
    unfold covered in C. apply existsb_exists in C. destruct C as [x [Ix Ax]].
    apply is_anc_sound in Ax.
    apply (upc_reach_user st x c); auto; [|eapply Reach_trans; eauto].
    rewrite !in_app_iff, !in_map_iff in Ix. destruct Ix as [([b' c'] & <- & I')|[([b' c'] & <- & I')|Ix]]; eauto.
    destruct onb; simpl in Ix; [|contradiction]. destruct Ix as [<-|[]]. auto.
  - destruct Ho as [A N]. apply N. eapply wt_clean_of_status; eauto.
Qed.
