(* Facts about lists that several directories need and Coq's library lacks,
   and the specifications of three functions every model writes out for
   itself: equality of lists, membership in a list, and the code-point order
   on strings.

   The models define their own copies of these functions ([str_eqb],
   [bytes_eqb], [mem], [str_mem], [str_ltb] ...).  [list_eqb] and [mem] are
   stated over Section variables, so once the section is closed an instance
   such as [list_eqb N N.eqb] reduces to the very [fix] a model file writes
   out, and [ltb] is written as the models that use this order write it: the
   two are convertible, and a lemma of this file proves the statement about
   the model's copy by [exact], [apply] or [rewrite].  (A model whose order
   is written otherwise is not covered.)  Only [destruct (list_eqb_spec ...)]
   needs the statement written with the model's name, since it looks for the
   term in the goal by syntax.

   Required without Import. *)
From Coq Require Import List NArith Bool Sorted.
Require BobV.Common.Cases.
Import ListNotations.

Section Facts.
  Variable A : Type.

  Lemma NoDup_app_iff (a b : list A) :
    NoDup (a ++ b) <-> NoDup a /\ NoDup b /\ forall x, In x a -> ~ In x b.
  Proof.
    induction a as [|x a IH]; cbn.
    - split; [intro H; split; [constructor | split; [exact H | intros x []]] | intros (_ & H & _); exact H].
    - rewrite !NoDup_cons_iff, IH, in_app_iff. split.
      + intros (NI & Ha & Hb & D). repeat split; auto. intros y [<-|I]; auto.
      + intros ((NI & Ha) & Hb & D). repeat split; auto. intros [I|I]; [auto | exact (D x (or_introl eq_refl) I)].
  Qed.

  Lemma filter_length_le (p : A -> bool) l : length (filter p l) <= length l.
  Proof. induction l as [|x l IH]; cbn; [constructor|]. destruct (p x); cbn; auto using le_n_S. Qed.

  Variable R : A -> A -> Prop.

  Lemma StronglySorted_app_iff (a b : list A) :
    StronglySorted R (a ++ b) <->
    StronglySorted R a /\ StronglySorted R b /\ forall x y, In x a -> In y b -> R x y.
  Proof.
    induction a as [|x a IH]; cbn.
    - split; [intro H; repeat split; [constructor | exact H | intros x y []] | intros (_ & H & _); exact H].
    - split.
      + intros [S F]%StronglySorted_inv. apply IH in S as (Sa & Sb & D). apply Forall_app in F as [Fa Fb].
        repeat split; [now constructor | exact Sb |]. intros u y [<-|I]; [|now apply D].
        now apply Forall_forall.
      + intros ([Sa Fa]%StronglySorted_inv & Sb & D). constructor; [apply IH; auto|].
        apply Forall_app. split; [exact Fa|]. apply Forall_forall. auto.
  Qed.

  (* Two lists sorted by an asymmetric relation and with the same members are equal. *)
  Lemma sorted_ext :
    (forall x y, R x y -> R y x -> False) ->
    forall a b, StronglySorted R a -> StronglySorted R b -> (forall x, In x a <-> In x b) -> a = b.
  Proof.
    intros Asym. induction a as [|x a IH]; intros [|y b] Sa Sb H; auto.
    - exfalso. apply (H y). now left.
    - exfalso. apply (H x). now left.
    - apply StronglySorted_inv in Sa, Sb. destruct Sa as [Sa Fa], Sb as [Sb Fb].
      rewrite Forall_forall in Fa, Fb.
      assert (x = y) as <-.
      { destruct (proj1 (H x) (or_introl eq_refl)) as [E|I]; auto.
        destruct (proj2 (H y) (or_introl eq_refl)) as [E|I']; auto.
        destruct (Asym x y); auto. }
      f_equal. apply IH; auto. intros z. split; intros Hz.
      + destruct (proj1 (H z) (or_intror Hz)) as [<-|I]; auto. destruct (Asym x x); auto.
      + destruct (proj2 (H z) (or_intror Hz)) as [<-|I]; auto. destruct (Asym x x); auto.
  Qed.
End Facts.

Section Eqb.
  Variable A : Type.
  Variable eqb : A -> A -> bool.
  Hypothesis eqb_spec : forall x y, reflect (x = y) (eqb x y).

  Fixpoint list_eqb (a b : list A) : bool :=
    match a, b with
    | [], [] => true
    | x :: a', y :: b' => eqb x y && list_eqb a' b'
    | _, _ => false
    end.

  Lemma list_eqb_spec : forall a b, reflect (a = b) (list_eqb a b).
  Proof.
    induction a as [|x a IH]; intros [|y b]; cbn [list_eqb]; try (constructor; congruence).
    destruct (eqb_spec x y) as [->|N]; cbn [andb]; [|constructor; congruence].
    destruct (IH b) as [->|N]; constructor; congruence.
  Qed.

  Lemma list_eqb_eq a b : list_eqb a b = true <-> a = b.
  Proof. destruct (list_eqb_spec a b); split; congruence. Qed.

  Lemma list_eqb_refl a : list_eqb a a = true.
  Proof. now apply list_eqb_eq. Qed.

  (* [Cases.eqb_list] takes type and test inside its [fix]: equal, not convertible. *)
  Lemma eqb_list_is : forall a b, Cases.eqb_list eqb a b = list_eqb a b.
  Proof. induction a as [|x a IH]; intros [|y b]; cbn; [reflexivity..|]. now rewrite IH. Qed.

  Fixpoint mem (x : A) (l : list A) : bool :=
    match l with [] => false | y :: r => eqb x y || mem x r end.

  Lemma mem_In x l : mem x l = true <-> In x l.
  Proof.
    induction l as [|y r IH]; cbn [mem In]; [split; [discriminate|contradiction]|].
    rewrite orb_true_iff, IH. destruct (eqb_spec x y) as [->|N]; split; auto; intros [E|H]; auto; congruence.
  Qed.

  Lemma existsb_eqb_In x l : existsb (eqb x) l = true <-> In x l.
  Proof.
    rewrite <- mem_In. induction l as [|y r IH]; cbn; [reflexivity|].
    now rewrite !orb_true_iff, IH.
  Qed.
End Eqb.

Lemma eqb_str_eq a b : Cases.eqb_str a b = true <-> a = b.
Proof. unfold Cases.eqb_str. rewrite eqb_list_is. apply list_eqb_eq, N.eqb_spec. Qed.

(* Code-point order on [list N] (Python's [<] on str and bytes): a proper
   prefix is smaller. *)
Section Ltb.
  Local Open Scope N_scope.

  Fixpoint ltb (a b : list N) : bool :=
    match a, b with
    | _, [] => false
    | [], _ :: _ => true
    | x :: a', y :: b' => if x <? y then true else if y <? x then false else ltb a' b'
    end.

  Lemma ltb_cons x a y b : ltb (x :: a) (y :: b) = true <-> x < y \/ x = y /\ ltb a b = true.
  Proof.
    cbn [ltb]. destruct (N.ltb_spec x y) as [L|L]; [split; auto|].
    destruct (N.ltb_spec y x) as [G|G].
    - split; [discriminate|]. intros [H|[-> _]]; [|now apply N.lt_irrefl in G].
      now apply N.lt_asymm in H.
    - assert (x = y) as E by now apply N.le_antisymm.
      split; [auto|]. intros [H|[_ H]]; [now apply N.lt_nge in H|exact H].
  Qed.

  Lemma ltb_irrefl a : ltb a a = false.
  Proof. induction a as [|x a IH]; cbn [ltb]; [reflexivity|]. now rewrite N.ltb_irrefl. Qed.

  Lemma ltb_trans : forall a b d, ltb a b = true -> ltb b d = true -> ltb a d = true.
  Proof.
    induction a as [|x a IH]; intros [|y b] [|z d]; try discriminate; trivial.
    intros [L1|[-> L1]]%ltb_cons [L2|[-> L2]]%ltb_cons; apply ltb_cons; eauto using N.lt_trans.
  Qed.

  Lemma ltb_total a : forall b, ltb a b = true \/ a = b \/ ltb b a = true.
  Proof.
    induction a as [|x a IH]; intros [|y b]; [cbn; auto..|].
    rewrite !ltb_cons. destruct (N.lt_trichotomy x y) as [L|[<-|G]]; auto.
    destruct (IH b) as [H|[<-|H]]; auto.
  Qed.

  Lemma ltb_asym a b : ltb a b = true -> ltb b a = false.
  Proof.
    intros H. destruct (ltb b a) eqn:E; [|reflexivity].
    now rewrite <- (ltb_irrefl a), <- (ltb_trans _ _ _ H E).
  Qed.
End Ltb.
