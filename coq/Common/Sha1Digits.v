(* SHA-1 on words of eight hex digits.  The kernel's lazy reduction (the one
   coqchk uses) evaluates [Sha1.sha1] on [N] bit by bit; on hex digits, with
   every operation on two digits a table look-up, the same function is
   evaluated about eight times faster.  [sha1n_eq] lets the closed examples be
   evaluated through it: rewrite the hash function into [sha1n] with
   [sha1n_eq] (pointwise, where it only occurs applied), then evaluate. *)
From Coq Require Import List NArith Bool Lia.
Require Import BobV.Common.Cases BobV.Common.Sha1.
Require BobV.Common.ListFacts.
Import ListNotations.
Open Scope N_scope.

Module Digits.

Inductive nib := X0|X1|X2|X3|X4|X5|X6|X7|X8|X9|XA|XB|XC|XD|XE|XF.

Definition nibs : list nib := [X0;X1;X2;X3;X4;X5;X6;X7;X8;X9;XA;XB;XC;XD;XE;XF].

Definition n2N (a : nib) : N :=
  match a with X0 => 0 | X1 => 1 | X2 => 2 | X3 => 3 | X4 => 4 | X5 => 5 | X6 => 6 | X7 => 7
             | X8 => 8 | X9 => 9 | XA => 10 | XB => 11 | XC => 12 | XD => 13 | XE => 14 | XF => 15 end.
Definition N2n (n : N) : nib :=
  match n with 0 => X0 | 1 => X1 | 2 => X2 | 3 => X3 | 4 => X4 | 5 => X5 | 6 => X6 | 7 => X7
             | 8 => X8 | 9 => X9 | 10 => XA | 11 => XB | 12 => XC | 13 => XD | 14 => XE | _ => XF end.

#[projections(primitive)] Record cs := CS { carry : bool; digit : nib }.

(* A function of two digits written as nested [match]es: evaluated under the binders it is its table. *)
Definition tab {T} (g : nib -> T) (a : nib) : T :=
  match a with X0 => g X0 | X1 => g X1 | X2 => g X2 | X3 => g X3 | X4 => g X4 | X5 => g X5 | X6 => g X6 | X7 => g X7
             | X8 => g X8 | X9 => g X9 | XA => g XA | XB => g XB | XC => g XC | XD => g XD | XE => g XE | XF => g XF end.
Definition tab2 {T} (g : N -> N -> T) (a b : nib) : T := tab (fun a => tab (fun b => g (n2N a) (n2N b)) b) a.

Definition and4 := Eval vm_compute in tab2 (fun a b => N2n (N.land a b)).
Definition or4 := Eval vm_compute in tab2 (fun a b => N2n (N.lor a b)).
Definition xor4 := Eval vm_compute in tab2 (fun a b => N2n (N.lxor a b)).
(* one bit to the left, the top bit of the digit below comes in *)
Definition rol1 := Eval vm_compute in tab2 (fun a b => N2n (2 * (a mod 8) + b / 8)).
(* two bits to the right, the low bits of the digit above come in *)
Definition ror2 := Eval vm_compute in tab2 (fun a b => N2n (a / 4 + 4 * (b mod 4))).
Definition addc := Eval vm_compute in
  let f c := tab2 (fun a b => CS (16 <=? a + b + c) (N2n ((a + b + c) mod 16))) in
  fun c : bool => if c then f 1 else f 0.
Definition byte := Eval vm_compute in tab2 (fun h l => l + 16 * h).

(* What a table holds is checked on the 16 x 16 entries. *)
Lemma all_nibs (P : nib -> bool) : forallb P nibs = true -> forall a, P a = true.
Proof. intros H a. apply (proj1 (forallb_forall P nibs) H). destruct a; unfold nibs; auto 16 using in_eq, in_cons. Qed.

Lemma all_nibs2 (f g : nib -> nib -> N) :
  forallb (fun a => forallb (fun b => f a b =? g a b) nibs) nibs = true -> forall a b, f a b = g a b.
Proof. intros H a b. apply N.eqb_eq. revert b. apply all_nibs. revert a. apply all_nibs. exact H. Qed.

Lemma n2N_lt a : n2N a < 16.
Proof. apply N.ltb_lt. revert a. apply all_nibs. reflexivity. Qed.
Lemma and4_spec a b : n2N (and4 a b) = N.land (n2N a) (n2N b).
Proof. revert a b. apply all_nibs2. vm_compute. reflexivity. Qed.
Lemma or4_spec a b : n2N (or4 a b) = N.lor (n2N a) (n2N b).
Proof. revert a b. apply all_nibs2. vm_compute. reflexivity. Qed.
Lemma xor4_spec a b : n2N (xor4 a b) = N.lxor (n2N a) (n2N b).
Proof. revert a b. apply all_nibs2. vm_compute. reflexivity. Qed.
Lemma rol1_spec a b : 2 * n2N a + n2N b / 8 = n2N (rol1 a b) + 16 * (n2N a / 8).
Proof. revert a b. apply all_nibs2. vm_compute. reflexivity. Qed.
Lemma ror2_spec a b : 4 * n2N (ror2 a b) + n2N a mod 4 = n2N a + 16 * (n2N b mod 4).
Proof. revert a b. apply all_nibs2. vm_compute. reflexivity. Qed.
Lemma addc_spec c a b : n2N a + n2N b + N.b2n c = n2N (digit (addc c a b)) + 16 * N.b2n (carry (addc c a b)).
Proof. revert a b. destruct c; apply all_nibs2; vm_compute; reflexivity. Qed.
Lemma byte_spec h l : byte h l = n2N l + 16 * n2N h.
Proof. revert h l. apply all_nibs2. vm_compute. reflexivity. Qed.

Inductive word := W (a7 a6 a5 a4 a3 a2 a1 a0 : nib).

(* a digit below a number; a word below [t] *)
Definition J (a : nib) (h : N) : N := n2N a + 16 * h.
Definition toNt (x : word) (t : N) : N :=
  match x with W a7 a6 a5 a4 a3 a2 a1 a0 => J a0 (J a1 (J a2 (J a3 (J a4 (J a5 (J a6 (J a7 t))))))) end.
Definition toN (x : word) : N := toNt x 0.

Lemma toNt_top x t : toNt x t = toN x + 2 ^ 32 * t.
Proof. destruct x. unfold toN, toNt, J. lia. Qed.

Lemma toN_lt x : toN x < 2 ^ 32.
Proof.
  destruct x as [a7 a6 a5 a4 a3 a2 a1 a0]. unfold toN, toNt, J.
  pose proof (n2N_lt a7); pose proof (n2N_lt a6); pose proof (n2N_lt a5); pose proof (n2N_lt a4);
  pose proof (n2N_lt a3); pose proof (n2N_lt a2); pose proof (n2N_lt a1); pose proof (n2N_lt a0). lia.
Qed.

(* and, or, xor: digit by digit *)
Definition wmap2 (f : nib -> nib -> nib) (x y : word) : word :=
  match x, y with W a7 a6 a5 a4 a3 a2 a1 a0, W b7 b6 b5 b4 b3 b2 b1 b0 =>
    W (f a7 b7) (f a6 b6) (f a5 b5) (f a4 b4) (f a3 b3) (f a2 b2) (f a1 b1) (f a0 b0) end.

Lemma testbit_J a h n : N.testbit (J a h) n = if n <? 4 then N.testbit (n2N a) n else N.testbit h (n - 4).
Proof.
  pose proof (n2N_lt a) as Ha. unfold J. destruct (N.ltb_spec n 4) as [Hn|Hn].
  - rewrite <- (N.mod_pow2_bits_low (n2N a + 16 * h) 4 n Hn). f_equal.
    symmetry. apply (N.mod_unique _ 16 h); [exact Ha|apply N.add_comm].
  - rewrite <- (N.sub_add 4 n Hn) at 1. rewrite <- N.div_pow2_bits. f_equal.
    symmetry. apply (N.div_unique _ 16 h (n2N a)); [exact Ha|apply N.add_comm].
Qed.

Section Bitwise.
  Variables (op : N -> N -> N) (fb : bool -> bool -> bool) (f : nib -> nib -> nib).
  Hypothesis op_bits : forall a b n, N.testbit (op a b) n = fb (N.testbit a n) (N.testbit b n).
  Hypothesis f_spec : forall a b, n2N (f a b) = op (n2N a) (n2N b).

  Lemma op_J a b h k : op (J a h) (J b k) = J (f a b) (op h k).
  Proof.
    apply N.bits_inj. intros n. rewrite op_bits, !testbit_J, f_spec. destruct (n <? 4); now rewrite op_bits.
  Qed.

  Lemma wmap2_spec x y : op 0 0 = 0 -> toN (wmap2 f x y) = op (toN x) (toN y).
  Proof. intros H0. destruct x, y. cbn [wmap2 toN toNt]. now rewrite !op_J, H0. Qed.
End Bitwise.

Definition wand := wmap2 and4.
Definition wor := wmap2 or4.
Definition wxor := wmap2 xor4.
Definition ones := W XF XF XF XF XF XF XF XF.

Lemma wand_spec x y : toN (wand x y) = N.land (toN x) (toN y).
Proof. apply (wmap2_spec N.land andb); [apply N.land_spec|apply and4_spec|reflexivity]. Qed.
Lemma wor_spec x y : toN (wor x y) = N.lor (toN x) (toN y).
Proof. apply (wmap2_spec N.lor orb); [apply N.lor_spec|apply or4_spec|reflexivity]. Qed.
Lemma wxor_spec x y : toN (wxor x y) = N.lxor (toN x) (toN y).
Proof. apply (wmap2_spec N.lxor xorb); [apply N.lxor_spec|apply xor4_spec|reflexivity]. Qed.

(* addition: the carry runs up the digits *)
Definition waddc (c : bool) (x y : word) : word :=
  match x, y with W a7 a6 a5 a4 a3 a2 a1 a0, W b7 b6 b5 b4 b3 b2 b1 b0 =>
    let r0 := addc c a0 b0 in let r1 := addc (carry r0) a1 b1 in
    let r2 := addc (carry r1) a2 b2 in let r3 := addc (carry r2) a3 b3 in
    let r4 := addc (carry r3) a4 b4 in let r5 := addc (carry r4) a5 b5 in
    let r6 := addc (carry r5) a6 b6 in let r7 := addc (carry r6) a7 b7 in
    W (digit r7) (digit r6) (digit r5) (digit r4) (digit r3) (digit r2) (digit r1) (digit r0) end.
Definition wadd := waddc false.

Lemma add_J c a b h k :
  J a h + J b k + N.b2n c = J (digit (addc c a b)) (h + k + N.b2n (carry (addc c a b))).
Proof. pose proof (addc_spec c a b). unfold J. lia. Qed.

Lemma waddc_carry c x y : exists q, toN x + toN y + N.b2n c = toN (waddc c x y) + 2 ^ 32 * q.
Proof.
  destruct x, y. eexists. cbn [toN toNt waddc]. rewrite !add_J. apply (toNt_top (W _ _ _ _ _ _ _ _)).
Qed.

Lemma wadd_spec x y : toN (wadd x y) = add32 (toN x) (toN y).
Proof.
  destruct (waddc_carry false x y) as [q E]. rewrite N.add_0_r in E.
  unfold add32. change mask32 with (N.ones 32). rewrite N.land_ones.
  apply (N.mod_unique _ _ q); [apply toN_lt|]. rewrite E. apply N.add_comm.
Qed.

Lemma lor_disjoint a h n : h < 2 ^ n -> N.lor (a * 2 ^ n) h = a * 2 ^ n + h.
Proof.
  intros Hh. assert (E : N.land (a * 2 ^ n) h = 0).
  { apply N.bits_inj. intros i. rewrite N.land_spec, N.bits_0. destruct (N.lt_ge_cases i n) as [Hi|Hi].
    - now rewrite N.mul_pow2_bits_low.
    - rewrite <- (N.mod_small h (2 ^ n) Hh), N.mod_pow2_bits_high by exact Hi. apply andb_false_r. }
  now rewrite <- N.lxor_lor, <- N.add_nocarry_lxor.
Qed.

(* Division with remainder read two ways: what a rotation by [A] moves to the top of [x] is [x / B], and it comes
   back in at the bottom.  [A] and [B] stay variables so that no power of two is computed. *)
Lemma rot_unique A B x r q : B <> 0 -> r < A * B -> q < A -> A * x + q = r + A * B * q ->
  x / B = q /\ (x * A + q) mod (A * B) = r.
Proof.
  intros HB Hr Hq E. pose proof (N.div_mod x B HB) as Hx. pose proof (N.mod_lt x B HB) as Hlo.
  set (hi := x / B) in *. set (lo := x mod B) in *. rewrite Hx in E.
  pose proof (N.mul_le_mono_l (lo + 1) B A) as Hm.
  destruct (N.div_mod_unique (A * B) hi q (A * lo + q) r) as [-> _]; [lia|exact Hr|lia|].
  split; [reflexivity|]. symmetry. apply (N.mod_unique _ _ q); [exact Hr|lia].
Qed.

(* [r] is [x] rotated left by [n]: times 2^n, and what leaves at the top comes back in at the bottom *)
Lemma rotl_char n x r q : 0 < n < 32 -> r < 2 ^ 32 -> q < 2 ^ n ->
  2 ^ n * x + q = r + 2 ^ 32 * q -> rotl n x = r.
Proof.
  intros Hn. unfold rotl. change mask32 with (N.ones 32).
  rewrite N.land_ones, N.shiftl_mul_pow2, N.shiftr_div_pow2.
  replace (2 ^ 32) with (2 ^ n * 2 ^ (32 - n)) by (rewrite <- N.pow_add_r; f_equal; lia).
  intros Hr Hq E. destruct (rot_unique _ _ x r q (N.pow_nonzero 2 _ ltac:(discriminate)) Hr Hq E) as [-> Em].
  now rewrite lor_disjoint.
Qed.

Definition wrol1 (x : word) : word :=
  match x with W a7 a6 a5 a4 a3 a2 a1 a0 =>
    W (rol1 a7 a6) (rol1 a6 a5) (rol1 a5 a4) (rol1 a4 a3) (rol1 a3 a2) (rol1 a2 a1) (rol1 a1 a0) (rol1 a0 a7) end.
Definition wrol4 (x : word) : word :=
  match x with W a7 a6 a5 a4 a3 a2 a1 a0 => W a6 a5 a4 a3 a2 a1 a0 a7 end.
Definition wrol5 (x : word) : word := wrol1 (wrol4 x).
Definition wrol30 (x : word) : word :=
  match x with W a7 a6 a5 a4 a3 a2 a1 a0 =>
    W (ror2 a7 a0) (ror2 a6 a7) (ror2 a5 a6) (ror2 a4 a5) (ror2 a3 a4) (ror2 a2 a3) (ror2 a1 a2) (ror2 a0 a1) end.

Lemma shl1_J a b h : 2 * J a h + n2N b / 8 = J (rol1 a b) (2 * h + n2N a / 8).
Proof. pose proof (rol1_spec a b). unfold J. lia. Qed.

Lemma shl2_J a b h : 4 * J (ror2 a b) h + n2N a mod 4 = J a (4 * h + n2N b mod 4).
Proof. pose proof (ror2_spec a b). unfold J. lia. Qed.

Lemma wrol1_carry x : exists q, q < 2 /\ 2 * toN x + q = toN (wrol1 x) + 2 ^ 32 * q.
Proof.
  destruct x as [a7 a6 a5 a4 a3 a2 a1 a0]. exists (n2N a7 / 8). split.
  - apply N.div_lt_upper_bound; [discriminate|apply n2N_lt].
  - cbn [toN toNt wrol1]. rewrite !shl1_J. apply (toNt_top (W _ _ _ _ _ _ _ _)).
Qed.

Lemma wrol1_spec x : toN (wrol1 x) = rotl 1 (toN x).
Proof.
  destruct (wrol1_carry x) as (q & Hq & E). symmetry. apply (rotl_char 1 _ _ q); [now split|apply toN_lt|exact Hq|exact E].
Qed.

Lemma wrol5_spec x : toN (wrol5 x) = rotl 5 (toN x).
Proof.
  destruct (wrol1_carry (wrol4 x)) as (q & Hq & E). fold (wrol5 x) in E.
  assert (E4 : exists t, t < 16 /\ 16 * toN x + t = toN (wrol4 x) + 2 ^ 32 * t).
  { destruct x as [a7 a6 a5 a4 a3 a2 a1 a0]. exists (n2N a7). split; [apply n2N_lt|].
    rewrite <- toNt_top. unfold toN, toNt, wrol4, J. lia. }
  destruct E4 as (t & Ht & E4). symmetry. apply (rotl_char 5 _ _ (2 * t + q)); [now split|apply toN_lt| |];
    change (2 ^ 5) with 32; set (M := 2 ^ 32) in *; lia.
Qed.

Lemma wrol30_spec x : toN (wrol30 x) = rotl 30 (toN x).
Proof.
  assert (E : exists p, p < 4 /\ 4 * toN (wrol30 x) + p = toN x + 2 ^ 32 * p).
  { destruct x as [a7 a6 a5 a4 a3 a2 a1 a0]. exists (n2N a0 mod 4). split; [now apply N.mod_lt|].
    cbn [toN toNt wrol30]. rewrite !shl2_J. apply (toNt_top (W _ _ _ _ _ _ _ _)). }
  destruct E as (p & Hp & E). pose proof (toN_lt x). pose proof (toN_lt (wrol30 x)). symmetry.
  change (2 ^ 32) with (4 * 2 ^ 30) in *. set (M := 2 ^ 30) in *.
  apply (rotl_char 30 _ _ (toN (wrol30 x) - M * p)); fold M; try change (2 ^ 32) with (4 * M); [now split|assumption|lia..].
Qed.

(* The block function, written as in Sha1.v. *)
Definition ofN (n : N) : word :=
  let d k := N2n (N.shiftr n k mod 16) in W (d 28) (d 24) (d 20) (d 16) (d 12) (d 8) (d 4) (d 0).
Definition w0 : word := Eval vm_compute in ofN 0.
Definition K0 : word := Eval vm_compute in ofN 1518500249.
Definition K1 : word := Eval vm_compute in ofN 1859775393.
Definition K2 : word := Eval vm_compute in ofN 2400959708.
Definition K3 : word := Eval vm_compute in ofN 3395469782.

(* which twenty rounds a round belongs to is read off a list, not found by comparing its number *)
Inductive phase := P0 | P1 | P2 | P3.
Definition phase_of (t : nat) : phase :=
  if Nat.ltb t 20 then P0 else if Nat.ltb t 40 then P1 else if Nat.ltb t 60 then P2 else P3.
Definition phases : list phase := Eval vm_compute in map phase_of (seq 0 80).

Definition fk (p : phase) (b c d : word) : word * word :=
  match p with
  | P0 => (wor (wand b c) (wand (wxor b ones) d), K0)
  | P1 => (wxor (wxor b c) d, K1)
  | P2 => (wor (wor (wand b c) (wand b d)) (wand c d), K2)
  | P3 => (wxor (wxor b c) d, K3)
  end.

Lemma fk_spec t b c d :
  Sha1.fk t (toN b) (toN c) (toN d) = (toN (fst (fk (phase_of t) b c d)), toN (snd (fk (phase_of t) b c d))).
Proof.
  unfold Sha1.fk, phase_of. destruct (Nat.ltb t 20); [|destruct (Nat.ltb t 40); [|destruct (Nat.ltb t 60)]];
    cbn [fk fst snd]; rewrite ?wor_spec, ?wand_spec, ?wxor_spec; reflexivity.
Qed.

(* the next word of the schedule and the window it is pushed on: positions 2, 7, 13, 15 and the
   first fifteen, taken by one pattern when the window is full *)
Definition nthW (l : list word) (k : nat) : word := nth k l w0.
Definition sched (win : list word) : word :=
  wrol1 (wxor (wxor (nthW win 2) (nthW win 7)) (wxor (nthW win 13) (nthW win 15))).
Definition next (win : list word) : word * list word :=
  match win with
  | v0 :: v1 :: v2 :: v3 :: v4 :: v5 :: v6 :: v7 :: v8 :: v9 :: v10 :: v11 :: v12 :: v13 :: v14 :: v15 :: _ =>
      (wrol1 (wxor (wxor v2 v7) (wxor v13 v15)), [v0; v1; v2; v3; v4; v5; v6; v7; v8; v9; v10; v11; v12; v13; v14])
  | _ => (sched win, firstn 15 win)
  end.

Lemma next_spec win : next win = (sched win, firstn 15 win).
Proof. do 16 (destruct win as [|? win]; [reflexivity|]). reflexivity. Qed.

Lemma sched_spec win :
  rotl 1 (N.lxor (N.lxor (nthN (map toN win) 2) (nthN (map toN win) 7))
                 (N.lxor (nthN (map toN win) 13) (nthN (map toN win) 15))) = toN (sched win).
Proof.
  assert (E : forall k, nthN (map toN win) k = toN (nthW win k)) by (intros k; apply (map_nth toN win w0 k)).
  unfold sched. now rewrite !E, <- !wxor_spec, <- wrol1_spec.
Qed.

Definition state5 := (word * word * word * word * word)%type.
Definition toN5 (h : state5) : N * N * N * N * N :=
  let '(a, b, c, d, e) := h in (toN a, toN b, toN c, toN d, toN e).

Fixpoint rounds (ps : list phase) (pending win : list word) (a b c d e : word) : state5 :=
  match ps with
  | [] => (a, b, c, d, e)
  | p :: ps' =>
    let '(w, pending', win') :=
        match pending with
        | x :: r => (x, r, firstn 15 win)
        | [] => let '(w, win') := next win in (w, [], win')
        end in
    let '(f, k) := fk p b c d in
    let temp := wadd (wadd (wadd (wadd (wrol5 a) f) e) k) w in
    rounds ps' pending' (w :: win') temp a (wrol30 b) c d
  end.

Lemma rounds_spec n : forall t pending win a b c d e,
  Sha1.rounds n t (map toN pending) (map toN win) (toN a) (toN b) (toN c) (toN d) (toN e)
  = toN5 (rounds (map phase_of (seq t n)) pending win a b c d e).
Proof.
  induction n as [|n IH]; intros; [reflexivity|]. cbn [Sha1.rounds rounds seq map]. rewrite fk_spec.
  destruct (fk (phase_of t) b c d) as [f k]. cbn [fst snd].
  rewrite <- wrol5_spec, <- wrol30_spec, firstn_map.
  destruct pending as [|x r]; cbn [map].
  - rewrite next_spec, sched_spec, <- !wadd_spec. apply (IH _ [] (_ :: _)).
  - rewrite <- !wadd_spec. apply (IH _ _ (_ :: _)).
Qed.

Fixpoint words_of (bs : list (nib * nib)) : list word :=
  match bs with
  | (a1, a0) :: (b1, b0) :: (c1, c0) :: (d1, d0) :: r => W a1 a0 b1 b0 c1 c0 d1 d0 :: words_of r
  | _ => []
  end.

Definition byte2 (hl : nib * nib) : N := byte (fst hl) (snd hl).

Lemma words_of_spec bs : map toN (words_of bs) = Sha1.words_of (map byte2 bs).
Proof.
  enough (H : forall n bs, (length bs <= n)%nat -> map toN (words_of bs) = Sha1.words_of (map byte2 bs))
    by apply (H (length bs) bs (le_n _)).
  induction n as [|n IH]; intros [|[a1 a0] [|[b1 b0] [|[c1 c0] [|[d1 d0] r]]]] Hl; try reflexivity; cbn [length] in Hl; [lia|].
  cbn [words_of Sha1.words_of map]. f_equal; [|apply IH; lia].
  unfold byte2. cbn [fst snd]. rewrite !byte_spec, !N.shiftl_mul_pow2. unfold toN, toNt, J.
  change (2 ^ 24) with 16777216. change (2 ^ 16) with 65536. change (2 ^ 8) with 256. lia.
Qed.

Definition process_block (h : state5) (block : list (nib * nib)) : state5 :=
  let '(h0, h1, h2, h3, h4) := h in
  let '(a, b, c, d, e) := rounds phases (words_of block) [] h0 h1 h2 h3 h4 in
  (wadd h0 a, wadd h1 b, wadd h2 c, wadd h3 d, wadd h4 e).

Lemma process_block_spec h block :
  Sha1.process_block (toN5 h) (map byte2 block) = toN5 (process_block h block).
Proof.
  destruct h as [[[[h0 h1] h2] h3] h4]. cbn [toN5 Sha1.process_block process_block].
  rewrite <- words_of_spec, (rounds_spec 80 0 _ []). change (map phase_of (seq 0 80)) with phases.
  destruct (rounds phases _ _ _ _ _ _ _) as [[[[a b] c] d] e]. cbn [toN5]. now rewrite !wadd_spec.
Qed.

Fixpoint blocks (fuel : nat) (bs : list (nib * nib)) (h : state5) : state5 :=
  match fuel with
  | O => h
  | S f =>
    match bs with
    | [] => h
    | _ => blocks f (skipn 64 bs) (process_block h (firstn 64 bs))
    end
  end.

Lemma blocks_spec fuel : forall bs h, Sha1.blocks fuel (map byte2 bs) (toN5 h) = toN5 (blocks fuel bs h).
Proof.
  induction fuel as [|f IH]; intros bs h; [reflexivity|]. cbn [Sha1.blocks blocks].
  destruct bs as [|b bs]; [reflexivity|]. cbn [map]. rewrite <- (map_cons byte2 b bs), skipn_map, firstn_map.
  rewrite process_block_spec. apply IH.
Qed.

Definition IV : state5 :=
  Eval vm_compute in (ofN 1732584193, ofN 4023233417, ofN 2562383102, ofN 271733878, ofN 3285377520).

(* the two digits of a byte; of a larger number, two digits that do not give it back *)
Definition digits (b : N) : nib * nib := (N2n (N.shiftr b 4), N2n (N.land b 15)).

(* the fast way is taken when the message consists of bytes, as it always does *)
Definition sha1n (msg : list N) : list N :=
  let p := pad msg in
  let ds := map digits p in
  if eqb_str (map byte2 ds) p then
    let '(h0, h1, h2, h3, h4) := toN5 (blocks (S (length p)) ds IV) in
    be_bytes32 h0 ++ be_bytes32 h1 ++ be_bytes32 h2 ++ be_bytes32 h3 ++ be_bytes32 h4
  else sha1 msg.

Theorem sha1n_eq msg : sha1n msg = sha1 msg.
Proof.
  unfold sha1n. destruct (eqb_str _ (pad msg)) eqn:E; [|reflexivity]. apply ListFacts.eqb_str_eq in E.
  unfold sha1. now rewrite <- blocks_spec, E.
Qed.
End Digits.

Definition sha1n := Digits.sha1n.
Definition sha1n_eq : forall msg, sha1n msg = sha1 msg := Digits.sha1n_eq.
