(* C11 — property theorems and non-vacuity examples on closed instances.

   H is SHA-1 (any function in the theorems; injectivity is never assumed).
   [ign] is the set of ignored directory names (IGNORE_DIRS | ignoreDirs).
   An [entries] value is the listing of the hashed root directory. *)
From Coq Require Import List NArith Bool Sorted Permutation.
Require Import BobV.Gen.ConstsC11 BobV.C11.Model BobV.C11.Proofs.
Import ListNotations.
Open Scope N_scope.

(* The struct formats and constants the model was written for are those of utils.py
   (Gen/ConstsC11.v is regenerated from it on every run). *)
Example consts_tie : consts_ok = true.
Proof. vm_compute. reflexivity. Qed.

(* content exactness, direction 1: the hash is a function of the canonical
   form (names, types, mode bits, contents, link targets, device numbers below
   the root; no times, owners, inodes, sizes, ignored directories/files) ... *)
Theorem hash_dir_canon : forall H ign es1 es2,
  canon ign es1 = canon ign es2 -> hash_dir H ign es1 = hash_dir H ign es2.
Proof.
  intros H ign es1 es2 E. rewrite !hash_dir_of_canon, E. reflexivity.
Qed.

(* ... and the canonical form does not depend on the order in which the
   directory was listed. *)
Theorem canon_order_irrelevant : forall ign es1 es2,
  NoDup (map fst es1) -> (forall e, In e es1 -> ~ In SLASH (fst e)) ->
  Permutation es1 es2 -> canon ign es1 = canon ign es2.
Proof.
  intros. unfold canon. f_equal. apply sorted_perm_eq.
  - apply norm_entries_sorted; auto.
  - apply norm_entries_sorted.
    + eapply Permutation_NoDup; [|eauto]. apply Permutation_map. auto.
    + intros. apply H0. eapply Permutation_in; [apply Permutation_sym|]; eauto.
  - apply norm_entries_perm. auto.
Qed.

(* content exactness, direction 2: equal hashes give equal canonical forms,
   or an explicit SHA-1 collision between two byte strings that were hashed for
   the two trees.  Side conditions: names without NUL, 16 bit modes whose type
   bits agree with the node, 32 bit device numbers, 20 byte digests. *)
Theorem hash_dir_injective : forall H ign es1 es2,
  (forall x, length (H x) = 20%nat) ->
  wf es1 -> wf es2 ->
  hash_dir H ign es1 = hash_dir H ign es2 ->
  canon ign es1 = canon ign es2 \/ collision H (hashed_dir H ign es1) (hashed_dir H ign es2).
Proof.
  (* the root is hashed like a directory: any stat with the type bits of a directory serves *)
  intros H ign es1 es2 Hlen W1 W2 E. rewrite !hash_dir_blob in E.
  pose (root := fun es => Dir (mkstat 0 0 0 0 16384 0) (norm_entries ign es)).
  assert (W : forall es, wf es -> tree_all node_wf [] [] (root es)).
  { intros es A. apply tree_all_dir. split; [|apply entries_all_norm with (P := node_wf); auto].
    repeat split; auto; simpl; reflexivity. }
  destruct (dig_inj H Hlen (root es1) (root es2) [] [] [] []) as [Er|C]; auto.
  left. injection Er. auto.
Qed.

(* the index is consulted with strictly increasing names (byte order of
   FileIndex.__match), for every directory listing: why a merge walk over the
   sorted cache file can work at all. *)
Theorem dfs_order_sorted : forall H ign es,
  listing es -> StronglySorted bytes_lt (check_sequence H ign es).
Proof.
  intros H ign es L. destruct (norm_entries_srt ign es L). rewrite check_sequence_checked. apply checked_entries_sorted; auto.
Qed.

(* cache transparency, one run: with ANY cache file whose records are
   truthful (sorted or not, truncated, stale, from another state of the history)
   the cached hash is the uncached hash.  [content_of] is the property's premise
   "every modification changes the stat data": name and stat data determine the
   content, history-wide. *)
Theorem cache_transparent : forall H content_of ign f es,
  file_ok H content_of f -> consistent content_of es -> named es ->
  fst (hash_cached H ign f es) = hash_dir H ign es.
Proof.
  intros H c ign f es Hf Hc Hn. destruct (hash_cached_spec H ign f es) as (d & -> & Ed). simpl. eauto.
Qed.

(* ... the cache file left behind is truthful again (so the premise of
   cache_transparent is re-established for the next run) ... *)
Theorem cache_file_truthful : forall H, (forall x, length (H x) = 20%nat) ->
  forall content_of ign f es,
  file_ok H content_of f -> consistent content_of es -> named es -> packable es ->
  file_ok H content_of (next_file f (snd (hash_cached H ign f es))).
Proof.
  intros H Hlen c ign f es Hf Hc Hn Hp.
  pose proof (run_winv H (rec_ok H c) (it_ok c) ign f es
                (new_rec_ok H c _ (open_index_ok H c f Hf)) (items_ok c ign es Hc Hn)) as [_ W].
  pose proof (next_file_records H ign f es Hp) as N.
  destruct (i_out (run H ign f es)) as [[cut es']|].
  - destruct W as [(pre & x & rest & E) W], N as (b' & -> & Er). simpl. rewrite (Er _ _ _ E).
    (* the digests written are hashes, so '20s' reads them back unchanged *)
    apply Forall_app. split; [eauto using kept_ok|]. apply Forall_map. revert W. apply Forall_impl.
    intros r. apply rec_ok_fit, Hlen.
  - rewrite N. exact Hf.
Qed.

(* ... hence for every history of states of the tree, each hashed with the
   cache.bin left by the runs before it (starting from any truthful file or
   none), every cached hash equals the uncached hash.  This includes the byte
   level of cache.bin: what __writeEntry writes after the copied prefix is read
   back by __readEntry as the same records. *)
Theorem cache_transparent_history : forall H, (forall x, length (H x) = 20%nat) ->
  forall content_of ign ts f,
  file_ok H content_of f ->
  Forall (fun es => consistent content_of es /\ named es /\ packable es) ts ->
  run_history H ign f ts = map (hash_dir H ign) ts.
Proof.
  intros H Hlen c ign ts. induction ts as [|es ts IH]; intros f Hf F; simpl; auto.
  apply Forall_cons_iff in F as [(Hc & Hn & Hp) F'].
  pose proof (cache_transparent H c ign f es Hf Hc Hn) as E.
  pose proof (cache_file_truthful H Hlen c ign f es Hf Hc Hn Hp) as T.
  destruct (hash_cached H ign f es) as [d f']. simpl in *. subst d. f_equal. apply IH; auto.
Qed.

(* a sorted cache file stays sorted (what makes the merge walk effective
   from run to run; not needed for correctness, see cache_transparent). *)
Theorem index_sorted_preserved : forall H, (forall x, length (H x) = 20%nat) ->
  forall ign f es,
  listing es -> packable es -> file_sorted f ->
  file_sorted (next_file f (snd (hash_cached H ign f es))).
Proof.
  intros H Hlen ign f es Hl Hp Hs.
  destruct (norm_entries_srt ign es Hl) as [Srt Sk].
  pose proof (next_file_records H ign f es Hp) as N.
  pose proof (run_sorted H ign f es Hs (checked_entries_sorted _ _ Srt Sk)) as S. unfold sorted_inv in S.
  destruct (i_out (run H ign f es)) as [[cut es']|].
  - destruct S as (pre & x & rest & E & S), N as (b' & -> & Er). rewrite app_nil_r in S.
    unfold file_sorted. simpl. rewrite (Er _ _ _ E), map_app, !map_map. exact S.
  - rewrite N. exact Hs.
Qed.

Lemma ex_tree1_ok : consistent ex_content_of ex_tree1 /\ named ex_tree1 /\ packable ex_tree1.
Proof. vm_compute. intuition discriminate. Qed.

Lemma ex_tree2_ok : consistent ex_content_of ex_tree2 /\ named ex_tree2 /\ packable ex_tree2.
Proof. vm_compute. intuition discriminate. Qed.

Lemma fresh_file_ok : forall c es, consistent c es /\ named es /\ packable es ->
  file_ok H_toy c (snd (hash_cached H_toy IGNORE_DIRS None es)).
Proof.
  intros c es (Hc & Hn & Hp). rewrite <- next_file_None.
  exact (cache_file_truthful H_toy H_toy_length c _ None es I Hc Hn Hp).
Qed.

Lemma names_not_None : forall f n l, names_in_file f = n :: l -> f <> None.
Proof. intros f n l E ->. discriminate E. Qed.

Example hash_dir_canon_nonvacuous :
  canon IGNORE_DIRS ex_tree1 = canon IGNORE_DIRS ex_tree1b /\
  map fst ex_tree1 <> map fst ex_tree1b /\
  hash_dir H_toy IGNORE_DIRS ex_tree1 = hash_dir H_toy IGNORE_DIRS ex_tree1b /\
  hash_dir H_toy IGNORE_DIRS ex_tree1 <> hash_dir H_toy IGNORE_DIRS ex_tree2.
Proof.
  assert (C : canon IGNORE_DIRS ex_tree1 = canon IGNORE_DIRS ex_tree1b) by (vm_compute; reflexivity).
  repeat apply conj; [exact C | vm_compute; congruence | apply hash_dir_canon, C | ].
  (* the length field of H_toy (byte 8) differs already: no checksum needs evaluating *)
  intro E. apply (f_equal (fun d => nth 8 d 0)) in E. vm_compute in E. discriminate E.
Qed.

Example hash_dir_injective_nonvacuous :
  wf ex_tree1 /\ wf ex_tree2 /\ (forall x, length (H_toy x) = 20%nat) /\
  canon IGNORE_DIRS ex_tree1 <> canon IGNORE_DIRS ex_tree2.
Proof.
  split; [|split; [|split]].
  - vm_compute. intuition discriminate.
  - vm_compute. intuition discriminate.
  - exact H_toy_length.
  - vm_compute. congruence.
Qed.

(* the side condition on names is needed: same hash (even the same blob), different trees *)
Example hash_dir_injective_needs_nul_free_names :
  hash_dir H_toy [] ex_amb1 = hash_dir H_toy [] ex_amb2 /\
  hashed_dir H_toy [] ex_amb1 = [[49]; blob_of H_toy (norm_entries [] ex_amb2)] /\
  canon [] ex_amb1 <> canon [] ex_amb2 /\ In 0 ex_nul_name.
Proof.
  assert (B : hashed_dir H_toy [] ex_amb1 = [[49]; blob_of H_toy (norm_entries [] ex_amb2)])
    by (vm_compute; reflexivity).
  split; [|split; [exact B|split]].
  - rewrite !hash_dir_blob. apply f_equal. exact (proj2 (app_inj_tail _ [[49]] _ _ B)).
  - vm_compute. congruence.
  - vm_compute. do 3 right. left. reflexivity.
Qed.

Example hash_dir_injective_needs_mode_range :
  hash_dir H_toy [] ex_mode1 = hash_dir H_toy [] ex_mode2 /\
  hashed_dir H_toy [] ex_mode1 = hashed_dir H_toy [] ex_mode2 /\
  canon [] ex_mode1 <> canon [] ex_mode2.
Proof.
  assert (B : hashed_dir H_toy [] ex_mode1 = hashed_dir H_toy [] ex_mode2) by (vm_compute; reflexivity).
  split; [|split; [exact B|vm_compute; congruence]].
  rewrite !hash_dir_blob. apply f_equal. exact (proj2 (app_inj_tail _ _ _ _ B)).
Qed.

Example dfs_order_sorted_nonvacuous :
  listing ex_tree2 /\
  check_sequence H_toy IGNORE_DIRS ex_tree2 = [[97;46;98]; [97;47;108]; [97;47;120]; [98]; [99]].
Proof.
  split; [|vm_compute; reflexivity].
  vm_compute. intuition (try discriminate); repeat constructor; simpl; intuition discriminate.
Qed.

(* a cached run with hits (a.b, a/l, b) and misses (a/x rewritten with the same size, c new) *)
Example cache_transparent_nonvacuous :
  file_ok H_toy ex_content_of ex_cache1 /\ consistent ex_content_of ex_tree2 /\ named ex_tree2 /\
  ex_cache1 <> None /\
  check_events (snd (hash_cached_traced H_toy IGNORE_DIRS ex_cache1 ex_tree2)) =
    [([97;46;98], true); ([97;47;108], true); ([97;47;120], false); ([98], true); ([99], false)] /\
  fst (hash_cached H_toy IGNORE_DIRS ex_cache1 ex_tree2) = hash_dir H_toy IGNORE_DIRS ex_tree2.
Proof.
  pose proof (fresh_file_ok _ _ ex_tree1_ok) as HF. destruct ex_tree2_ok as (HC & HN & _).
  refine (conj HF (conj HC (conj HN (conj _ (conj _ (cache_transparent _ _ _ _ _ HF HC HN)))))).
  - apply not_None. vm_compute. reflexivity.
  - vm_compute. reflexivity.
Qed.

Example cache_transparent_history_nonvacuous :
  Forall (fun es => consistent ex_content_of es /\ named es /\ packable es) [ex_tree1; ex_tree2; ex_tree2] /\
  run_history H_toy IGNORE_DIRS None [ex_tree1; ex_tree2; ex_tree2] =
    map (hash_dir H_toy IGNORE_DIRS) [ex_tree1; ex_tree2; ex_tree2] /\
  names_in_file (next_file ex_cache1 (snd (hash_cached H_toy IGNORE_DIRS ex_cache1 ex_tree2))) =
    [[97;46;98]; [97;47;108]; [97;47;120]; [98]; [99]].
Proof.
  match goal with |- ?A /\ _ => assert (HA : A) end.
  { repeat apply Forall_cons; [exact ex_tree1_ok|exact ex_tree2_ok..|apply Forall_nil]. }
  refine (conj HA (conj (cache_transparent_history _ H_toy_length ex_content_of _ _ None I HA) _)).
  vm_compute. reflexivity.
Qed.

(* Not claimed, and false: "records of unchanged files survive a rewrite".  With
   a, b, c cached and b deleted, d created, the rewrite starts at the last
   record read (c): the stale b stays, the valid c is dropped (it is re-hashed
   next time).  A performance wart only: the hashes are still right. *)
Example index_keeps_valid_records_refuted :
  names_in_file ex_cache_abc = [[97]; [98]; [99]] /\
  check_events (snd (hash_cached_traced H_toy IGNORE_DIRS ex_cache_abc ex_acd)) =
    [([97], true); ([99], true); ([100], false)] /\
  names_in_file (snd (hash_cached H_toy IGNORE_DIRS ex_cache_abc ex_acd)) = [[97]; [98]; [100]] /\
  fst (hash_cached H_toy IGNORE_DIRS ex_cache_abc ex_acd) = hash_dir H_toy IGNORE_DIRS ex_acd.
Proof.
  split; [|split; [|split]]. 1-3: vm_compute; reflexivity.
  (* an instance of cache_transparent: here the name of a file tells its content, and the cache is the file
     left by the run on ex_abc *)
  apply (cache_transparent _ (fun p _ => map (fun x => x - 32) p)).
  - apply fresh_file_ok. vm_compute. intuition discriminate.
  - vm_compute. intuition.
  - vm_compute. intuition discriminate.
Qed.

Example index_sorted_preserved_nonvacuous :
  listing ex_acd /\ packable ex_acd /\ file_sorted ex_cache_abc /\ ex_cache_abc <> None /\
  snd (hash_cached H_toy IGNORE_DIRS ex_cache_abc ex_acd) <> None.
Proof.
  split; [vm_compute; intuition (try discriminate); repeat constructor; simpl; intuition discriminate|].
  split; [vm_compute; intuition|].
  (* the names in the two files are known from the example above *)
  destruct index_keeps_valid_records_refuted as (E1 & _ & E3 & _).
  repeat apply conj; [|exact (names_not_None _ _ _ E1)|exact (names_not_None _ _ _ E3)].
  unfold file_sorted. rewrite E1. repeat constructor.
Qed.
