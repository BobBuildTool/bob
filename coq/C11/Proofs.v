(* C11 — proofs about the model of DirHasher / FileIndex (Model.v).  A walk over a tree is a fold over
   its index operations ([items]); what the index does during a run is proved on that fold: the reader only
   moves forward in the sequence of records it started with ([at_pos]), and what it writes is described by
   invariants of the fold ([winv], [sorted_inv]).  The byte level of cache.bin comes in where the file left
   by one run is read by the next ([next_file_records]). *)
From Coq Require Import List NArith Bool Arith Lia Permutation Sorted.
Require BobV.Common.ListFacts.
Require Import BobV.Gen.ConstsC11 BobV.C11.Model.
Import ListNotations.
Open Scope N_scope.

(* shows an option to be [Some _] by evaluation, without its content appearing in the goal *)
Lemma not_None : forall (A : Type) (o : option A), (if o then true else false) = true -> o <> None.
Proof. intros A [] E; [discriminate|discriminate E]. Qed.

Lemma fold_left_inv : forall (A B : Type) (f : A -> B -> A) (Inv : A -> Prop) (Q : B -> Prop),
  (forall s x, Inv s -> Q x -> Inv (f s x)) ->
  forall l s, Inv s -> Forall Q l -> Inv (fold_left f l s).
Proof. induction l; simpl; intros s I F; auto. inversion F; subst. auto. Qed.

Lemma fold_left_snoc : forall (A B : Type) (f : B -> A) l l0,
  fold_left (fun acc x => acc ++ [f x]) l l0 = l0 ++ map f l.
Proof.
  induction l; simpl; intros. { symmetry. apply app_nil_r. }
  rewrite IHl, <- app_assoc. reflexivity.
Qed.

Lemma app_eq_len : forall (A : Type) (a b x y : list A), length a = length b -> a ++ x = b ++ y -> a = b /\ x = y.
Proof.
  induction a; destruct b; simpl; intros; try discriminate; auto.
  inversion H0; subst. destruct (IHa b x y) as [E1 E2]; auto. subst. auto.
Qed.

Lemma unit_eq_app_cons : forall (A : Type) (a x : A) pre rest, [a] = pre ++ x :: rest -> pre = [].
Proof. intros A a x [|? [|]] rest E; [reflexivity|discriminate E..]. Qed.

Lemma NoDup_map_filter : forall (A B : Type) (f : A -> B) p l, NoDup (map f l) -> NoDup (map f (filter p l)).
Proof.
  induction l; simpl; intros ND; auto. inversion ND; subst.
  destruct (p a); simpl; auto. constructor; auto.
  intro I. apply in_map_iff in I. destruct I as (x & E & Ix). apply filter_In in Ix.
  apply H1. rewrite <- E. apply in_map, Ix.
Qed.

Lemma Permutation_filter : forall (A : Type) (p : A -> bool) l1 l2,
  Permutation l1 l2 -> Permutation (filter p l1) (filter p l2).
Proof.
  induction 1; simpl; auto.
  - destruct (p x); auto.
  - destruct (p x), (p y); auto. apply perm_swap.
  - eapply perm_trans; eauto.
Qed.

Lemma firstn_len_app : forall (A : Type) (a b : list A) n, length a = n -> firstn n (a ++ b) = a.
Proof. intros. subst. rewrite firstn_app, Nat.sub_diag, firstn_all. simpl. apply app_nil_r. Qed.

Lemma skipn_len_app : forall (A : Type) (a b : list A) n, length a = n -> skipn n (a ++ b) = b.
Proof. intros. subst. rewrite skipn_app, Nat.sub_diag, skipn_all. reflexivity. Qed.

Lemma SS_map : forall (A B : Type) (f : A -> B) (R : B -> B -> Prop) l,
  StronglySorted (fun a b => R (f a) (f b)) l <-> StronglySorted R (map f l).
Proof.
  induction l; simpl; split; intros S; try constructor; inversion S; subst.
  1, 3: apply IHl; assumption.
  all: apply Forall_map; assumption.
Qed.

Lemma bytes_eqb_refl : forall a, bytes_eqb a a = true.
Proof. exact (ListFacts.list_eqb_refl _ _ N.eqb_spec). Qed.

Lemma bytes_eqb_eq : forall a b, bytes_eqb a b = true <-> a = b.
Proof. exact (ListFacts.list_eqb_eq _ _ N.eqb_spec). Qed.

Lemma bytes_mem_In : forall x l, bytes_mem x l = true <-> In x l.
Proof. exact (ListFacts.mem_In _ _ (ListFacts.list_eqb_spec _ _ N.eqb_spec)). Qed.

Lemma bytes_ltb_cons : forall x a y b,
  bytes_ltb (x :: a) (y :: b) = true <-> x < y \/ x = y /\ bytes_ltb a b = true.
Proof. exact ListFacts.ltb_cons. Qed.

Lemma bytes_ltb_irrefl : forall a, bytes_ltb a a = false.
Proof. exact ListFacts.ltb_irrefl. Qed.

Lemma bytes_ltb_trans : forall a b c, bytes_ltb a b = true -> bytes_ltb b c = true -> bytes_ltb a c = true.
Proof. exact ListFacts.ltb_trans. Qed.

Lemma bytes_ltb_total : forall a b, bytes_ltb a b = true \/ a = b \/ bytes_ltb b a = true.
Proof. exact ListFacts.ltb_total. Qed.

Lemma bytes_ltb_asym : forall a b, bytes_ltb a b = true -> bytes_ltb b a = false.
Proof. exact ListFacts.ltb_asym. Qed.

Lemma bytes_leb_trans : forall a b c, bytes_leb a b = true -> bytes_leb b c = true -> bytes_leb a c = true.
Proof.
  unfold bytes_leb. intros a b c H1 H2. apply negb_true_iff in H1, H2. apply negb_true_iff.
  destruct (bytes_ltb c a) eqn:E; auto.
  destruct (bytes_ltb_total b c) as [H|[H|H]]; try congruence.
  pose proof (bytes_ltb_trans _ _ _ H E). congruence.
Qed.

Lemma bytes_leb_neq_ltb : forall a b, bytes_leb a b = true -> a <> b -> bytes_ltb a b = true.
Proof.
  unfold bytes_leb. intros a b H Hn. apply negb_true_iff in H.
  destruct (bytes_ltb_total a b) as [H1|[H1|H1]]; congruence.
Qed.

Lemma bytes_ltb_leb : forall a b, bytes_ltb a b = true -> bytes_leb a b = true.
Proof. unfold bytes_leb. intros. rewrite (bytes_ltb_asym _ _ H). auto. Qed.

Lemma bytes_ltb_app_l : forall p a b, bytes_ltb (p ++ a) (p ++ b) = bytes_ltb a b.
Proof. induction p; simpl; auto. intros. rewrite N.ltb_irrefl. auto. Qed.

Lemma bytes_ltb_app : forall a b r1 r2, bytes_ltb a b = true ->
  r1 = [] \/ (forall y t, b <> a ++ y :: t) -> bytes_ltb (a ++ r1) (b ++ r2) = true.
Proof.
  induction a as [|x a IH]; destruct b as [|y b]; try discriminate; intros r1 r2 L D.
  - destruct D as [->|D]; [reflexivity|destruct (D y b eq_refl)].
  - apply bytes_ltb_cons in L. apply bytes_ltb_cons. destruct L as [L|[-> L]]; auto.
    right. split; auto. apply IH; auto. destruct D as [D|D]; auto. right. intros z t ->. exact (D z t eq_refl).
Qed.

Lemma bytes_lt_trans : forall a b c, bytes_lt a b -> bytes_lt b c -> bytes_lt a c.
Proof. exact bytes_ltb_trans. Qed.

Lemma le_enc_length : forall w n, length (le_enc w n) = w.
Proof. induction w; simpl; auto. Qed.

Lemma H_toy_length : forall x, length (H_toy x) = 20%nat.
Proof. intros. unfold H_toy. rewrite !app_length, !le_enc_length. reflexivity. Qed.

Lemma le_dec_enc : forall w n, n < 256 ^ N.of_nat w -> le_dec (le_enc w n) = n.
Proof.
  induction w; intros.
  - symmetry. apply N.lt_1_r, H.
  - cbn [le_enc le_dec]. rewrite IHw.
    + symmetry. rewrite N.add_comm. apply N.div_mod. discriminate.
    + rewrite Nat2N.inj_succ, N.pow_succ_r' in H.
      apply N.div_lt_upper_bound; [discriminate|exact H].
Qed.

Lemma le_enc_inj : forall w a b, a < 256 ^ N.of_nat w -> b < 256 ^ N.of_nat w -> le_enc w a = le_enc w b -> a = b.
Proof. intros. rewrite <- (le_dec_enc w a), <- (le_dec_enc w b); auto. congruence. Qed.

Lemma le_enc_bytes : forall w n x, In x (le_enc w n) -> x < 256.
Proof.
  induction w; simpl; intros; try contradiction. destruct H.
  - subst. apply N.mod_lt. discriminate.
  - eauto.
Qed.

Lemma le_dec_bound : forall l, (forall x, In x l -> x < 256) -> le_dec l < 256 ^ N.of_nat (length l).
Proof.
  induction l; intros.
  - reflexivity.
  - cbn [length le_dec]. rewrite Nat2N.inj_succ, N.pow_succ_r'.
    assert (a < 256) by (apply H; simpl; auto).
    assert (le_dec l < 256 ^ N.of_nat (length l)) by (apply IHl; intros; apply H; simpl; auto).
    nia.
Qed.

Lemma le_enc4_mode : forall m, m < 65536 -> le_enc 4 m = [m mod 256; m / 256; 0; 0].
Proof.
  intros. cbn [le_enc].
  assert (m / 256 < 256) by (apply N.div_lt_upper_bound; [discriminate|exact H]).
  rewrite (N.mod_small (m / 256) 256) by assumption.
  rewrite (N.div_small (m / 256) 256) by assumption.
  reflexivity.
Qed.

Arguments pack_mode : simpl never.
Arguments key : simpl never.
Arguments le_enc : simpl never.

Section TreeInd.
  Variable P : tree -> Prop.
  Variable Pl : entries -> Prop.
  Hypothesis HFile : forall s d, P (File s d).
  Hypothesis HLink : forall s g, P (Link s g).
  Hypothesis HDev : forall s r, P (Dev s r).
  Hypothesis HFifo : forall s, P (Fifo s).
  Hypothesis HOther : forall s, P (Other s).
  Hypothesis HDir : forall s es, Pl es -> P (Dir s es).
  Hypothesis Hnil : Pl [].
  Hypothesis Hcons : forall e tl, P (snd e) -> Pl tl -> Pl (e :: tl).

  Fixpoint tree_ind2 (t : tree) : P t :=
    match t with
    | File s d => HFile s d
    | Dir s es =>
        HDir s es ((fix go (l : entries) : Pl l :=
                      match l with
                      | [] => Hnil
                      | e :: tl => Hcons e tl (tree_ind2 (snd e)) (go tl)
                      end) es)
    | Link s g => HLink s g
    | Dev s r => HDev s r
    | Fifo s => HFifo s
    | Other s => HOther s
    end.

  Lemma entries_ind2 : forall l, Pl l.
  Proof. induction l; auto using tree_ind2. Qed.
End TreeInd.

Lemma tree_ind_Forall : forall P : tree -> Prop,
  (forall s d, P (File s d)) -> (forall s es, Forall (fun e => P (snd e)) es -> P (Dir s es)) ->
  (forall s g, P (Link s g)) -> (forall s r, P (Dev s r)) -> (forall s, P (Fifo s)) -> (forall s, P (Other s)) ->
  forall t, P t.
Proof. intros. apply (tree_ind2 P (Forall (fun e => P (snd e)))); auto. Qed.

Lemma dig_dir : forall H s es, dig H (Dir s es) = H (blob_of H es).
Proof. reflexivity. Qed.

Lemma hashed_dir_node : forall H s es, hashed H (Dir s es) = hashed_entries H es ++ [blob_of H es].
Proof. reflexivity. Qed.

Lemma checked_dir : forall p s es, checked p (Dir s es) = checked_entries p es.
Proof. intros. simpl. induction es; simpl; auto. rewrite IHes. reflexivity. Qed.

Lemma walk_dir : forall St (chk : list N -> stat -> list N -> St -> list N * St) hdir p s es st,
  walk chk hdir p (Dir s es) st = let '(blob, s') := walk_entries chk hdir p es st in hdir blob s'.
Proof.
  intros. cbn [walk].
  match goal with |- (let '(_, _) := ?f es st in _) = _ => assert (E : forall l s0, f l s0 = walk_entries chk hdir p l s0) end.
  { induction l; intros; cbn [walk_entries]; auto.
    destruct (walk chk hdir (pjoin p (fst a)) (snd a) s0). rewrite IHl. reflexivity. }
  rewrite E. reflexivity.
Qed.

Lemma tree_all_dir : forall P p n s es,
  tree_all P p n (Dir s es) <-> (P p n (Dir s es) /\ entries_all P p es).
Proof.
  intros. cbn [tree_all].
  match goal with |- (_ /\ ?f es) <-> _ => assert (E : forall l, f l <-> entries_all P p l) end.
  { induction l; simpl; [reflexivity|]. apply and_iff_compat_l, IHl. }
  apply and_iff_compat_l, E.
Qed.

Lemma tree_all_node : forall P p n t, tree_all P p n t -> P p n t.
Proof. intros. destruct t; apply H. Qed.

Lemma entries_all_Forall : forall P p l,
  entries_all P p l <-> Forall (fun e => tree_all P (pjoin p (fst e)) (fst e) (snd e)) l.
Proof.
  induction l; simpl; split; intros; auto.
  - destruct H. constructor; auto. apply IHl; auto.
  - inversion H; subst. split; auto. apply IHl; auto.
Qed.

Lemma norm_dir : forall ign s es, norm ign (Dir s es) = Dir s (norm_entries ign es).
Proof. reflexivity. Qed.

Lemma erase_dir : forall s es, erase (Dir s es) = Dir (only_mode s) (erase_entries es).
Proof. reflexivity. Qed.

Lemma entries_all_In : forall P p l e, entries_all P p l -> In e l -> tree_all P (pjoin p (fst e)) (fst e) (snd e).
Proof.
  intros. apply entries_all_Forall in H. rewrite Forall_forall in H. auto.
Qed.

Lemma pjoin_nonempty : forall p n, n <> [] -> pjoin p n <> [].
Proof. intros. unfold pjoin. destruct p; auto. simpl. discriminate. Qed.

(* what [pjoin p] puts in front of a name; [checked_entries_sorted] strips it from the names below one directory *)
Definition base (p : list N) : list N := match p with [] => [] | _ => p ++ [SLASH] end.

Lemma pjoin_base : forall p n, pjoin p n = base p ++ n.
Proof. destruct p; simpl; auto. intros. rewrite <- app_assoc. reflexivity. Qed.

(* the calls of index.check during a walk: name, stat, bytes to hash *)
Definition item := (list N * stat * list N)%type.
Definition item_name (it : item) : list N := fst (fst it).

Fixpoint items (p : list N) (t : tree) : list item :=
  match t with
  | File st d => [(p, st, d)]
  | Link st g => [(p, st, g)]
  | Dir _ es =>
      (fix go (l : entries) : list item :=
         match l with [] => [] | e :: tl => items (pjoin p (fst e)) (snd e) ++ go tl end) es
  | _ => []
  end.

Fixpoint items_entries (p : list N) (l : entries) : list item :=
  match l with [] => [] | e :: tl => items (pjoin p (fst e)) (snd e) ++ items_entries p tl end.

Lemma items_dir : forall p s es, items p (Dir s es) = items_entries p es.
Proof. intros. simpl. induction es; simpl; auto. rewrite IHes. reflexivity. Qed.

Section WalkItems.
  Context {St : Type}.
  Variable chk : list N -> stat -> list N -> St -> list N * St.
  Variable hdir : list N -> St -> list N * St.
  Variable H : list N -> list N.

  Definition step (s : St) (it : item) : St := snd (chk (fst (fst it)) (snd (fst it)) (snd it) s).

  (* the condition on an index under which a walk returns [dig]; met in [hash_dir_blob] and [index_answers] *)
  Definition answers (Inv : St -> Prop) (Qi : item -> Prop) : Prop :=
    forall p st d s, Inv s -> Qi (p, st, d) -> fst (chk p st d s) = H d /\ Inv (step s (p, st, d)).

  Hypothesis hdir_spec : forall b s, hdir b s = (H b, s).

  Lemma walk_entries_items : forall l p s, exists b,
    walk_entries chk hdir p l s = (b, fold_left step (items_entries p l) s) /\
    forall Inv Qi, answers Inv Qi -> Inv s -> Forall Qi (items_entries p l) -> b = blob_of H l.
  Proof.
    intros l. pattern l. apply (entries_ind2 (fun t => forall p s, exists d,
             walk chk hdir p t s = (d, fold_left step (items p t) s) /\
             forall Inv Qi, answers Inv Qi -> Inv s -> Forall Qi (items p t) -> d = dig H t));
      try (intros; eexists; split; reflexivity).
    1, 2: intros st d p s; eexists; split; [apply surjective_pairing|];
          intros Inv Qi A I Q; apply A; [exact I|apply (Forall_inv Q)].
    - intros st es IH p s. destruct (IH p s) as (b & E & Eb).
      rewrite walk_dir, items_dir, E, hdir_spec. eexists. split; [reflexivity|].
      intros Inv Qi A I Q. rewrite (Eb Inv Qi); auto.
    - intros e tl IHe IHtl p s. cbn [walk_entries items_entries blob_of].
      destruct (IHe (pjoin p (fst e)) s) as (d & E1 & Ed).
      destruct (IHtl p (fold_left step (items (pjoin p (fst e)) (snd e)) s)) as (r & E2 & Er).
      eexists. split; [rewrite E1, E2, fold_left_app; reflexivity|].
      intros Inv Qi A I Q. apply Forall_app in Q. destruct Q as [Q1 Q2]. rewrite (Ed Inv Qi), (Er Inv Qi); auto.
      apply fold_left_inv with (Q := Qi); auto. intros s' [[n st] x] I' Q'. apply A; auto.
  Qed.
End WalkItems.

(* the hypotheses speak of joined paths only: that is where entries live *)
Lemma items_all : forall (Q : list N -> list N -> tree -> Prop) (Qi : item -> Prop),
  (forall p n st d, Q (pjoin p n) n (File st d) -> Qi (pjoin p n, st, d)) ->
  (forall p n st d, Q (pjoin p n) n (Link st d) -> Qi (pjoin p n, st, d)) ->
  forall l p, entries_all Q p l -> Forall Qi (items_entries p l).
Proof.
  intros Q Qi HF HL l. pattern l.
  apply (entries_ind2 (fun t => forall p n, tree_all Q (pjoin p n) n t -> Forall Qi (items (pjoin p n) t)));
    try (intros; apply Forall_nil).
  1, 2: intros st d p n [A _]; constructor; auto.
  - intros st es IH p n A. rewrite items_dir. apply tree_all_dir in A. apply IH, A.
  - intros e tl IHe IHtl p [A1 A2]. apply Forall_app. auto.
Qed.

Lemma hash_dir_blob : forall H ign es, hash_dir H ign es = H (blob_of H (norm_entries ign es)).
Proof.
  intros. unfold hash_dir, walk_root.
  destruct (walk_entries_items (null_chk H) (null_hdir H) H) with (l := norm_entries ign es) (p := @nil N) (s := tt)
    as (b & E & Eb); [reflexivity|].
  rewrite E, (Eb (fun _ => True) (fun _ => True)); auto.
  - intros p st d s _ _. auto.
  - apply Forall_forall. auto.
Qed.

Lemma items_names : forall l p, map item_name (items_entries p l) = checked_entries p l.
Proof.
  intros l. pattern l. apply (entries_ind2 (fun t => forall p, map item_name (items p t) = checked p t));
    try reflexivity.
  - intros s es IH p. rewrite items_dir, checked_dir. apply IH.
  - intros e tl IHe IHtl p. simpl. rewrite map_app, IHe, IHtl. reflexivity.
Qed.

Lemma check_sequence_checked : forall H ign es,
  check_sequence H ign es = checked_entries [] (norm_entries ign es).
Proof.
  intros. unfold check_sequence, walk_root.
  destruct (walk_entries_items (log_chk H) (log_hdir H) H) with (l := norm_entries ign es) (p := @nil N)
    (s := @nil (list N)) as (b & E & _); [reflexivity|].
  rewrite E, <- items_names. exact (fold_left_snoc _ _ item_name _ []).
Qed.

Lemma is_dir_erase : forall t, is_dir (erase t) = is_dir t.
Proof. destruct t; reflexivity. Qed.

Lemma pack_mode_erase : forall t, pack_mode (erase t) = pack_mode t.
Proof. destruct t; reflexivity. Qed.

Lemma key_erase : forall n t, key (n, erase t) = key (n, t).
Proof. intros. unfold key. simpl. rewrite is_dir_erase. reflexivity. Qed.

Lemma blob_of_erase : forall H l, blob_of H (erase_entries l) = blob_of H l.
Proof.
  intros H l. pattern l. apply (entries_ind2 (fun t => dig H (erase t) = dig H t)); try reflexivity.
  - intros s es IH. rewrite erase_dir, !dig_dir, IH. reflexivity.
  - intros e tl IHe IHtl. cbn [blob_of erase_entries map fst snd]. fold (erase_entries tl).
    rewrite pack_mode_erase, IHe, key_erase, IHtl. destruct e; reflexivity.
Qed.

Lemma hash_dir_of_canon : forall H ign es, hash_dir H ign es = H (blob_of H (canon ign es)).
Proof. intros. unfold canon. rewrite blob_of_erase. apply hash_dir_blob. Qed.

Lemma dig_erase : forall H t, dig H (erase t) = dig H t.
Proof. intros H []; try reflexivity. rewrite erase_dir, !dig_dir, blob_of_erase. reflexivity. Qed.

Definition key_le (a b : list N * tree) : Prop := bytes_leb (key a) (key b) = true.
Definition key_lt (a b : list N * tree) : Prop := bytes_ltb (key a) (key b) = true.

Lemma insert_perm : forall x l, Permutation (insert_entry x l) (x :: l).
Proof.
  induction l; simpl; auto.
  destruct (bytes_leb (key x) (key a)); auto.
  eapply perm_trans. apply perm_skip. apply IHl. apply perm_swap.
Qed.

Lemma sort_perm : forall l, Permutation (sort_entries l) l.
Proof.
  induction l; simpl; auto.
  eapply perm_trans. apply insert_perm. auto.
Qed.

Lemma insert_sorted : forall x l, StronglySorted key_le l -> StronglySorted key_le (insert_entry x l).
Proof.
  induction l; intros; simpl.
  - constructor; auto.
  - inversion H; subst.
    destruct (bytes_leb (key x) (key a)) eqn:E.
    + constructor; auto. constructor; auto.
      eapply Forall_impl; [|apply H3]. intros. unfold key_le in *. eapply bytes_leb_trans; eauto.
    + constructor; auto.
      eapply Permutation_Forall; [apply Permutation_sym, insert_perm|].
      constructor; [apply bytes_ltb_leb, negb_false_iff, E|assumption].
Qed.

Lemma sort_sorted : forall l, StronglySorted key_le (sort_entries l).
Proof.
  induction l; simpl.
  - constructor.
  - apply insert_sorted. auto.
Qed.

Lemma sorted_strict : forall l, StronglySorted key_le l -> NoDup (map key l) -> StronglySorted key_lt l.
Proof.
  induction 1; intros; simpl in *.
  - constructor.
  - inversion H1; subst. constructor; auto.
    apply Forall_forall. intros y Hy. rewrite Forall_forall in H0.
    unfold key_lt. apply bytes_leb_neq_ltb. apply H0; auto.
    intro E. apply H4. rewrite E. apply in_map. auto.
Qed.

Lemma norm_entries_In : forall ign es x, In x (norm_entries ign es) ->
  exists e, In e es /\ x = (fst e, norm ign (snd e)).
Proof.
  unfold norm_entries. intros. apply (Permutation_in _ (sort_perm _)), filter_In in H. destruct H as [H _].
  apply in_map_iff in H. destruct H as (e & E & I). exists e. auto.
Qed.

Section NormAll.
  Variables P P' : list N -> list N -> tree -> Prop.
  Variable ign : list (list N).
  Hypothesis Pleaf : forall p n t, is_dir t = false -> P p n t -> P' p n t.
  Hypothesis Pdir : forall p n s es, P p n (Dir s es) -> entries_all P p es -> P' p n (Dir s (norm_entries ign es)).

  Lemma entries_all_norm_gen : forall p es, entries_all P p es ->
    Forall (fun e => forall p n, tree_all P p n (snd e) -> tree_all P' p n (norm ign (snd e))) es ->
    entries_all P' p (norm_entries ign es).
  Proof.
    intros p es A F. apply entries_all_Forall, Forall_forall. intros x Hx.
    apply norm_entries_In in Hx. destruct Hx as (e & Ie & ->). simpl.
    rewrite Forall_forall in F. apply F; auto. exact (entries_all_In _ _ _ _ A Ie).
  Qed.

  Lemma tree_all_norm : forall t p n, tree_all P p n t -> tree_all P' p n (norm ign t).
  Proof.
    induction t using tree_ind_Forall; intros p n A; try (split; [apply Pleaf; [reflexivity|apply A]|exact I]).
    rewrite norm_dir. apply tree_all_dir in A. destruct A as [A0 A1]. apply tree_all_dir.
    split; [apply Pdir|apply entries_all_norm_gen]; auto.
  Qed.

  Lemma entries_all_norm : forall p es, entries_all P p es -> entries_all P' p (norm_entries ign es).
  Proof.
    intros p es A. apply entries_all_norm_gen; auto. apply Forall_forall. intros e _. apply tree_all_norm.
  Qed.
End NormAll.

Lemma sorted_perm_eq : forall l1 l2 : entries,
  StronglySorted key_lt l1 -> StronglySorted key_lt l2 -> Permutation l1 l2 -> l1 = l2.
Proof.
  intros l1 l2 S1 S2 Pm. apply (ListFacts.sorted_ext _ key_lt); [|exact S1|exact S2|].
  - unfold key_lt. intros x y L1 L2. rewrite (bytes_ltb_asym _ _ L1) in L2. discriminate.
  - intros x. split; apply Permutation_in; [exact Pm|exact (Permutation_sym Pm)].
Qed.

Lemma key_norm : forall ign e, key (fst e, norm ign (snd e)) = key e.
Proof. intros ign [n t]. unfold key. simpl. destruct t; reflexivity. Qed.

Lemma keep_norm : forall ign e, keep ign (fst e, norm ign (snd e)) = keep ign e.
Proof. intros ign [n t]. unfold keep. simpl. destruct t; reflexivity. Qed.

Lemma key_names_NoDup : forall l : entries,
  NoDup (map fst l) -> (forall e, In e l -> ~ In SLASH (fst e)) -> NoDup (map key l).
Proof.
  induction l as [|a l IH]; simpl; intros ND NS. { constructor. }
  inversion ND; subst. constructor.
  - intro I. apply in_map_iff in I. destruct I as (b & Eb & Ib).
    assert (fst a <> fst b) by (intro E; apply H1; rewrite E; apply in_map; auto).
    unfold key in Eb. destruct (is_dir (snd b)), (is_dir (snd a)).
    + apply app_inv_tail in Eb. congruence.
    + apply (NS a); auto. rewrite <- Eb. apply in_or_app. right. simpl. auto.
    + apply (NS b); auto. rewrite Eb. apply in_or_app. right. simpl. auto.
    + congruence.
  - apply IH; auto.
Qed.

Lemma norm_entries_perm : forall ign es1 es2, Permutation es1 es2 ->
  Permutation (norm_entries ign es1) (norm_entries ign es2).
Proof.
  intros. unfold norm_entries.
  eapply perm_trans. apply sort_perm. eapply perm_trans; [|apply Permutation_sym, sort_perm].
  apply Permutation_filter, Permutation_map, H.
Qed.

Lemma norm_entries_keys_NoDup : forall ign es,
  NoDup (map fst es) -> (forall e, In e es -> ~ In SLASH (fst e)) -> NoDup (map key (norm_entries ign es)).
Proof.
  intros. apply key_names_NoDup.
  - unfold norm_entries.
    eapply Permutation_NoDup. { apply Permutation_map, Permutation_sym, sort_perm. }
    apply NoDup_map_filter. rewrite map_map. exact H.
  - intros e Ie. apply norm_entries_In in Ie. destruct Ie as (x & Ix & Ex). subst e. simpl. auto.
Qed.

Lemma norm_entries_sorted : forall ign es,
  NoDup (map fst es) -> (forall e, In e es -> ~ In SLASH (fst e)) -> StronglySorted key_lt (norm_entries ign es).
Proof.
  intros. apply sorted_strict.
  - apply sort_sorted.
  - apply norm_entries_keys_NoDup; auto.
Qed.

Definition node_srt (p n : list N) (t : tree) : Prop :=
  n <> [] /\ ~ In SLASH n /\ match t with Dir _ es => StronglySorted key_lt es | _ => True end.

Lemma norm_entries_srt : forall ign es, listing es ->
  entries_all node_srt [] (norm_entries ign es) /\ StronglySorted key_lt (norm_entries ign es).
Proof.
  assert (NS : forall p es, entries_all node_listing p es -> forall e, In e es -> ~ In SLASH (fst e)).
  { intros p es A e Ie. apply (tree_all_node _ _ _ _ (entries_all_In _ _ _ _ A Ie)). }
  intros ign es [ND A]. split; [|apply norm_entries_sorted; eauto].
  revert A. apply entries_all_norm.
  - intros p n [] D A; try discriminate D; simpl in *; tauto.
  - intros p n s es' (Hn & Hs & ND') A. repeat split; auto. apply norm_entries_sorted; eauto.
Qed.

(* the start of the next entry in a directory blob: a packed 16 bit mode with non-zero type bits *)
Definition modehead (R : list N) : Prop :=
  R = [] \/ exists b0 b1 r, R = b0 :: b1 :: 0 :: 0 :: r /\ b1 <> 0.

Lemma modehead_not_key : forall c k R1 R2, ~ In 0 (c :: k) -> modehead R1 -> modehead R2 -> R1 <> c :: k ++ R2.
Proof.
  intros c k R1 R2 Hk [->|(b0 & b1 & r & -> & Hb1)] H2 E; [discriminate|].
  (* the two zero bytes of R1 fall into the key, or onto the non-zero byte of R2 *)
  destruct k as [|d [|e k]]; simpl in E.
  1, 2: destruct H2 as [->|(c0 & c1 & r' & -> & Hc1)]; congruence.
  apply Hk. injection E as _ _ <- _. simpl. auto.
Qed.

Lemma key_split : forall k1 k2 R1 R2, ~ In 0 k1 -> ~ In 0 k2 -> modehead R1 -> modehead R2 ->
  k1 ++ R1 = k2 ++ R2 -> k1 = k2 /\ R1 = R2.
Proof.
  intros k1 k2 R1 R2 Hk1 Hk2 H1 H2 E.
  destruct (app_eq_app _ _ _ _ E) as [[|c l] [[-> ->]|[-> ->]]]; rewrite ?app_nil_r; auto; exfalso.
  - refine (modehead_not_key c l _ R1 _ H2 H1 eq_refl). intro I. apply Hk1, in_or_app. auto.
  - refine (modehead_not_key c l _ R2 _ H1 H2 eq_refl). intro I. apply Hk2, in_or_app. auto.
Qed.

Definition ctor (t : tree) : nat :=
  match t with File _ _ => 0 | Dir _ _ => 1 | Link _ _ => 2 | Dev _ _ => 3 | Fifo _ => 4 | Other _ => 5 end%nat.

Definition kind_ctor (k : N) : nat :=
  if k =? 8 then 0 else if k =? 4 then 1 else if k =? 10 then 2 else if (k =? 2) || (k =? 6) then 3
  else if k =? 1 then 4 else 5.

Lemma kind_ok_ctor : forall t k, kind_ok t k -> ctor t = kind_ctor k.
Proof.
  intros [] k K; simpl in K; try (subst k; reflexivity).
  - destruct K as [->| ->]; reflexivity.
  - destruct K as (_ & K1 & K2 & K4 & K6 & K8 & K10). apply N.eqb_neq in K1, K2, K4, K6, K8, K10.
    unfold kind_ctor. rewrite K8, K4, K10, K2, K6, K1. reflexivity.
Qed.

Lemma wf_same_ctor : forall t1 t2 p1 n1 p2 n2, node_wf p1 n1 t1 -> node_wf p2 n2 t2 ->
  st_mode (node_stat t1) = st_mode (node_stat t2) -> ctor t1 = ctor t2.
Proof.
  intros t1 t2 p1 n1 p2 n2 (_ & _ & K1 & _) (_ & _ & K2 & _) Em.
  rewrite (kind_ok_ctor _ _ K1), (kind_ok_ctor _ _ K2), Em. reflexivity.
Qed.

Lemma pack_mode_length : forall t, length (pack_mode t) = 4%nat.
Proof. intros. apply le_enc_length. Qed.

Lemma pack_mode_shape : forall p n t, node_wf p n t ->
  exists b0 b1, pack_mode t = [b0; b1; 0; 0] /\ b1 <> 0.
Proof.
  intros p n t (Hn & Hm & Hk & _). unfold pack_mode. rewrite le_enc4_mode by auto.
  eexists _, _. split; [reflexivity|]. intro E.
  change 4096 with (256 * 16) in Hk. rewrite <- N.div_div, E in Hk by discriminate.
  destruct t; simpl in Hk; intuition discriminate.
Qed.

Lemma key_no_nul : forall n t, ~ In 0 n -> ~ In 0 (key (n, t)).
Proof.
  intros n t Hn. unfold key. simpl. destruct (is_dir t); auto.
  intro I. apply in_app_or in I. destruct I as [I|[I|[]]]; auto. discriminate I.
Qed.

Lemma key_inj : forall n1 t1 n2 t2, ctor t1 = ctor t2 -> key (n1, t1) = key (n2, t2) -> n1 = n2.
Proof.
  intros n1 t1 n2 t2 C E. unfold key in E. simpl in E.
  assert (D : forall t, is_dir t = Nat.eqb (ctor t) 1) by (intros []; reflexivity).
  rewrite !D, C in E. destruct (Nat.eqb (ctor t2) 1); [apply app_inv_tail in E|]; exact E.
Qed.

Section Inj.
  Variable H : list N -> list N.
  Hypothesis Hlen : forall x, length (H x) = 20%nat.

  Lemma dig_length : forall t,
    length (dig H t) = match ctor t with 0 | 1 | 2 => 20 | 3 => 4 | _ => 0 end%nat.
  Proof.
    destruct t; simpl; auto; try apply le_enc_length.
  Qed.

  Lemma blob_modehead : forall p l, entries_all node_wf p l -> modehead (blob_of H l).
  Proof.
    intros p [|e l] A.
    - left. reflexivity.
    - right. destruct A as [A _]. apply tree_all_node in A.
      destruct (pack_mode_shape _ _ _ A) as (b0 & b1 & E & Hb).
      cbn [blob_of]. rewrite E. simpl. eauto.
  Qed.

  Lemma blob_of_nil : forall l, blob_of H l = [] -> l = [].
  Proof.
    intros [|e r] E; auto. cbn [blob_of] in E.
    pose proof (pack_mode_length (snd e)). destruct (pack_mode (snd e)); discriminate.
  Qed.

  (* a directory blob is read back in one way only: fields of fixed width (the mode tells the width of the
     digest), then the key up to the next mode head *)
  Lemma blob_cons_inj : forall e1 r1 e2 r2 p1 p2,
    entries_all node_wf p1 (e1 :: r1) -> entries_all node_wf p2 (e2 :: r2) ->
    blob_of H (e1 :: r1) = blob_of H (e2 :: r2) ->
    st_mode (node_stat (snd e1)) = st_mode (node_stat (snd e2)) /\ dig H (snd e1) = dig H (snd e2) /\
    fst e1 = fst e2 /\ blob_of H r1 = blob_of H r2.
  Proof.
    intros [n1 c1] r1 [n2 c2] r2 p1 p2 [W1 W1r] [W2 W2r] E. apply tree_all_node in W1, W2.
    cbn [blob_of fst snd] in *.
    apply app_eq_len in E; [|rewrite !pack_mode_length; reflexivity]. destruct E as [Em E].
    assert (Emode : st_mode (node_stat c1) = st_mode (node_stat c2)).
    { destruct W1 as (_ & M1 & _), W2 as (_ & M2 & _). apply le_enc_inj in Em; auto; simpl; lia. }
    pose proof (wf_same_ctor _ _ _ _ _ _ W1 W2 Emode) as Ector.
    apply app_eq_len in E; [|rewrite !dig_length, Ector; reflexivity]. destruct E as [Ed E].
    apply key_split in E; [|apply key_no_nul, W1|apply key_no_nul, W2|eapply blob_modehead; eauto ..].
    destruct E as [Ek Er]. eauto using key_inj.
  Qed.

  Lemma collision_app : forall a1 b1 a2 b2,
    collision H a1 a2 \/ collision H b1 b2 -> collision H (a1 ++ b1) (a2 ++ b2).
  Proof.
    intros a1 b1 a2 b2 [(x & y & ? & ? & ? & ?)|(x & y & ? & ? & ? & ?)]; exists x, y;
      repeat split; auto; apply in_or_app; auto.
  Qed.

  Lemma eq_or_collision : forall a b l1 l2, H a = H b -> a = b \/ collision H (l1 ++ [a]) (l2 ++ [b]).
  Proof.
    intros a b l1 l2 E. destruct (list_eq_dec N.eq_dec a b) as [|Ne]; auto.
    right. exists a, b. repeat split; auto; apply in_elt.
  Qed.

  Lemma dig_inj : forall t1 t2 p1 n1 p2 n2,
    tree_all node_wf p1 n1 t1 -> tree_all node_wf p2 n2 t2 ->
    st_mode (node_stat t1) = st_mode (node_stat t2) -> dig H t1 = dig H t2 ->
    erase t1 = erase t2 \/ collision H (hashed H t1) (hashed H t2).
  Proof.
    intros t1. pattern t1.
    apply (tree_ind2 _ (fun l1 => forall l2 p1 p2, entries_all node_wf p1 l1 -> entries_all node_wf p2 l2 ->
                                  blob_of H l1 = blob_of H l2 ->
                                  erase_entries l1 = erase_entries l2 \/
                                  collision H (hashed_entries H l1) (hashed_entries H l2))); cbv beta.
    (* trees: the mode fixes the kind of node *)
    1-6: intros until t2; intros p1 n1 p2 n2 W1 W2 Em Ed;
      pose proof (tree_all_node _ _ _ _ W1) as N1; pose proof (tree_all_node _ _ _ _ W2) as N2;
      pose proof (wf_same_ctor _ _ _ _ _ _ N1 N2 Em) as Ector;
      destruct t2; try discriminate Ector; clear Ector; simpl in Em.
    1-5: simpl erase; unfold only_mode; rewrite Em.
    1, 2: destruct (eq_or_collision _ _ [] [] Ed) as [->|C]; auto.
    - left. destruct N1 as (_ & _ & _ & R1), N2 as (_ & _ & _ & R2).
      apply le_enc_inj in Ed; try assumption. subst. reflexivity.
    - left. reflexivity.
    - left. reflexivity.
    - (* Dir: equal blobs, or the blobs collide *)
      rename H0 into IH. rewrite !dig_dir in Ed. rewrite !erase_dir, !hashed_dir_node.
      apply tree_all_dir in W1, W2. destruct W1 as [_ W1], W2 as [_ W2].
      destruct (eq_or_collision _ _ (hashed_entries H es) (hashed_entries H entries) Ed) as [E|C]; auto.
      destruct (IH entries _ _ W1 W2 E) as [E2|E2].
      + left. unfold only_mode. rewrite Em, E2. reflexivity.
      + right. apply collision_app. auto.
    - intros l2 p1 p2 _ _ E. symmetry in E. apply blob_of_nil in E. subst. auto.
    - intros [n1 c1] r1 IHc IHr [|[n2 c2] r2] p1 p2 W1 W2 E.
      { apply blob_of_nil in E. discriminate. }
      destruct (blob_cons_inj _ _ _ _ _ _ W1 W2 E) as (Em & Ed & En & Er). simpl in Em, Ed, En. subst n2.
      destruct W1 as [W1 W1r], W2 as [W2 W2r]. cbn [hashed_entries snd].
      destruct (IHc c2 _ _ _ _ W1 W2 Em Ed) as [Ec|Ec]; [|right; apply collision_app; auto].
      destruct (IHr r2 _ _ W1r W2r Er) as [Er'|Er']; [|right; apply collision_app; auto].
      left. cbn [erase_entries map fst snd] in *. fold (erase_entries r1). fold (erase_entries r2). congruence.
  Qed.
End Inj.

Lemma In_checked_entries : forall q p l,
  In q (checked_entries p l) -> exists e, In e l /\ In q (checked (pjoin p (fst e)) (snd e)).
Proof.
  induction l; simpl; intros I; [contradiction|].
  apply in_app_or in I. destruct I as [I|I]; [eauto|].
  destruct (IHl I) as (e & Ie & Q). eauto.
Qed.

(* every name checked below an entry begins with its sort key: [checked_entries_sorted] compares entries by their keys *)
Lemma checked_key_form : forall t p n q, tree_all node_srt (pjoin p n) n t -> In q (checked (pjoin p n) t) ->
  exists r, q = base p ++ key (n, t) ++ r /\ (is_dir t = false -> r = []).
Proof.
  induction t using tree_ind_Forall; intros p n q A I; try contradiction.
  1, 3: destruct I as [<-|[]]; exists []; unfold key; simpl; rewrite pjoin_base, app_nil_r; auto.
  rewrite checked_dir in I. apply In_checked_entries in I. destruct I as ([n' t'] & Ie & Q).
  apply tree_all_dir in A. destruct A as [(Hn & _) A].
  rewrite Forall_forall in H. destruct (H _ Ie _ _ _ (entries_all_In _ _ _ _ A Ie) Q) as (r & -> & _).
  exists (key (n', t') ++ r). split; [|discriminate].
  unfold base at 1. destruct (pjoin p n) eqn:E; [destruct (pjoin_nonempty p n Hn E)|].
  rewrite <- E, pjoin_base. unfold key at 2. simpl. rewrite <- !app_assoc. reflexivity.
Qed.

Lemma key_ext_lt : forall e1 e2 r1 r2,
  key_lt e1 e2 -> ~ In SLASH (fst e2) -> (is_dir (snd e1) = false -> r1 = []) ->
  bytes_ltb (key e1 ++ r1) (key e2 ++ r2) = true.
Proof.
  intros e1 e2 r1 r2 L NS Hr. apply bytes_ltb_app; [exact L|].
  destruct (is_dir (snd e1)) eqn:D1; [right|auto].
  (* the key of a directory ends in '/', which the name of e2 does not contain *)
  intros y tb E2. apply NS. unfold key in E2. rewrite D1 in E2.
  destruct (is_dir (snd e2)).
  - apply (f_equal (@removelast N)) in E2.
    rewrite removelast_last, <- app_assoc, removelast_app in E2 by discriminate.
    rewrite E2. apply in_or_app. right. simpl. auto.
  - rewrite E2, <- app_assoc. apply in_or_app. right. simpl. auto.
Qed.

Lemma checked_entries_sorted : forall l p,
  entries_all node_srt p l -> StronglySorted key_lt l -> StronglySorted bytes_lt (checked_entries p l).
Proof.
  intros l. pattern l. apply (entries_ind2 (fun t => forall p n, tree_all node_srt p n t ->
                                              StronglySorted bytes_lt (checked p t)));
    try (intros; simpl; repeat constructor; fail).
  - intros s es IH p n A. rewrite checked_dir. apply tree_all_dir in A. apply IH; apply A.
  - intros e tl IHe IHtl p [Ae Atl] S. apply StronglySorted_inv in S as [Stl Lt].
    pose proof (tree_all_node _ _ _ _ Ae) as (Hn & Hs & _). simpl.
    apply ListFacts.StronglySorted_app_iff. split; [|split]; eauto.
    (* a name below e against a name below a later entry e2: both start with the directory's
       path, then come the keys *)
    intros x y Ix Iy. apply In_checked_entries in Iy. destruct Iy as (e2 & Ie2 & Iy).
    pose proof (tree_all_node _ _ _ _ (entries_all_In _ _ _ _ Atl Ie2)) as (Hn2 & Hs2 & _).
    destruct e as [n1 t1], e2 as [n2 t2].
    destruct (checked_key_form _ _ _ _ Ae Ix) as (r1 & Ex & Hr1).
    destruct (checked_key_form _ _ _ _ (entries_all_In _ _ _ _ Atl Ie2) Iy) as (r2 & Ey & _).
    unfold bytes_lt. rewrite Ex, Ey, bytes_ltb_app_l.
    apply key_ext_lt; auto. rewrite Forall_forall in Lt. auto.
Qed.

Lemma rec_matches_spec : forall e name st, rec_matches e name st = true ->
  r_name e = name /\ rkey e = skey st.
Proof.
  unfold rec_matches, rkey, skey. intros e name st M.
  repeat (apply andb_true_iff in M; destruct M as [M E]; apply N.eqb_eq in E; rewrite E; clear E).
  split; [apply bytes_eqb_eq, M|reflexivity].
Qed.

Definition rname (x : N * rec) : list N := r_name (snd x).

(* what the reader delivers from a state on: __current with its offset, then the records still unread *)
Definition seq_of (s : ist) : list (N * rec) := (i_posold s, i_cur s) :: i_rest s.

Definition istep (H : list N -> list N) : ist -> item -> ist := step (index_chk H).

(* the final index state of hashDirectory(path, index) *)
Definition run (H : list N -> list N) (ign : list (list N)) (f : option (list N)) (es : entries) : ist :=
  fold_left (istep H) (items_entries [] (norm_entries ign es)) (snd (open_index f)).

Lemma advance_pos : forall name rest cur off,
  exists moved,
    (off, cur) :: rest = moved ++ (let '(c, o, r) := advance name cur off rest in (o, c) :: r) /\
    Forall (fun x => bytes_lt (rname x) name) moved.
Proof.
  induction rest as [|[o r] tl IH]; intros cur off; simpl.
  - exists []. auto.
  - destruct (bytes_ltb (r_name cur) name) eqn:L.
    + destruct (IH r o) as (mv & E & F). exists ((off, cur) :: mv). split.
      * simpl. rewrite <- E. reflexivity.
      * constructor; auto.
    + exists []. auto.
Qed.

Lemma istep_pos : forall H s name st blob, exists mv,
  seq_of s = mv ++ seq_of (istep H s (name, st, blob)) /\ Forall (fun x => bytes_lt (rname x) name) mv.
Proof.
  intros. unfold istep, step, index_chk, check_full, seq_of. cbn [fst snd].
  pose proof (advance_pos name (i_rest s) (i_cur s) (i_posold s)) as P.
  destruct (advance name (i_cur s) (i_posold s) (i_rest s)) as [[cur off] rest]. exact P.
Qed.

Lemma index_chk_fst : forall H s name st blob,
  fst (index_chk H name st blob s) =
  let c := i_cur (istep H s (name, st, blob)) in if rec_matches c name st then r_digest c else H blob.
Proof.
  intros. unfold istep, step, index_chk, check_full. cbn [fst snd].
  destruct (advance name (i_cur s) (i_posold s) (i_rest s)) as [[cur off] rest]. reflexivity.
Qed.

Lemma istep_out : forall H s name st blob,
  let s' := istep H s (name, st, blob) in
  i_out s' = i_out s \/
  i_out s' = let r := new_rec name st (fst (index_chk H name st blob s)) in
             match i_out s with None => Some (i_posold s', [r]) | Some (cut, es) => Some (cut, es ++ [r]) end.
Proof.
  intros. unfold s', istep, step, index_chk, check_full. cbn [fst snd].
  destruct (advance name (i_cur s) (i_posold s) (i_rest s)) as [[cur off] rest]. simpl.
  destruct (i_mism s || negb (rec_matches cur name st)); auto.
Qed.

(* [all]: the reader's sequence at the start of the run.  The state is always at some position of it. *)
Section Run.
  Variable H : list N -> list N.
  Variable all : list (N * rec).

  Definition at_pos (s : ist) : Prop := exists pre, all = pre ++ seq_of s.

  Lemma at_pos_In : forall s, at_pos s -> In (i_cur s) (map snd all).
  Proof. intros s [pre E]. rewrite E, map_app. apply in_elt. Qed.

  Lemma at_pos_step : forall s it, at_pos s -> at_pos (istep H s it).
  Proof.
    intros s [[name st] blob] [pre E]. destruct (istep_pos H s name st blob) as (mv & E' & _).
    exists (pre ++ mv). rewrite <- app_assoc, <- E'. exact E.
  Qed.

  (* [R] holds of every record written, if it holds of a new record whatever record of [all] it was matched against *)
  Variable R : rec -> Prop.
  Variable Qi : item -> Prop.
  Hypothesis Rnew : forall name st blob c, Qi (name, st, blob) -> In c (map snd all) ->
    R (new_rec name st (if rec_matches c name st then r_digest c else H blob)).

  Definition winv (s : ist) : Prop :=
    at_pos s /\
    match i_out s with
    | None => True
    | Some (cut, es) => (exists pre c rest, all = pre ++ (cut, c) :: rest) /\ Forall R es
    end.

  Lemma winv_step : forall s it, winv s -> Qi it -> winv (istep H s it).
  Proof.
    intros s [[name st] blob] [A O] Q. pose proof (at_pos_step s (name, st, blob) A) as A'. split; [exact A'|].
    destruct (istep_out H s name st blob) as [->| ->]; [exact O|]. rewrite index_chk_fst.
    specialize (Rnew name st blob _ Q (at_pos_In _ A')).
    destruct (i_out s) as [[cut es]|]; [destruct O|destruct A' as [pre E]]; split; eauto.
    apply Forall_app. auto.
  Qed.
End Run.

Definition it_named (it : item) : Prop := item_name it <> [].

Lemma items_named : forall ign es, named es -> Forall it_named (items_entries [] (norm_entries ign es)).
Proof.
  intros ign es A. apply (items_all node_named); [intros p n st d B; apply pjoin_nonempty, B ..|].
  apply entries_all_norm with (P := node_named); auto.
Qed.

Section Transp.
  Variable H : list N -> list N.
  Variable content_of : list N -> statkey -> list N.

  Definition cur_ok (r : rec) : Prop := r = rec0 \/ rec_ok H content_of r.
  Definition it_ok (it : item) : Prop :=
    it_named it /\ snd it = content_of (item_name it) (skey (snd (fst it))).

  Lemma items_ok : forall ign es, consistent content_of es -> named es ->
    Forall it_ok (items_entries [] (norm_entries ign es)).
  Proof.
    intros ign es C Nm. apply Forall_and; [apply items_named, Nm|].
    apply (items_all (node_consistent content_of)); [intros p n st d B; exact B ..|].
    apply entries_all_norm with (P := (node_consistent content_of)); auto.
  Qed.

  Variable all : list (N * rec).
  Hypothesis all_ok : Forall cur_ok (map snd all).

  (* a hit on a truthful record gives the right digest: the empty record matches no name *)
  Lemma digest_ok : forall name st blob c, it_ok (name, st, blob) -> In c (map snd all) ->
    (if rec_matches c name st then r_digest c else H blob) = H blob.
  Proof.
    intros name st blob c [Hn Hb] Ic. unfold it_named, item_name in *. simpl in Hn, Hb.
    destruct (rec_matches c name st) eqn:M; auto.
    apply rec_matches_spec in M. destruct M as [Mn Mk].
    rewrite Forall_forall in all_ok. destruct (all_ok c Ic) as [->|Ok].
    - simpl in Mn. congruence.
    - rewrite Ok, Mn, Mk, Hb. reflexivity.
  Qed.

  Lemma new_rec_ok : forall name st blob c, it_ok (name, st, blob) -> In c (map snd all) ->
    rec_ok H content_of (new_rec name st (if rec_matches c name st then r_digest c else H blob)).
  Proof.
    intros name st blob c Q Ic. rewrite digest_ok by auto. destruct Q as [_ Hb]. unfold item_name in Hb. simpl in Hb.
    unfold rec_ok. simpl. rewrite Hb. reflexivity.
  Qed.

  Lemma index_answers : answers (index_chk H) H (at_pos all) it_ok.
  Proof.
    intros name st blob s A Q. pose proof (at_pos_step H all s (name, st, blob) A) as A'. split; [|exact A'].
    rewrite index_chk_fst. apply digest_ok; auto. apply at_pos_In, A'.
  Qed.
End Transp.

Lemma open_index_seq : forall (P : list (N * rec) -> Prop) f,
  (forall o, P [(o, rec0)]) -> (forall b, f = Some b -> P (parse_body 4 (skipn 4 b))) ->
  P (seq_of (snd (open_index f))).
Proof.
  intros P [b|] P0 Pb; unfold open_index; [|apply P0].
  destruct (bytes_eqb (firstn 4 b) SIGNATURE); [|apply P0].
  specialize (Pb b eq_refl). destruct (parse_body 4 (skipn 4 b)) as [|[o r] tl]; [apply P0|exact Pb].
Qed.

Lemma open_index_ok : forall H content_of f, file_ok H content_of f ->
  Forall (cur_ok H content_of) (map snd (seq_of (snd (open_index f)))).
Proof.
  intros H c f Hf. apply open_index_seq; [repeat constructor|]. intros b ->.
  eapply Forall_impl; [|exact Hf]. intros a Ha. right. exact Ha.
Qed.

Lemma open_index_out : forall f, i_out (snd (open_index f)) = None.
Proof.
  intros [b|]; unfold open_index; auto.
  destruct (bytes_eqb (firstn 4 b) SIGNATURE); auto. destruct (parse_body 4 (skipn 4 b)) as [|[o r] tl]; auto.
Qed.

Lemma hash_cached_spec : forall H ign f es, exists d,
  hash_cached H ign f es = (d, close_index (fst (open_index f)) (run H ign f es)) /\
  forall c, file_ok H c f -> consistent c es -> named es -> d = hash_dir H ign es.
Proof.
  intros. unfold hash_cached, walk_root, run.
  pose proof (fun c => open_index_ok H c f) as Ok. destruct (open_index f) as [inb s0].
  destruct (walk_entries_items (index_chk H) (index_hdir H) H) with (l := norm_entries ign es) (p := @nil N) (s := s0)
    as (b & E & Eb); [reflexivity|].
  rewrite E. eexists. split; [reflexivity|]. intros c Hf Hc Hn. rewrite hash_dir_blob. apply f_equal.
  apply (Eb _ _ (index_answers H c _ (Ok c Hf))).
  - exists []. reflexivity.
  - apply items_ok; auto.
Qed.

Lemma run_winv : forall H (R : rec -> Prop) (Qi : item -> Prop) ign f es,
  (forall name st blob c, Qi (name, st, blob) -> In c (map snd (seq_of (snd (open_index f)))) ->
     R (new_rec name st (if rec_matches c name st then r_digest c else H blob))) ->
  Forall Qi (items_entries [] (norm_entries ign es)) ->
  winv (seq_of (snd (open_index f))) R (run H ign f es).
Proof.
  intros H R Qi ign f es Rnew Q. unfold run.
  apply fold_left_inv with (Q := Qi); auto.
  - intros s it. apply winv_step. exact Rnew.
  - split; [exists []; reflexivity|]. rewrite open_index_out. exact I.
Qed.

(* the values of a record that struct.pack accepts; the digest needs no condition: '20s' cuts or pads it *)
Definition rec_fits (r : rec) : Prop :=
  r_ctime r < 18446744073709551616 /\ r_mtime r < 18446744073709551616 /\ r_dev r < 18446744073709551616 /\
  r_ino r < 18446744073709551616 /\ r_mode r < 4294967296 /\ r_size r < 18446744073709551616 /\
  N.of_nat (length (r_name r)) < 65536.

Definition fit_rec (r : rec) : rec :=
  mkrec (r_name r) (r_ctime r) (r_mtime r) (r_dev r) (r_ino r) (r_mode r) (r_size r) (fit20 (r_digest r)).

Lemma fit20_id : forall d, length d = 20%nat -> fit20 d = d.
Proof. intros. unfold fit20. apply firstn_len_app. auto. Qed.

Lemma fit20_length : forall d, length (fit20 d) = 20%nat.
Proof.
  intros. unfold fit20. rewrite firstn_length, app_length, repeat_length. apply Nat.min_l, Nat.le_add_l.
Qed.

Lemma pack_entry_length : forall r, length (pack_entry r) = 66%nat.
Proof.
  intros. unfold pack_entry. rewrite !app_length, !le_enc_length, fit20_length. reflexivity.
Qed.

Lemma unpack_fields : forall f1 f2 f3 f4 f5 f6 dg f8,
  length f1 = 8%nat -> length f2 = 8%nat -> length f3 = 8%nat -> length f4 = 8%nat ->
  length f5 = 4%nat -> length f6 = 8%nat -> length dg = 20%nat -> length f8 = 2%nat ->
  unpack_entry (f1 ++ f2 ++ f3 ++ f4 ++ f5 ++ f6 ++ dg ++ f8) =
  (fun nm => mkrec nm (le_dec f1) (le_dec f2) (le_dec f3) (le_dec f4) (le_dec f5) (le_dec f6) dg, le_dec f8).
Proof.
  intros. unfold unpack_entry.
  repeat (rewrite firstn_len_app, skipn_len_app by assumption).
  rewrite firstn_all2 by lia. reflexivity.
Qed.

Lemma unpack_pack : forall r, rec_fits r ->
  unpack_entry (pack_entry r) =
  (fun nm => mkrec nm (r_ctime r) (r_mtime r) (r_dev r) (r_ino r) (r_mode r) (r_size r) (fit20 (r_digest r)),
   N.of_nat (length (r_name r))).
Proof.
  intros r (H1 & H2 & H3 & H4 & H5 & H6 & H8). unfold pack_entry.
  rewrite unpack_fields by (apply le_enc_length || apply fit20_length).
  rewrite !le_dec_enc by assumption. reflexivity.
Qed.

Lemma read_entry_app : forall raw mk nl nm tail,
  length raw = 66%nat -> unpack_entry raw = (mk, nl) -> length nm = N.to_nat nl ->
  read_entry (raw ++ nm ++ tail) = Some (mk nm, 66 + nl, tail).
Proof.
  intros raw mk nl nm tail L U Ln. unfold read_entry.
  rewrite (firstn_len_app _ raw), (skipn_len_app _ raw), L, U by exact L.
  rewrite firstn_len_app, skipn_len_app by exact Ln. reflexivity.
Qed.

Lemma read_entry_ser : forall r rest, rec_fits r ->
  read_entry (ser_rec r ++ rest) = Some (fit_rec r, 66 + N.of_nat (length (r_name r)), rest).
Proof.
  intros r rest Hp. unfold ser_rec. rewrite <- app_assoc.
  rewrite (read_entry_app _ _ _ _ _ (pack_entry_length r) (unpack_pack r Hp)) by (symmetry; apply Nat2N.id).
  reflexivity.
Qed.

(* A record that is followed by more bytes is complete, and reading it does not depend on what follows. *)
Lemma read_entry_inv : forall b r len rest, read_entry b = Some (r, len, rest) ->
  exists chunk, b = chunk ++ rest /\ (66 <= length chunk)%nat /\ 66 <= len /\
    (rest <> [] -> N.of_nat (length chunk) = len /\
                   forall tail, read_entry (chunk ++ tail) = Some (r, len, tail)).
Proof.
  intros b r len rest E. unfold read_entry in E.
  (* the fixed part and what follows it become variables: [firstn 66 b] unfolds 66 times wherever it is compared *)
  pose proof (firstn_skipn ENTRY_SIZE b) as Eb. pose proof (firstn_le_length ENTRY_SIZE b) as L66.
  set (raw := firstn ENTRY_SIZE b) in *. set (b66 := skipn ENTRY_SIZE b) in *. clearbody raw b66.
  change ENTRY_SIZE with 66%nat in *.
  destruct (length raw <? 66)%nat eqn:L; [discriminate|]. apply Nat.ltb_ge in L.
  apply (Nat.le_antisymm _ _ L66) in L. clear L66.
  destruct (unpack_entry raw) as [mk nl] eqn:U.
  assert (Er : mk (firstn (N.to_nat nl) b66) = r) by congruence.
  assert (El : N.of_nat 66 + nl = len) by congruence.
  assert (Erest : skipn (N.to_nat nl) b66 = rest) by congruence. clear E.
  exists (raw ++ firstn (N.to_nat nl) b66). split; [|split; [|split]].
  - rewrite <- app_assoc, <- Erest, firstn_skipn. auto.
  - rewrite app_length, L. apply Nat.le_add_r.
  - rewrite <- El. apply N.le_add_r.
  - intros Hr.
    assert (Ln : length (firstn (N.to_nat nl) b66) = N.to_nat nl).
    { rewrite firstn_length. destruct (Nat.le_gt_cases (N.to_nat nl) (length b66)) as [C|C]; [apply Nat.min_l, C|].
      exfalso. apply Hr. rewrite <- Erest. apply skipn_all2, Nat.lt_le_incl, C. }
    split.
    + rewrite app_length, L, Ln, Nat2N.inj_add, N2Nat.id. exact El.
    + intros tail. rewrite <- app_assoc, <- Er, <- El. exact (read_entry_app _ _ _ _ _ L U Ln).
Qed.

Lemma parse_fuel_gen : forall f1 f2 b pos, (length b <= f1)%nat -> (length b <= f2)%nat ->
  parse_entries f1 pos b = parse_entries f2 pos b.
Proof.
  induction f1; destruct f2; intros b pos L1 L2; simpl; auto.
  - destruct b; [reflexivity|inversion L1].
  - destruct b; [reflexivity|inversion L2].
  - destruct (read_entry b) as [[[r len] rest]|] eqn:E; auto.
    destruct (read_entry_inv _ _ _ _ E) as (chunk & -> & L & _). rewrite app_length in *. f_equal. apply IHf1; lia.
Qed.

Lemma parse_fuel : forall f b pos, (length b <= f)%nat -> parse_entries f pos b = parse_body pos b.
Proof. intros. unfold parse_body. apply parse_fuel_gen; auto. Qed.

Lemma parse_body_step : forall pos b,
  parse_body pos b = match read_entry b with
                     | None => []
                     | Some (r, len, rest) => (pos, r) :: parse_body (pos + len) rest
                     end.
Proof.
  intros. unfold parse_body at 1. destruct b.
  - reflexivity.
  - cbn [length parse_entries].
    destruct (read_entry (n :: b)) as [[[r len] rest]|] eqn:E; auto.
    f_equal. apply parse_fuel. destruct (read_entry_inv _ _ _ _ E) as (chunk & Eb & L & _).
    apply (f_equal (@length N)) in Eb. rewrite app_length in Eb. simpl in Eb. lia.
Qed.

Lemma parse_offsets_ge : forall f pos b o r, In (o, r) (parse_entries f pos b) -> pos <= o.
Proof.
  induction f; simpl; intros; try contradiction.
  destruct (read_entry b) as [[[r0 len] rest]|] eqn:E; simpl in H; try contradiction.
  destruct H.
  - injection H as <- _. reflexivity.
  - apply IHf in H. lia.
Qed.

Lemma parse_offsets_sorted : forall f pos b,
  StronglySorted (fun a b : N * rec => fst a < fst b) (parse_entries f pos b).
Proof.
  induction f; simpl; intros. constructor.
  destruct (read_entry b) as [[[r len] rest]|] eqn:E; [|constructor].
  constructor; auto.
  apply Forall_forall. intros [o r'] I. simpl.
  apply parse_offsets_ge in I. destruct (read_entry_inv _ _ _ _ E) as (chunk & _ & _ & L & _). lia.
Qed.

Lemma parse_cut_ge : forall pos body pre cut c rest, parse_body pos body = pre ++ (cut, c) :: rest -> pos <= cut.
Proof.
  intros pos body pre cut c rest E. apply (parse_offsets_ge (length body) pos body cut c).
  fold (parse_body pos body). rewrite E. apply in_elt.
Qed.

(* for [new_file_records_in]: the old file copied up to __inPosOld parses as its records before that offset, whatever follows *)
Lemma parse_cut : forall pre body pos cut c rest tail,
  parse_body pos body = pre ++ (cut, c) :: rest ->
  parse_body pos (firstn (N.to_nat (cut - pos)) body ++ tail) = pre ++ parse_body cut tail.
Proof.
  induction pre as [|[o r] pre IH]; intros body pos cut c rest tail E;
    rewrite parse_body_step in E; destruct (read_entry body) as [[[r' len] rb]|] eqn:R; try discriminate.
  - injection E as -> _ _. rewrite N.sub_diag. reflexivity.
  - injection E as -> -> E.
    pose proof (parse_cut_ge _ _ _ _ _ _ E) as Hge.
    assert (Hr : rb <> []) by (intros ->; destruct pre; discriminate E).
    destruct (read_entry_inv _ _ _ _ R) as (chunk & Eb & _ & _ & C). destruct (C Hr) as [Lc Rd].
    rewrite Eb, firstn_app, firstn_all2, <- app_assoc, parse_body_step, Rd by lia. simpl. f_equal.
    rewrite <- (Nat2N.id (length chunk)), Lc, <- N2Nat.inj_sub, <- N.sub_add_distr. eapply IH, E.
Qed.

Lemma parse_ser : forall es pos, Forall rec_fits es ->
  map snd (parse_body pos (flat_map ser_rec es)) = map fit_rec es.
Proof.
  induction es; intros pos F; cbn [flat_map].
  - reflexivity.
  - inversion F; subst. rewrite parse_body_step, read_entry_ser by auto. cbn [map snd]. f_equal. apply IHes. auto.
Qed.

Lemma SIGNATURE_length : length SIGNATURE = 4%nat.
Proof. reflexivity. Qed.

Lemma new_file_records_in : forall b pre cut c rest es,
  bytes_eqb (firstn 4 b) SIGNATURE = true ->
  parse_body 4 (skipn 4 b) = pre ++ (cut, c) :: rest ->
  Forall rec_fits es ->
  file_records (firstn (N.to_nat cut) b ++ flat_map ser_rec es) = map snd pre ++ map fit_rec es.
Proof.
  intros b pre cut c rest es Hs Hc Hp. apply bytes_eqb_eq in Hs.
  assert (L4 : length (firstn 4 b) = 4%nat) by (rewrite Hs; apply SIGNATURE_length).
  pose proof (parse_cut_ge _ _ _ _ _ _ Hc) as Hge.
  unfold file_records.
  assert (E : skipn 4 (firstn (N.to_nat cut) b ++ flat_map ser_rec es) =
              firstn (N.to_nat (cut - 4)) (skipn 4 b) ++ flat_map ser_rec es).
  { rewrite skipn_app, skipn_firstn_comm, N2Nat.inj_sub.
    replace (4 - length (firstn (N.to_nat cut) b))%nat with 0%nat by (rewrite firstn_length in *; lia).
    reflexivity. }
  rewrite E, (parse_cut _ _ _ _ _ _ _ Hc), map_app, parse_ser; auto.
Qed.

Lemma new_file_records_none : forall es, Forall rec_fits es ->
  file_records (SIGNATURE ++ flat_map ser_rec es) = map fit_rec es.
Proof.
  intros. unfold file_records. rewrite (skipn_len_app _ SIGNATURE) by apply SIGNATURE_length.
  apply parse_ser. auto.
Qed.

Arguments SIGNATURE : simpl never.

Definition it_packable (it : item) : Prop :=
  let st := snd (fst it) in
  st_ctime st < 18446744073709551616 /\ st_mtime st < 18446744073709551616 /\ st_dev st < 18446744073709551616 /\
  st_mode st < 4294967296 /\ st_size st < 18446744073709551616 /\ N.of_nat (length (item_name it)) < 65536.

Lemma items_packable : forall ign es, packable es -> Forall it_packable (items_entries [] (norm_entries ign es)).
Proof.
  intros ign es A. apply (items_all node_packable); [intros p n st d B; exact B ..|].
  apply entries_all_norm with (P := node_packable); auto.
Qed.

Lemma mask_ino_bound : forall i, mask_ino i < 18446744073709551616.
Proof.
  intros. unfold mask_ino. change 18446744073709551615 with (N.ones 64).
  rewrite N.land_ones. apply N.mod_lt. discriminate.
Qed.

Lemma new_rec_fits : forall name st blob, it_packable (name, st, blob) -> forall d, rec_fits (new_rec name st d).
Proof.
  intros name st blob (R1 & R2 & R3 & R4 & R5 & R6) d. unfold item_name in R6. simpl in *.
  repeat split; auto. apply mask_ino_bound.
Qed.

Lemma rec_ok_fit : forall H c r, (forall x, length (H x) = 20%nat) -> rec_ok H c r -> rec_ok H c (fit_rec r).
Proof. intros H c r Hlen E. unfold rec_ok, fit_rec. simpl. rewrite E. apply fit20_id, Hlen. Qed.

Lemma close_index_records : forall f s cut es,
  i_out s = Some (cut, es) -> Forall rec_fits es ->
  exists b', close_index (fst (open_index f)) s = Some b' /\
    forall pre c rest, seq_of (snd (open_index f)) = pre ++ (cut, c) :: rest ->
                       file_records b' = map snd pre ++ map fit_rec es.
Proof.
  intros f s cut es O Pk. unfold close_index. rewrite O. eexists. split; [reflexivity|]. intros pre c rest.
  destruct f as [b|]; unfold open_index.
  - destruct (bytes_eqb (firstn 4 b) SIGNATURE) eqn:Sig.
    + destruct (parse_body 4 (skipn 4 b)) as [|[o r] tl] eqn:EP; cbn [fst snd seq_of i_posold i_cur i_rest]; intros E.
      * rewrite (unit_eq_app_cons _ _ _ _ _ E) in E |- *. injection E as <- _ _.
        apply bytes_eqb_eq in Sig. change (N.to_nat 4) with 4%nat. rewrite Sig. apply new_file_records_none, Pk.
      * eapply new_file_records_in; eauto. rewrite EP. exact E.
    + intros E. rewrite (unit_eq_app_cons _ _ _ _ _ E). apply new_file_records_none, Pk.
  - intros E. rewrite (unit_eq_app_cons _ _ _ _ _ E). apply new_file_records_none, Pk.
Qed.

Lemma next_file_None : forall f', next_file None f' = f'.
Proof. intros []; reflexivity. Qed.

Lemma next_file_records : forall H ign f es, packable es ->
  match i_out (run H ign f es) with
  | None => next_file f (snd (hash_cached H ign f es)) = f
  | Some (cut, es') =>
      exists b', next_file f (snd (hash_cached H ign f es)) = Some b' /\
        forall pre c rest, seq_of (snd (open_index f)) = pre ++ (cut, c) :: rest ->
                           file_records b' = map snd pre ++ map fit_rec es'
  end.
Proof.
  intros H ign f es Hp. destruct (hash_cached_spec H ign f es) as (d & -> & _). simpl.
  pose proof (run_winv H rec_fits _ ign f es (fun name st blob c Q _ => new_rec_fits name st blob Q _)
                (items_packable ign es Hp)) as [_ W].
  destruct (i_out (run H ign f es)) as [[cut es']|] eqn:O.
  - destruct (close_index_records f _ cut es' O (proj2 W)) as (b' & -> & Er). exists b'. split; [reflexivity|exact Er].
  - unfold close_index. rewrite O. reflexivity.
Qed.

(* the records kept are records of the old file (never the empty record the reader starts on when there is none) *)
Lemma kept_ok : forall H c f pre x rest, file_ok H c f -> seq_of (snd (open_index f)) = pre ++ x :: rest ->
  Forall (rec_ok H c) (map snd pre).
Proof.
  intros H c f pre x rest Hf. apply open_index_seq.
  - intros o E. rewrite (unit_eq_app_cons _ _ _ _ _ E). constructor.
  - intros b -> E. unfold file_ok, file_records in Hf. rewrite E, map_app in Hf. apply Forall_app in Hf. apply Hf.
Qed.

Lemma sorted_pass : forall a b n c,
  StronglySorted bytes_lt (a ++ n :: c) -> StronglySorted bytes_lt (a ++ b) -> Forall (fun y => bytes_lt y n) b ->
  StronglySorted bytes_lt ((a ++ b) ++ n :: c).
Proof.
  intros a b n c S1 S2 F. apply ListFacts.StronglySorted_app_iff in S1 as (_ & Sn & D). apply ListFacts.StronglySorted_app_iff.
  split; [exact S2|]. split; [exact Sn|].
  intros x y Ix Iy. apply in_app_or in Ix. destruct Ix as [Ix|Ix]; [apply D; auto|].
  rewrite Forall_forall in F. destruct Iy as [<-|Iy]; [auto|].
  apply (bytes_lt_trans _ n); auto. apply StronglySorted_inv in Sn as [_ Fn]. rewrite Forall_forall in Fn. auto.
Qed.

Lemma sorted_drop : forall (A : Type) (R : A -> A -> Prop) a n c,
  StronglySorted R (a ++ n :: c) -> StronglySorted R (a ++ c).
Proof.
  intros A R a n c S. apply ListFacts.StronglySorted_app_iff in S as (Sa & Sn & D). apply ListFacts.StronglySorted_app_iff.
  apply StronglySorted_inv in Sn as [Sc _]. repeat split; auto. intros x y Ix Iy. apply D; simpl; auto.
Qed.

Section Sorted.
  Variable H : list N -> list N.
  Variable all : list (N * rec).
  Hypothesis name_sorted : StronglySorted (fun a b => bytes_lt (rname a) (rname b)) all.

  (* [fut]: the names still to be checked.  They come, in order, after the records passed (until something is
     written) and after the records kept and written (from then on). *)
  Definition sorted_inv (s : ist) (fut : list (list N)) : Prop :=
    match i_out s with
    | None => exists pre, all = pre ++ seq_of s /\ StronglySorted bytes_lt (map rname pre ++ fut)
    | Some (cut, es) =>
        exists pre c rest, all = pre ++ (cut, c) :: rest /\
          StronglySorted bytes_lt ((map rname pre ++ map r_name es) ++ fut)
    end.

  Lemma sorted_inv_step : forall s name st blob fut,
    sorted_inv s (name :: fut) -> sorted_inv (istep H s (name, st, blob)) fut.
  Proof.
    intros s name st blob fut I. unfold sorted_inv in *.
    destruct (i_out s) as [[cut es]|] eqn:O.
    - destruct I as (pre & c & rest & E & S).
      destruct (istep_out H s name st blob) as [-> | ->]; rewrite O; exists pre, c, rest; (split; [exact E|]).
      + exact (sorted_drop _ _ _ _ _ S).
      + rewrite map_app, app_assoc, <- (app_assoc _ [name]). exact S.
    - destruct I as (pre & E & S).
      destruct (istep_pos H s name st blob) as (mv & E' & Fmv). rewrite E', app_assoc in E.
      (* the records passed now are records of [all], so they continue [pre] in order *)
      assert (S' : StronglySorted bytes_lt (map rname (pre ++ mv) ++ name :: fut)).
      { rewrite map_app. apply sorted_pass; [exact S| |apply Forall_map, Fmv].
        pose proof name_sorted as NS. rewrite E in NS.
        rewrite <- map_app. exact (proj1 (SS_map _ _ rname bytes_lt _) (proj1 (proj1 (ListFacts.StronglySorted_app_iff _ _ _ _) NS))). }
      destruct (istep_out H s name st blob) as [-> | ->]; rewrite O.
      + exists (pre ++ mv). split; [exact E|exact (sorted_drop _ _ _ _ _ S')].
      + (* the first record written: the copied prefix is what the reader has passed *)
        eexists (pre ++ mv), _, _. split; [exact E|]. rewrite <- app_assoc. exact S'.
  Qed.

  Lemma sorted_inv_fold : forall its s,
    sorted_inv s (map item_name its) -> sorted_inv (fold_left (istep H) its s) [].
  Proof.
    induction its as [|[[name st] blob] its IH]; intros s I; [exact I|]. apply IH, sorted_inv_step, I.
  Qed.
End Sorted.

Lemma open_index_sorted : forall f, file_sorted f ->
  StronglySorted (fun a b => bytes_lt (rname a) (rname b)) (seq_of (snd (open_index f))).
Proof.
  intros f Hs. apply open_index_seq; [repeat constructor|]. intros b ->.
  unfold file_sorted, names_in_file, file_records in Hs. rewrite map_map in Hs.
  exact (proj2 (SS_map _ _ rname bytes_lt _) Hs).
Qed.

Lemma run_sorted : forall H ign f es,
  file_sorted f -> StronglySorted bytes_lt (checked_entries [] (norm_entries ign es)) ->
  sorted_inv (seq_of (snd (open_index f))) (run H ign f es) [].
Proof.
  intros H ign f es Hs S. rewrite <- items_names in S. apply sorted_inv_fold; [apply open_index_sorted, Hs|].
  unfold sorted_inv. rewrite open_index_out. exists []. split; [reflexivity|exact S].
Qed.
