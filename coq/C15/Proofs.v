(* C15 — proofs about the LTS of Model.v.  [step] is analysed once, into the rules [moves]; the effects of a
   move and the invariants they preserve are stated about [moves]; [inv] holds along every schedule.  Two
   invariants about the history stand beside [inv], each with an induction of its own: [once_inv] (the log of
   renames into the store and moves to an attic; installed_at_most_once) and [cand_hist] (every candidate a gc
   holds as unused has its scan earlier in the schedule; never_collected_while_used_partial). *)
From Coq Require Import List NArith Bool Arith Lia Permutation Sorted.

Require BobV.Common.ListFacts.
Require Import BobV.C15.Model.

Import ListNotations.

Open Scope N_scope.

Lemma lookup_set_key_same : forall A k (v : A) l, lookup k (set_key k v l) = Some v.
Proof.
  induction l as [|[k' v'] r IH]; cbn; [rewrite N.eqb_refl; reflexivity|].
  destruct (k =? k') eqn:E; cbn; rewrite ?N.eqb_refl, ?E; auto.
Qed.

Lemma lookup_set_key_other : forall A k k' (v : A) l, k' <> k -> lookup k' (set_key k v l) = lookup k' l.
Proof.
  induction l as [|[k2 v2] r IH]; intros Hne; cbn.
  - destruct (k' =? k) eqn:E; [apply N.eqb_eq in E; congruence|reflexivity].
  - destruct (k =? k2) eqn:E; cbn.
    + apply N.eqb_eq in E; subst k2.
      destruct (k' =? k) eqn:E2; [apply N.eqb_eq in E2; congruence|reflexivity].
    + destruct (k' =? k2); auto.
Qed.

Lemma lookup_remove_key_same : forall A k (l : list (N * A)), lookup k (remove_key k l) = None.
Proof.
  induction l as [|[k' v'] r IH]; cbn; auto.
  destruct (k =? k') eqn:E; cbn; rewrite ?E; auto.
Qed.

Lemma lookup_remove_key_other : forall A k k' (l : list (N * A)), k' <> k -> lookup k' (remove_key k l) = lookup k' l.
Proof.
  induction l as [|[k2 v2] r IH]; intros Hne; cbn; auto.
  destruct (k =? k2) eqn:E; cbn.
  - apply N.eqb_eq in E; subst k2. destruct (k' =? k) eqn:E2; [apply N.eqb_eq in E2; congruence|auto].
  - destruct (k' =? k2); auto.
Qed.

Lemma lookup_app_new : forall A k (v : A) l, lookup k l = None -> lookup k (l ++ [(k, v)]) = Some v.
Proof.
  induction l as [|[k2 v2] r IH]; cbn; intros H; [rewrite N.eqb_refl; reflexivity|].
  destruct (k =? k2); [discriminate|auto].
Qed.

Lemma lookup_app_other : forall A k k' (v : A) l, k' <> k -> lookup k' (l ++ [(k, v)]) = lookup k' l.
Proof.
  induction l as [|[k2 v2] r IH]; cbn; intros H.
  - destruct (k' =? k) eqn:E; [apply N.eqb_eq in E; congruence|reflexivity].
  - destruct (k' =? k2); auto.
Qed.

Lemma has_key_lookup : forall A k (l : list (N * A)), has_key k l = true <-> exists v, lookup k l = Some v.
Proof.
  unfold has_key; intros A k l; destruct (lookup k l) as [v|]; split; intros H.
  - exists v; reflexivity.
  - reflexivity.
  - discriminate H.
  - destruct H as [v H]; discriminate H.
Qed.

Lemma has_key_false : forall A k (l : list (N * A)), has_key k l = false <-> lookup k l = None.
Proof. unfold has_key; intros; destruct (lookup k l); split; intros; congruence. Qed.

Lemma lookup_In : forall A k (v : A) l, lookup k l = Some v -> In (k, v) l.
Proof.
  induction l as [|[k2 v2] r IH]; cbn; intros H; [discriminate|].
  destruct (k =? k2) eqn:E; [apply N.eqb_eq in E; inversion H; subst; auto|auto].
Qed.

Lemma In_keys_lookup : forall A k (l : list (N * A)), In k (map fst l) <-> exists v, lookup k l = Some v.
Proof.
  induction l as [|[k2 v2] r IH]; cbn; split; intros H.
  - destruct H.
  - destruct H; discriminate.
  - destruct (k =? k2) eqn:E; eauto. destruct H as [H|H]; [subst; rewrite N.eqb_refl in E; discriminate|apply IH; auto].
  - destruct (k =? k2) eqn:E; [apply N.eqb_eq in E; auto|right; apply IH; auto].
Qed.

Lemma NoDup_lookup_In : forall A k (v : A) l, NoDup (map fst l) -> In (k, v) l -> lookup k l = Some v.
Proof.
  induction l as [|[k2 v2] r IH]; cbn; intros ND H; [destruct H|].
  inversion ND; subst. destruct H as [H|H].
  - inversion H; subst. rewrite N.eqb_refl; reflexivity.
  - destruct (k =? k2) eqn:E; [|auto].
    apply N.eqb_eq in E; subst. exfalso; apply H2. apply in_map_iff; exists (k2, v); auto.
Qed.

Lemma keys_set_key_In : forall A k k' (v : A) l, In k' (map fst (set_key k v l)) <-> k' = k \/ In k' (map fst l).
Proof.
  intros A k k' v l. rewrite !In_keys_lookup. destruct (N.eq_dec k' k) as [->|Hne].
  - rewrite lookup_set_key_same. split; eauto.
  - rewrite lookup_set_key_other by exact Hne. split; [auto|intros [E|H]; [contradiction|exact H]].
Qed.

Lemma NoDup_set_key : forall A k (v : A) l, NoDup (map fst l) -> NoDup (map fst (set_key k v l)).
Proof.
  induction l as [|[k2 v2] r IH]; cbn; intros ND; [constructor; auto; constructor|].
  inversion ND; subst.
  destruct (k =? k2) eqn:E; cbn.
  - apply N.eqb_eq in E; subst; constructor; auto.
  - constructor; auto. rewrite keys_set_key_In. intros [H|H]; [subst; rewrite N.eqb_refl in E; discriminate|auto].
Qed.

Lemma keys_remove_key_In : forall A k k' (l : list (N * A)), In k' (map fst (remove_key k l)) <-> k' <> k /\ In k' (map fst l).
Proof.
  intros A k k' l. rewrite !In_keys_lookup. destruct (N.eq_dec k' k) as [->|Hne].
  - rewrite lookup_remove_key_same. split; [intros [v E]; discriminate E|intros [E _]; contradiction].
  - rewrite lookup_remove_key_other by exact Hne. split; [auto|intros [_ H]; exact H].
Qed.

Lemma NoDup_remove_key : forall A k (l : list (N * A)), NoDup (map fst l) -> NoDup (map fst (remove_key k l)).
Proof.
  induction l as [|[k2 v2] r IH]; cbn; intros ND; auto.
  inversion ND; subst. destruct (k =? k2); auto.
  cbn; constructor; auto. rewrite keys_remove_key_In; tauto.
Qed.

Lemma In_remove_key : forall A k k' (v : A) l, In (k', v) (remove_key k l) <-> k' <> k /\ In (k', v) l.
Proof.
  induction l as [|[k2 v2] r IH]; cbn; [intuition|].
  destruct (k =? k2) eqn:E; cbn.
  - apply N.eqb_eq in E; subst. rewrite IH. split.
    + intros [? ?]; auto.
    + intros [Hne [Heq|Hin]]; [inversion Heq; subst; congruence|auto].
  - assert (k2 <> k) by (intros ->; rewrite N.eqb_refl in E; discriminate).
    rewrite IH. split.
    + intros [Heq|[? ?]]; [inversion Heq; subst; auto|auto].
    + intros [Hne [Heq|Hin]]; auto.
Qed.

Lemma lookup_remove_key_some : forall A k k' (v : A) l, lookup k' (remove_key k l) = Some v -> lookup k' l = Some v.
Proof.
  intros A k k' v l H. destruct (N.eq_dec k' k) as [->|Hne].
  - rewrite lookup_remove_key_same in H; discriminate.
  - rewrite lookup_remove_key_other in H; auto.
Qed.

Lemma lookup_set_key_some : forall A k k' (v v' : A) l, lookup k' (set_key k v l) = Some v' ->
  (k' = k /\ v' = v) \/ (k' <> k /\ lookup k' l = Some v').
Proof.
  intros A k k' v v' l H. destruct (N.eq_dec k' k) as [->|Hne].
  - rewrite lookup_set_key_same in H. left; split; congruence.
  - rewrite lookup_set_key_other in H; auto.
Qed.

Lemma In_set_key_nodup : forall A k k' (v v' : A) l, NoDup (map fst l) ->
  In (k', v') (set_key k v l) -> (k' = k /\ v' = v) \/ (k' <> k /\ In (k', v') l).
Proof.
  intros A k k' v v' l ND H. apply (NoDup_lookup_In _ _ _ _ (NoDup_set_key _ _ _ _ ND)) in H.
  destruct (lookup_set_key_some _ _ _ _ _ _ H) as [E|[Hne H0]]; [auto|right; split; [exact Hne|exact (lookup_In _ _ _ _ H0)]].
Qed.

Lemma set_key_new : forall A k (v : A) l, ~ In k (map fst l) -> set_key k v l = l ++ [(k, v)].
Proof.
  induction l as [|[k2 v2] r IH]; cbn; intros H; [reflexivity|].
  destruct (N.eqb_spec k k2) as [->|Hne]; [tauto|]. rewrite IH; tauto.
Qed.

Lemma has_key_set_key_present : forall A k (v : A) l q, has_key k l = true -> has_key q (set_key k v l) = has_key q l.
Proof.
  intros A k v l q Hk. unfold has_key. destruct (N.eq_dec q k) as [->|Hne].
  - rewrite lookup_set_key_same. apply has_key_lookup in Hk. destruct Hk as (v0 & ->). reflexivity.
  - rewrite lookup_set_key_other by auto. reflexivity.
Qed.

Lemma sum_sizes_cons : forall e l, sum_sizes (e :: l) = snd e + sum_sizes l.
Proof. reflexivity. Qed.

Lemma sum_sizes_perm : forall l l', Permutation l l' -> sum_sizes l = sum_sizes l'.
Proof. induction 1; rewrite ?sum_sizes_cons; lia. Qed.

Lemma remove_key_absent : forall A k (l : list (N * A)), ~ In k (map fst l) -> remove_key k l = l.
Proof.
  induction l as [|[k2 v2] r IH]; cbn; intros H; [reflexivity|].
  destruct (N.eqb_spec k k2) as [->|Hne]; [tauto|]. rewrite IH; tauto.
Qed.

Lemma remove_key_perm : forall A k (v : A) l, NoDup (map fst l) -> In (k, v) l -> Permutation l ((k, v) :: remove_key k l).
Proof.
  induction l as [|[k2 v2] r IH]; cbn; intros ND H; [destruct H|].
  apply NoDup_cons_iff in ND. destruct ND as [Hnin ND]. destruct (N.eqb_spec k k2) as [<-|Hne].
  - destruct H as [H|H]; [|exfalso; apply Hnin; apply (in_map fst) in H; exact H].
    inversion H; subst. rewrite remove_key_absent by exact Hnin. reflexivity.
  - destruct H as [H|H]; [inversion H; congruence|].
    rewrite perm_swap. apply perm_skip, IH; assumption.
Qed.

Lemma sum_remove_key : forall l q sz, NoDup (map fst l) -> In (q, sz) l -> sum_sizes (remove_key q l) + sz = sum_sizes l.
Proof.
  intros l q sz ND H. rewrite (sum_sizes_perm _ _ (remove_key_perm _ _ _ _ ND H)), sum_sizes_cons. cbn [snd]. lia.
Qed.

Lemma lookup_perm : forall A q (l l' : list (N * A)), NoDup (map fst l) -> Permutation l l' -> lookup q l = lookup q l'.
Proof.
  intros A q l l' ND P.
  assert (ND' : NoDup (map fst l')) by (eapply Permutation_NoDup; [apply Permutation_map; exact P|exact ND]).
  destruct (lookup q l) as [v|] eqn:E.
  - symmetry. apply NoDup_lookup_In; [exact ND'|]. eapply Permutation_in; [exact P|]. apply lookup_In; exact E.
  - destruct (lookup q l') as [v|] eqn:E'; [|reflexivity].
    rewrite <- E. apply NoDup_lookup_In; [exact ND|]. eapply Permutation_in; [apply Permutation_sym; exact P|]. apply lookup_In; exact E'.
Qed.

(* the form of the accounting invariant [acct] (there [l] is repo.json followed by what is owed to it, [f] the size
   in pkg.json), about any list and function so that the lemmas on permutations and single entries need no state *)
Definition tallies (l : list (N * N)) (f : N -> option N) : Prop :=
  NoDup (map fst l) /\ forall q, lookup q l = f q.

Lemma tallies_perm : forall l l' f f', Permutation l l' -> (forall q, f' q = f q) -> tallies l f -> tallies l' f'.
Proof.
  intros l l' f f' P E [ND H]. split.
  - eapply Permutation_NoDup; [apply Permutation_map; exact P|exact ND].
  - intros q. rewrite E, <- H. symmetry. apply lookup_perm; assumption.
Qed.

Lemma tallies_cons : forall p sz l f f', f p = Some sz -> f' p = None -> (forall q, q <> p -> f' q = f q) ->
  (tallies ((p, sz) :: l) f <-> tallies l f').
Proof.
  intros p sz l f f' Hp Hp' Ho. unfold tallies. cbn [map fst lookup]. rewrite NoDup_cons_iff, In_keys_lookup.
  split; intros [ND H].
  - split; [tauto|]. intros q. destruct (N.eqb_spec q p) as [->|Hne].
    + rewrite Hp'. destruct (lookup p l) eqn:E; [exfalso; apply (proj1 ND); eauto|reflexivity].
    + rewrite (Ho q Hne), <- H. destruct (N.eqb_spec q p); [contradiction|reflexivity].
  - split; [split; [intros (v & E); rewrite H in E; congruence|exact ND]|].
    intros q. destruct (N.eqb_spec q p) as [->|Hne]; [congruence|]. rewrite H. auto.
Qed.

Lemma nth_error_set_nth_same : forall A (l : list A) i x y, nth_error l i = Some y -> nth_error (set_nth l i x) i = Some x.
Proof. induction l; destruct i; cbn; intros; try discriminate; eauto. Qed.

Lemma nth_error_set_nth_other : forall A (l : list A) i j x, i <> j -> nth_error (set_nth l i x) j = nth_error l j.
Proof. induction l; destruct i, j; cbn; intros; try congruence; auto. Qed.

Lemma set_nth_length : forall A (l : list A) i x, length (set_nth l i x) = length l.
Proof. induction l; destruct i; cbn; intros; auto. Qed.

Lemma set_nth_split : forall A (l : list A) i x, nth_error l i = Some x ->
  exists l1 l2, l = l1 ++ x :: l2 /\ forall y, set_nth l i y = l1 ++ y :: l2.
Proof.
  induction l as [|z l IH]; destruct i; cbn; intros x H; try discriminate.
  - inversion H; subst. exists [], l. split; reflexivity.
  - destruct (IH i x H) as (l1 & l2 & -> & E). exists (z :: l1), l2. split; [reflexivity|]. intros y. cbn. rewrite E. reflexivity.
Qed.

Lemma flat_map_nil : forall A B (f : A -> list B) l, (forall x, In x l -> f x = []) -> flat_map f l = [].
Proof. induction l as [|x l IH]; cbn; intros H; [reflexivity|]. rewrite (H x), IH; auto. Qed.

Lemma forallb_set_nth : forall A (f : A -> bool) l i x,
  forallb f l = true -> f x = true -> forallb f (set_nth l i x) = true.
Proof.
  induction l; destruct i; cbn; intros; auto; apply andb_true_iff in H; destruct H; apply andb_true_iff; auto.
Qed.

Lemma forallb_nth : forall A (f : A -> bool) l i x, forallb f l = true -> nth_error l i = Some x -> f x = true.
Proof.
  intros. rewrite forallb_forall in H. apply H. eapply nth_error_In; eauto.
Qed.

Lemma app_snoc_split : forall A (l pre post : list A) (c x : A), l ++ [c] = pre ++ x :: post ->
  (post = [] /\ x = c /\ pre = l) \/ (exists post0, post = post0 ++ [c] /\ l = pre ++ x :: post0).
Proof.
  intros A l pre post c x E. destruct (exists_last (l := x :: post)) as (post0 & y & Ey); [discriminate|].
  rewrite Ey in E. rewrite app_assoc in E. apply app_inj_tail in E. destruct E as [E1 E2]. subst y.
  destruct post0 as [|z post0].
  - cbn in Ey. inversion Ey; subst. left. rewrite app_nil_r. auto.
  - cbn in Ey. inversion Ey; subst. right. exists post0. auto.
Qed.

Lemma insert_cand_perm : forall c l, Permutation (insert_cand c l) (c :: l).
Proof.
  induction l as [|x r IH]; cbn; auto. destruct (cand_leb c x); auto.
  eapply perm_trans; [apply perm_skip; exact IH|apply perm_swap].
Qed.

Lemma sort_cands_perm : forall l, Permutation (sort_cands l) l.
Proof.
  induction l as [|x r IH]; cbn; auto. eapply perm_trans; [apply insert_cand_perm|]. auto.
Qed.

Lemma In_insert_cand : forall c x l, In c (insert_cand x l) <-> In c (x :: l).
Proof. intros c x l. split; apply Permutation_in; [|apply Permutation_sym]; apply insert_cand_perm. Qed.

Lemma In_sort_cands : forall c l, In c (sort_cands l) <-> In c l.
Proof. intros c l. split; apply Permutation_in; [|apply Permutation_sym]; apply sort_cands_perm. Qed.

(* cand_leb compares (pkgUnused, pkgTime, size, pkg) lexicographically: one component *)
Definition lexb (lt gt rest : bool) : bool := if lt then true else if gt then false else rest.

Lemma lexb_true : forall x y r, lexb (x <? y) (y <? x) r = true <-> x < y \/ (x = y /\ r = true).
Proof.
  unfold lexb; intros x y r. destruct (N.ltb_spec x y) as [L|L]; [split; auto|].
  destruct (N.ltb_spec y x) as [G|G]; split; try discriminate; try lia.
  - intros H. right. split; [lia|exact H].
  - intros [H|[_ H]]; [lia|exact H].
Qed.

Lemma lexb_trans : forall x y z r1 r2 r3, (x = y -> y = z -> r1 = true -> r2 = true -> r3 = true) ->
  lexb (x <? y) (y <? x) r1 = true -> lexb (y <? z) (z <? y) r2 = true -> lexb (x <? z) (z <? x) r3 = true.
Proof.
  intros x y z r1 r2 r3 H. rewrite !lexb_true. intros [L1|[E1 R1]] [L2|[E2 R2]]; try (left; lia). right. split; [lia|auto].
Qed.

Lemma lexb_total : forall x y r r', (x = y -> r = false -> r' = true) ->
  lexb (x <? y) (y <? x) r = false -> lexb (y <? x) (x <? y) r' = true.
Proof.
  unfold lexb; intros x y r r' H. destruct (N.ltb_spec x y), (N.ltb_spec y x); try discriminate; try reflexivity; try lia.
  apply H; lia.
Qed.

Lemma cand_leb_lex : forall a b, cand_leb a b =
  lexb (N.b2n (c_unused a) <? N.b2n (c_unused b)) (N.b2n (c_unused b) <? N.b2n (c_unused a))
    (lexb (c_mtime a <? c_mtime b) (c_mtime b <? c_mtime a) (lexb (c_size a <? c_size b) (c_size b <? c_size a) (c_id a <=? c_id b))).
Proof. intros a b. unfold cand_leb, bool_ltb. destruct (c_unused a), (c_unused b); reflexivity. Qed.

Lemma cand_leb_total : forall a b, cand_leb a b = false -> cand_leb b a = true.
Proof.
  intros a b. rewrite !cand_leb_lex. repeat (apply lexb_total; intros _).
  intros H. apply N.leb_gt in H. apply N.leb_le. lia.
Qed.

Lemma cand_leb_trans : forall a b c, cand_leb a b = true -> cand_leb b c = true -> cand_leb a c = true.
Proof.
  intros a b c. rewrite !cand_leb_lex. repeat (apply lexb_trans; intros _ _).
  rewrite !N.leb_le. lia.
Qed.

Lemma insert_cand_sorted : forall c l, StronglySorted cand_le l -> StronglySorted cand_le (insert_cand c l).
Proof.
  induction l as [|x r IH]; cbn; intros S.
  - constructor; [constructor|constructor].
  - inversion S as [|? ? Sr Fx]; subst. destruct (cand_leb c x) eqn:E.
    + constructor; auto. constructor; [exact E|].
      rewrite Forall_forall in *. intros y Hy. eapply cand_leb_trans; [exact E|apply Fx; auto].
    + constructor; [apply IH; auto|]. rewrite Forall_forall in *. intros y Hy.
      apply In_insert_cand in Hy. destruct Hy as [<-|Hy]; [apply cand_leb_total; auto|apply Fx; auto].
Qed.

Lemma sort_cands_sorted : forall l, StronglySorted cand_le (sort_cands l).
Proof. induction l; cbn; [constructor|apply insert_cand_sorted; auto]. Qed.

Lemma sizes_cons : forall c l, sizes (c :: l) = c_size c + sizes l.
Proof. reflexivity. Qed.

Lemma sizes_app : forall a b, sizes (a ++ b) = sizes a + sizes b.
Proof. induction a; intros; [reflexivity|rewrite <- app_comm_cons, !sizes_cons, IHa; lia]. Qed.

Lemma sizes_perm : forall a b, Permutation a b -> sizes a = sizes b.
Proof. induction 1; rewrite ?sizes_cons; lia. Qed.

Lemma NoDup_sorted_ids : forall l, NoDup (map c_id l) -> NoDup (map c_id (sort_cands l)).
Proof. intros l H. eapply Permutation_NoDup; [|exact H]. apply Permutation_map, Permutation_sym, sort_cands_perm. Qed.

Definition proc_at (s : state) (i : nat) (pr : proc) : Prop := nth_error (st_procs s) i = Some pr.

Lemma proc_at_upd : forall s i pr0 pr j prj,
  proc_at s i pr0 -> proc_at (upd_proc s i pr) j prj ->
  (j = i /\ prj = pr) \/ (j <> i /\ proc_at s j prj).
Proof.
  unfold proc_at; intros s i pr0 pr j prj H0 H. cbn in H.
  destruct (Nat.eq_dec i j) as [->|Hne].
  - rewrite (nth_error_set_nth_same _ _ _ _ _ H0) in H. inversion H; auto.
  - rewrite nth_error_set_nth_other in H by auto. right; split; auto.
Qed.

(* the local states in which [step] hands a gc to [after_scan] / [move_next] *)
Definition gc_loaded (pr : proc) (l : list (N * N)) : proc := set_gc (set_repo_mem pr l false 0) l [] [] [] 0.

Definition gc_scanned (pr : proc) (sz : N) : proc := set_repo_mem pr (p_meta pr) (p_dirty pr) (p_size pr + sz).

Definition gc_take (pr : proc) (c : cand) (rest : list cand) : proc :=
  set_gc (set_repo_mem pr (p_meta pr) (p_dirty pr) (p_size pr - c_size c))
         (p_todo pr) (p_cands pr) rest (p_done pr ++ [c]) (p_scan pr).

Definition gc_drop (pr : proc) (c : cand) (rest : list cand) : proc :=
  set_attic (set_repo_mem (gc_take pr c rest) (remove_key (c_id c) (p_meta pr)) true (p_size pr - c_size c))
            (p_attic pr ++ [c_id c]).

Definition dropped (s : state) (pr : proc) (q : N) : state :=
  with_log (with_repo (with_store s (remove_key q (st_store s))) (Some (remove_key q (p_meta pr))) true) (false, q).

Definition gc_sorted (pr : proc) : proc := set_gc pr [] (p_cands pr) (sort_cands (p_cands pr)) [] (p_scan pr).

(* the fields of updated processes, computed everywhere *)
Ltac proc_fields :=
  cbn [p_quota p_auto p_ops p_pc p_res p_tmp p_attic p_meta p_dirty p_size p_inst p_pmeta p_todo p_cands p_queue p_done p_scan
       set_pc set_tmp set_attic set_repo_mem set_inst set_pmeta set_gc finish gc_loaded gc_scanned gc_sorted gc_take gc_drop] in *.

(* [moves s pr a g pr']: in state [s] the process [pr], at control point [a], can do its next action; the
   file system becomes that of [g] (same processes as [s]) and the process becomes [pr'].  One rule per
   result of [step]; the outcome of a test is a premise only where an invariant needs it, so [moves] allows a
   little more than [step] does. *)
Inductive moves (s : state) (pr : proc) : pcT -> state -> proc -> Prop :=
| m_IStart_shared :
    moves s pr IStart (with_links s (remove_key (o_ws (cur pr)) (st_links s))) (set_pc pr UOpenRepo)
| m_IStart :
    moves s pr IStart (with_links s (remove_key (o_ws (cur pr)) (st_links s))) (set_pc pr ICopy)
| m_ICopy (Hhash : (o_tree (cur pr) =? o_expect (cur pr)) = true) :
    moves s pr ICopy (with_dir s)
      (set_pc (set_tmp pr (Some {| d_audit := true; d_tree := Some (o_tree (cur pr)); d_meta := None;
                                   d_trunc := false; d_mtime := 0 |})) IMeta)
| m_ICopy_hash :
    moves s pr ICopy (with_dir s) (finish pr (RFail FHash))
| m_IMeta d (Htmp : p_tmp pr = Some d) :
    moves s pr IMeta s
      (set_pc (set_tmp pr (Some (set_dmeta d (Some {| m_hash := o_expect (cur pr); m_size := o_size (cur pr);
                                                      m_users := [o_ws (cur pr)] |}) false (st_clk s)))) IRename)
| m_IRename_lost :
    moves s pr IRename s (set_pc pr UOpenRepo)
| m_IRename d (Htmp : p_tmp pr = Some d) (Hkey : has_key (o_pkg (cur pr)) (st_store s) = false) :
    moves s pr IRename (with_log (with_store s (st_store s ++ [(o_pkg (cur pr), d)])) (true, o_pkg (cur pr)))
      (set_pc (set_tmp pr None) IOpenRepo)
| m_IOpenRepo l (Hrepo : st_repo s = Some l) :
    moves s pr IOpenRepo s (set_pc pr ILockRepo)
| m_IOpenRepo_none :
    moves s pr IOpenRepo s (set_pc pr ICreateRepo)
| m_ICreateRepo_exists :
    moves s pr ICreateRepo s (set_pc pr IOpenRepo)
| m_ICreateRepo (Hrepo : st_repo s = None) :
    moves s pr ICreateRepo (with_repo s (Some []) false) (set_pc pr ILockRepo)
| m_ILockRepo l0 (Hfree : repo_free_x s = true) (Hdisk : disk_repo s = Some l0) :
    moves s pr ILockRepo (with_repo s (Some (set_key (o_pkg (cur pr)) (o_size (cur pr)) l0)) true)
      (set_pc (set_repo_mem pr (set_key (o_pkg (cur pr)) (o_size (cur pr)) l0) true
                 (sum_sizes (set_key (o_pkg (cur pr)) (o_size (cur pr)) l0))) IWrite)
| m_ILockRepo_noent (Hdisk : disk_repo s = None) :
    moves s pr ILockRepo s (finish pr (RFail FNoEnt))
| m_IWrite :
    moves s pr IWrite s (set_pc pr IUnlock)
| m_IUnlock :
    moves s pr IUnlock (with_repo s (Some (p_meta pr)) false) (set_pc (set_repo_mem pr (p_meta pr) false (p_size pr)) IClose)
| m_IClose_gc :
    moves s pr IClose s (set_pc (set_inst pr true) GStart)
| m_IClose :
    moves s pr IClose s (set_pc (set_inst pr true) IFinish)
| m_IFinish_link :
    moves s pr IFinish (with_links s (set_key (o_ws (cur pr)) (o_pkg (cur pr)) (st_links s)))
      (finish pr (RInstall (p_inst pr)))
| m_IFinish :
    moves s pr IFinish s (finish pr (RInstall (p_inst pr)))

| m_UOpenRepo :
    moves s pr UOpenRepo s (set_pc pr ULockRepo)
| m_UOpenRepo_create (Hrepo : st_repo s = None) :
    moves s pr UOpenRepo (with_repo s (Some []) false) (set_pc pr ULockRepo)
| m_UOpenRepo_nodir :
    moves s pr UOpenRepo s (use_return pr false)
| m_ULockRepo (Hfree : repo_free_s s = true) :
    moves s pr ULockRepo s (set_pc pr UOpenPkg)
| m_UOpenPkg :
    moves s pr UOpenPkg s (set_pc pr ULockPkg)
| m_UOpenPkg_none :
    moves s pr UOpenPkg s (use_return pr false)
| m_ULockPkg_user d m (Hfree : pkg_free_x s (o_pkg (cur pr)) = true)
    (Hlook : lookup (o_pkg (cur pr)) (st_store s) = Some d) (Hmeta : disk_meta d = Some m) :
    moves s pr ULockPkg s (set_pc (set_pmeta pr m false) UWrite)
| m_ULockPkg_append d m (Hfree : pkg_free_x s (o_pkg (cur pr)) = true)
    (Hlook : lookup (o_pkg (cur pr)) (st_store s) = Some d) (Hmeta : disk_meta d = Some m) :
    moves s pr ULockPkg
      (with_store s (set_key (o_pkg (cur pr))
         (set_dmeta d (Some {| m_hash := m_hash m; m_size := m_size m; m_users := m_users m ++ [o_ws (cur pr)] |})
                    true (d_mtime d)) (st_store s)))
      (set_pc (set_pmeta pr {| m_hash := m_hash m; m_size := m_size m; m_users := m_users m ++ [o_ws (cur pr)] |} true)
              UWrite)
| m_ULockPkg_corrupt d (Hfree : pkg_free_x s (o_pkg (cur pr)) = true)
    (Hlook : lookup (o_pkg (cur pr)) (st_store s) = Some d) (Hmeta : disk_meta d = None) :
    moves s pr ULockPkg s (finish pr (RFail FCorrupt))
| m_ULockPkg_none :
    moves s pr ULockPkg s (use_return pr false)
| m_UWrite :
    moves s pr UWrite s (set_pc pr UUnlockPkg)
| m_UWrite_utime d (Hlook : lookup (o_pkg (cur pr)) (st_store s) = Some d) :
    moves s pr UWrite
      (with_store s (set_key (o_pkg (cur pr)) (set_dmeta d (d_meta d) (d_trunc d) (st_clk s)) (st_store s)))
      (set_pc pr UUnlockPkg)
| m_UUnlockPkg_flush d (Hlook : lookup (o_pkg (cur pr)) (st_store s) = Some d) :
    moves s pr UUnlockPkg
      (with_store s (set_key (o_pkg (cur pr)) (set_dmeta d (Some (p_pmeta pr)) false (st_clk s)) (st_store s)))
      (set_pc (set_pmeta pr (p_pmeta pr) false) UClosePkg)
| m_UUnlockPkg (Hdirty : p_dirty pr = false) :
    moves s pr UUnlockPkg s (set_pc pr UClosePkg)
| m_UClosePkg :
    moves s pr UClosePkg s (set_pc pr UUnlockRepo)
| m_UUnlockRepo :
    moves s pr UUnlockRepo s (use_return pr true)
| m_UUnlink_linked :
    moves s pr UUnlink s (finish pr (RUse true))
| m_UUnlink :
    moves s pr UUnlink (with_links s (remove_key (o_ws (cur pr)) (st_links s))) (set_pc pr ULink)
| m_ULink :
    moves s pr ULink (with_links s (set_key (o_ws (cur pr)) (o_pkg (cur pr)) (st_links s))) (finish pr (RUse true))
| m_UUnshare :
    moves s pr UUnshare (with_links s (remove_key (o_ws (cur pr)) (st_links s))) (finish pr (RUse false))

| m_GStart l (Hrepo : st_repo s = Some l) :
    moves s pr GStart s (set_pc (set_gc pr [] [] [] [] 0) GLock)
| m_GStart_norepo :
    moves s pr GStart s (gc_return (set_repo_mem (set_gc pr [] [] [] [] 0) (p_meta pr) false 0) (Some 0))
| m_GStart_noquota :
    moves s pr GStart s (gc_return (set_gc pr [] [] [] [] 0) None)
| m_GLock l pr' (Hfree : repo_free_x s = true) (Hdisk : disk_repo s = Some l)
    (Hnext : after_scan (gc_loaded pr l) = inl pr') :
    moves s pr GLock s pr'
| m_GLock_fail l f (Hnext : after_scan (gc_loaded pr l) = inr f) :
    moves s pr GLock (flush_repo s (gc_loaded pr l)) (finish (gc_loaded pr l) (RFail f))
| m_GLock_noent (Hdisk : disk_repo s = None) :
    moves s pr GLock s (finish pr (RFail FNoEnt))
| m_GScan q sz rest (Htodo : p_todo pr = (q, sz) :: rest) :
    moves s pr GScan s
      (set_pc (set_gc (gc_scanned pr sz) ((q, sz) :: rest) (p_cands pr) (p_queue pr) (p_done pr) q) GScanLock)
| m_GScan_gone q sz rest pr' (Htodo : p_todo pr = (q, sz) :: rest)
    (Hnext : after_scan (set_gc (gc_scanned pr sz) rest (p_cands pr) (p_queue pr) (p_done pr) q) = inl pr') :
    moves s pr GScan s pr'
| m_GScan_fail q sz rest f (Htodo : p_todo pr = (q, sz) :: rest)
    (Hnext : after_scan (set_gc (gc_scanned pr sz) rest (p_cands pr) (p_queue pr) (p_done pr) q) = inr f) :
    moves s pr GScan (flush_repo s pr) (finish pr (RFail f))
| m_GScanLock_cand q sz rest d m (Htodo : p_todo pr = (q, sz) :: rest) (Hfree : pkg_free_s s q = true)
    (Hlook : lookup q (st_store s) = Some d) (Hmeta : disk_meta d = Some m)
    (Hcand : (check_unused (st_links s) (m_users m) q && negb (is_newpkg pr q) || g_used pr) = true) :
    moves s pr GScanLock s
      (set_pc (set_gc pr rest
                 (p_cands pr ++ [{| c_unused := check_unused (st_links s) (m_users m) q && negb (is_newpkg pr q);
                                    c_mtime := d_mtime d; c_size := sz; c_id := q |}])
                 (p_queue pr) (p_done pr) q) GScanUnlock)
| m_GScanLock_skip q sz rest (Htodo : p_todo pr = (q, sz) :: rest) (Hfree : pkg_free_s s q = true) :
    moves s pr GScanLock s (set_pc (set_gc pr rest (p_cands pr) (p_queue pr) (p_done pr) q) GScanUnlock)
| m_GScanLock_corrupt q sz rest d (Htodo : p_todo pr = (q, sz) :: rest) (Hfree : pkg_free_s s q = true)
    (Hlook : lookup q (st_store s) = Some d) (Hmeta : disk_meta d = None) :
    moves s pr GScanLock (flush_repo s pr) (finish pr (RFail FCorrupt))
| m_GScanUnlock pr' (Hnext : after_scan pr = inl pr') :
    moves s pr GScanUnlock s pr'
| m_GScanUnlock_fail f (Hnext : after_scan pr = inr f) :
    moves s pr GScanUnlock (flush_repo s pr) (finish pr (RFail f))
| m_GMove_dry c rest pr' (Hqueue : p_queue pr = c :: rest) (Hdry : g_dry pr = true)
    (Hnext : move_next (gc_take pr c rest) = inl pr') :
    moves s pr GMove s pr'
| m_GMove_dry_fail c rest f (Hqueue : p_queue pr = c :: rest) (Hnext : move_next (gc_take pr c rest) = inr f) :
    moves s pr GMove (flush_repo s (gc_take pr c rest)) (finish (gc_take pr c rest) (RFail f))
| m_GMove c rest pr' (Hqueue : p_queue pr = c :: rest) (Hdry : g_dry pr = false)
    (Hkey : has_key (c_id c) (st_store s) = true) (Hnext : move_next (gc_drop pr c rest) = inl pr') :
    moves s pr GMove (dropped s pr (c_id c)) pr'
| m_GMove_fail c rest f (Hqueue : p_queue pr = c :: rest) (Hkey : has_key (c_id c) (st_store s) = true)
    (Hnext : move_next (gc_drop pr c rest) = inr f) :
    moves s pr GMove (flush_repo (dropped s pr (c_id c)) (gc_drop pr c rest)) (finish (gc_drop pr c rest) (RFail f))
| m_GMove_noent c rest (Hqueue : p_queue pr = c :: rest) (Hkey : has_key (c_id c) (st_store s) = false) :
    moves s pr GMove (flush_repo s pr) (finish pr (RFail FNoEnt))
| m_GUnlock :
    moves s pr GUnlock (flush_repo s pr) (set_pc (set_repo_mem pr (p_meta pr) false (p_size pr)) GClose)
| m_GClose :
    moves s pr GClose s (set_pc pr GClean)
| m_GClean :
    moves s pr GClean s (gc_return (set_attic pr []) (Some (p_size pr)))
| m_XUnlink :
    moves s pr XUnlink (with_links s (remove_key (o_ws (cur pr)) (st_links s))) (finish pr RUnlink).

Inductive stepped (s : state) (i : nat) (s' : state) : Prop :=
| stepped_by pr g pr' (Hp : proc_at s i pr) (M : moves s pr (p_pc pr) g pr') (E : s' = upd_proc g i pr').

(* the only place where [step] is unfolded: every test on the way to a result is decided, each result is a rule *)
Lemma step_moves : forall s i s', step s i = Some s' -> stepped s i s'.
Proof.
  intros s i.
  (* the conclusion is folded away so that the tests found in the goal are those of [step] *)
  set (Q := fun o : option state => forall s', o = Some s' -> stepped s i s').
  change (Q (step s i)). unfold step, commit.
  destruct (nth_error (st_procs s) i) as [pr|] eqn:Hpr; [|discriminate].
  destruct (p_pc pr) eqn:Hpc;
    repeat (match goal with
            | |- context [if ?b then _ else _] => destruct b eqn:?
            | |- context [match ?x with _ => _ end] => destruct x eqn:?
            end);
    try discriminate; intros s' E; injection E as <-; (eapply stepped_by; [exact Hpr| |reflexivity]).
  all: rewrite Hpc.
  (* goal by goal: a rule whose premises are not among the tests just decided is given up at once *)
  all: solve [econstructor; eassumption].
Qed.

Lemma start_pc_cases : forall ops,
  start_pc ops = PDone \/ start_pc ops = IStart \/ start_pc ops = UOpenRepo \/ start_pc ops = GStart \/ start_pc ops = XUnlink.
Proof. destruct ops as [|o r]; cbn; auto. destruct (o_kind o); auto. Qed.

Lemma finish_pc : forall pr r, p_pc (finish pr r) = start_pc (tl (p_ops pr)).
Proof. reflexivity. Qed.

Lemma use_return_pc : forall pr b,
  p_pc (use_return pr b) = IFinish \/ p_pc (use_return pr b) = UUnlink \/ p_pc (use_return pr b) = UUnshare.
Proof. unfold use_return; intros; destruct (o_kind (cur pr)); cbn; auto; destruct b; auto. Qed.

Lemma gc_return_pc : forall pr sz,
  p_pc (gc_return pr sz) = IFinish \/ p_pc (gc_return pr sz) = start_pc (tl (p_ops pr)).
Proof. unfold gc_return; intros; destruct (o_kind (cur pr)); cbn; auto. Qed.

Lemma move_next_spec : forall pr pr', move_next pr = inl pr' ->
  (pr' = set_pc pr GUnlock /\ (p_queue pr = [] \/ exists c rest, p_queue pr = c :: rest /\ gc_break pr c = Some true)) \/
  (pr' = set_pc pr GMove /\ exists c rest, p_queue pr = c :: rest /\ gc_break pr c = Some false).
Proof.
  unfold move_next; intros pr pr' H. destruct (p_queue pr) as [|c rest]; [inversion H; auto|].
  destruct (gc_break pr c) as [[|]|] eqn:E; inversion H; eauto 7.
Qed.

Lemma after_scan_spec : forall pr pr', after_scan pr = inl pr' ->
  (p_todo pr <> [] /\ pr' = set_pc pr GScan) \/ (p_todo pr = [] /\ move_next (gc_sorted pr) = inl pr').
Proof.
  unfold after_scan; intros pr pr' H. destruct (p_todo pr); [auto|left; split; [discriminate|inversion H; auto]].
Qed.

Lemma move_next_inr : forall pr f, move_next pr = inr f -> f = FType /\ p_quota pr = None.
Proof.
  unfold move_next; intros pr f H. destruct (p_queue pr); [discriminate|].
  destruct (gc_break pr c) as [[|]|] eqn:E; inversion H; split; auto.
  unfold gc_break in E. destruct (negb (c_unused c) || negb (g_unused pr)); [|discriminate].
  destruct (p_quota pr); [discriminate|reflexivity].
Qed.

Lemma after_scan_inr : forall pr f, after_scan pr = inr f -> f = FType /\ p_quota pr = None.
Proof.
  unfold after_scan; intros pr f H. destruct (p_todo pr); [|discriminate].
  apply move_next_inr in H. exact H.
Qed.

Lemma p_res_gc_return : forall pr sz f, In (RFail f) (p_res (gc_return pr sz)) -> In (RFail f) (p_res pr).
Proof.
  unfold gc_return; intros pr sz f H. destruct (o_kind (cur pr)); cbn in H; auto.
  destruct H as [H|H]; [discriminate|auto].
Qed.

Lemma p_res_use_return : forall pr b, p_res (use_return pr b) = p_res pr.
Proof. unfold use_return; intros; destruct (o_kind (cur pr)); reflexivity. Qed.

Lemma must_go_break : forall pr c,
  (gc_break pr c = Some false -> must_go (p_quota pr) (g_unused pr) c (p_size pr) = true) /\
  (gc_break pr c = Some true -> must_go (p_quota pr) (g_unused pr) c (p_size pr) = false).
Proof.
  unfold gc_break, must_go; intros pr c. destruct (negb (c_unused c) || negb (g_unused pr)).
  - destruct (p_quota pr); split; intros H; inversion H as [E]; rewrite E; reflexivity.
  - split; intros H; [reflexivity|discriminate].
Qed.

Lemma g_used_ops : forall pr pr', p_ops pr' = p_ops pr -> g_used pr' = g_used pr.
Proof. unfold g_used, cur; intros pr pr' E; rewrite E; reflexivity. Qed.

Lemma is_newpkg_ops : forall pr pr' q, p_ops pr' = p_ops pr -> is_newpkg pr' q = is_newpkg pr q.
Proof. unfold is_newpkg, cur; intros pr pr' q E; rewrite E; reflexivity. Qed.

Lemma g_dry_ops : forall pr pr', p_ops pr' = p_ops pr -> g_dry pr' = g_dry pr.
Proof. unfold g_dry, cur; intros pr pr' E; rewrite E; reflexivity. Qed.

Definition gc_next (pc : pcT) : bool :=
  match pc with GScan | GMove | GUnlock => true | _ => false end.

(* [after_scan] and [move_next] change the control point and the gc locals only *)
Inductive gc_kept (pr pr' : proc) : Prop :=
| gc_kept_all (Knext : gc_next (p_pc pr') = true) (Kops : p_ops pr' = p_ops pr) (Kquota : p_quota pr' = p_quota pr)
    (Kres : p_res pr' = p_res pr) (Kcands : p_cands pr' = p_cands pr).

Lemma move_next_keeps : forall pr pr', move_next pr = inl pr' -> gc_kept pr pr'.
Proof. intros pr pr' H. destruct (move_next_spec _ _ H) as [[-> _]|[-> _]]; constructor; reflexivity. Qed.

Lemma after_scan_keeps : forall pr pr', after_scan pr = inl pr' -> gc_kept pr pr'.
Proof.
  intros pr pr' H. destruct (after_scan_spec _ _ H) as [[_ ->]|[_ H2]]; [constructor; reflexivity|].
  destruct (move_next_keeps _ _ H2). constructor; assumption.
Qed.

(* where [finish], [use_return] and [gc_return] lead; the invariants say nothing about a process there *)
Definition neutral (pc : pcT) : bool :=
  match pc with PDone | IStart | UOpenRepo | GStart | XUnlink | IFinish | UUnlink | UUnshare => true | _ => false end.

Lemma start_pc_neutral : forall ops, neutral (start_pc ops) = true.
Proof. intros ops. destruct (start_pc_cases ops) as [E|[E|[E|[E|E]]]]; rewrite E; reflexivity. Qed.

Lemma finish_neutral : forall pr r, neutral (p_pc (finish pr r)) = true.
Proof. intros; rewrite finish_pc; apply start_pc_neutral. Qed.

Lemma use_return_neutral : forall pr b, neutral (p_pc (use_return pr b)) = true.
Proof. intros; destruct (use_return_pc pr b) as [E|[E|E]]; rewrite E; reflexivity. Qed.

Lemma gc_return_neutral : forall pr sz, neutral (p_pc (gc_return pr sz)) = true.
Proof. intros; destruct (gc_return_pc pr sz) as [E|E]; rewrite E; [reflexivity|apply start_pc_neutral]. Qed.

(* the control point of the goal is the one of a process that has left its operation *)
Ltac exit_point := first [apply finish_neutral|apply use_return_neutral|apply gc_return_neutral].

(* control points whose next step locks repo.json, which must exist by then *)
Definition needs_repo (pc : pcT) : bool := match pc with ILockRepo | GLock => true | _ => false end.

Lemma repo_mode_neutral : forall pc, neutral pc = true -> repo_mode pc = None.
Proof. destruct pc; try discriminate; reflexivity. Qed.

Lemma pend_neutral : forall pc, neutral pc = true -> pend pc = false.
Proof. destruct pc; try discriminate; reflexivity. Qed.

Lemma gphase_neutral : forall pc, neutral pc = true -> gphase pc = false.
Proof. destruct pc; try discriminate; reflexivity. Qed.

Lemma repo_mode_gc_next : forall pc, gc_next pc = true -> repo_mode pc = Some true.
Proof. destruct pc; try discriminate; reflexivity. Qed.

Lemma pend_gc_next : forall pc, gc_next pc = true -> pend pc = false.
Proof. destruct pc; try discriminate; reflexivity. Qed.

Lemma pkg_lock_neutral : forall pr, neutral (p_pc pr) = true -> pkg_lock pr = None.
Proof. unfold pkg_lock; intros pr H. destruct (p_pc pr); try discriminate H; reflexivity. Qed.

Lemma pkg_lock_gc_next : forall pr, gc_next (p_pc pr) = true -> pkg_lock pr = None.
Proof. unfold pkg_lock; intros pr H. destruct (p_pc pr); try discriminate H; reflexivity. Qed.

(* the process of the goal that comes from [after_scan] or [move_next]: what it keeps, where it stands *)
Ltac gc_keeps :=
  match goal with H : _ = inl _ |- _ =>
    first [apply after_scan_keeps in H|apply move_next_keeps in H]; destruct H as [Knext Kops Kquota Kres Kcands]
  end.

Lemma flush_repo_procs : forall s pr, st_procs (flush_repo s pr) = st_procs s.
Proof. unfold flush_repo; intros; destruct (p_dirty pr); reflexivity. Qed.

Lemma flush_repo_store : forall s pr, st_store (flush_repo s pr) = st_store s.
Proof. unfold flush_repo; intros; destruct (p_dirty pr); reflexivity. Qed.

Lemma flush_repo_log : forall s pr, st_log (flush_repo s pr) = st_log s.
Proof. unfold flush_repo; intros; destruct (p_dirty pr); reflexivity. Qed.

Lemma moves_procs : forall s pr a g pr', moves s pr a g pr' -> st_procs g = st_procs s.
Proof. destruct 1; rewrite ?flush_repo_procs; reflexivity. Qed.

(* first half of lock_protocol_excludes; it is also why the annotation of a bystander that holds repo.json stands
   when another process moves ([locals_moves]) *)
Definition excl_repo (s : state) : Prop :=
  forall i j pi pj, i <> j -> proc_at s i pi -> proc_at s j pj ->
    repo_mode (p_pc pi) = Some true -> repo_mode (p_pc pj) = None.

Lemma free_no_x : forall s j prj, repo_free_x s = true -> proc_at s j prj -> repo_mode (p_pc prj) = None.
Proof.
  intros s j prj Hf Hj. pose proof (forallb_nth _ _ _ _ _ Hf Hj) as X. cbn in X.
  destruct (repo_mode (p_pc prj)); [discriminate|reflexivity].
Qed.

Lemma free_s_no_x : forall s j prj, repo_free_s s = true -> proc_at s j prj -> repo_mode (p_pc prj) <> Some true.
Proof. intros s j prj Hf Hj E. pose proof (forallb_nth _ _ _ _ _ Hf Hj) as X. cbn in X. rewrite E in X. discriminate. Qed.

(* second half of lock_protocol_excludes; a user's entry of the store is left alone by the others because of it
   ([use_stable]) *)
Definition excl_pkg (s : state) : Prop :=
  forall i j pi pj q, i <> j -> proc_at s i pi -> proc_at s j pj ->
    pkg_lock pi = Some (q, true) -> forall m, pkg_lock pj <> Some (q, m).

Lemma pkg_free_x_nth : forall s q j pj m, pkg_free_x s q = true -> proc_at s j pj -> pkg_lock pj <> Some (q, m).
Proof.
  unfold pkg_free_x, proc_at; intros s q j pj m Hf Hj Hl.
  pose proof (forallb_nth _ _ _ _ _ Hf Hj) as H. cbn in H. rewrite Hl in H. rewrite N.eqb_refl in H. discriminate.
Qed.

Lemma pkg_free_s_nth : forall s q j pj, pkg_free_s s q = true -> proc_at s j pj -> pkg_lock pj <> Some (q, true).
Proof.
  unfold pkg_free_s, proc_at; intros s q j pj Hf Hj Hl.
  pose proof (forallb_nth _ _ _ _ _ Hf Hj) as H. cbn in H. rewrite Hl in H. rewrite N.eqb_refl in H. discriminate.
Qed.

Lemma pkg_lock_use : forall pr, (p_pc pr = UWrite \/ p_pc pr = UUnlockPkg) -> pkg_lock pr = Some (o_pkg (cur pr), true).
Proof. unfold pkg_lock; intros pr [E|E]; rewrite E; reflexivity. Qed.

Lemma repo_mode_use : forall pr, (p_pc pr = UWrite \/ p_pc pr = UUnlockPkg) -> repo_mode (p_pc pr) = Some false.
Proof. intros pr [E|E]; rewrite E; reflexivity. Qed.

(* what visible_is_complete_and_hashed says of one directory *)
Definition dir_ok (d : pdir) : Prop :=
  d_audit d = true /\ exists m, d_meta d = Some m /\ d_tree d = Some (m_hash m).

(* a user of package q between truncating its pkg.json and flushing the new text *)
Definition writer (s : state) (q : N) : Prop :=
  exists j prj, proc_at s j prj /\ (p_pc prj = UWrite \/ p_pc prj = UUnlockPkg) /\ o_pkg (cur prj) = q.

(* carries visible_is_complete_and_hashed and truncated_pkg_json_has_writer; since the writer holds the lock of
   its pkg.json, whoever has taken that lock can read the file ([unreadable_locked]): no FCorrupt *)
Definition store_ok (s : state) : Prop :=
  forall q d, lookup q (st_store s) = Some d -> dir_ok d /\ (d_trunc d = true -> writer s q).

Lemma unreadable_locked : forall s q d, store_ok s -> lookup q (st_store s) = Some d -> disk_meta d = None ->
  exists j prj, proc_at s j prj /\ pkg_lock prj = Some (q, true).
Proof.
  intros s q d S Hl Hd. destruct (S q d Hl) as [(_ & m & Hm & _) W]. unfold disk_meta in Hd.
  destruct (d_trunc d) eqn:Et; [|congruence].
  destruct (W eq_refl) as (j & prj & Hj & Hpcj & Hqj). exists j, prj. split; auto.
  rewrite <- Hqj. apply pkg_lock_use; exact Hpcj.
Qed.

(* the size an installed package has in its pkg.json: what [acct] holds repo.json against *)
Definition lsize (s : state) (q : N) : option N :=
  match lookup q (st_store s) with
  | Some d => match d_meta d with Some m => Some (m_size m) | None => None end
  | None => None
  end.

Lemma lsize_same_store : forall s s', st_store s' = st_store s -> forall q, lsize s' q = lsize s q.
Proof. unfold lsize; intros s s' E q; rewrite E; reflexivity. Qed.

Lemma lsize_set_key : forall s g p d d' q, lookup p (st_store s) = Some d ->
  st_store g = set_key p d' (st_store s) -> option_map m_size (d_meta d') = option_map m_size (d_meta d) ->
  lsize g q = lsize s q.
Proof.
  unfold lsize; intros s g p d d' q Hd -> E. destruct (N.eq_dec q p) as [->|Hne].
  - rewrite lookup_set_key_same, Hd. exact E.
  - rewrite lookup_set_key_other by auto. reflexivity.
Qed.

Lemma lsize_app : forall s g p d, lookup p (st_store s) = None -> st_store g = st_store s ++ [(p, d)] ->
  lsize g p = option_map m_size (d_meta d) /\ forall q, q <> p -> lsize g q = lsize s q.
Proof.
  unfold lsize; intros s g p d Hn ->. split; [rewrite lookup_app_new by exact Hn; reflexivity|].
  intros q Hne. rewrite lookup_app_other by exact Hne. reflexivity.
Qed.

Lemma lsize_remove : forall s g p, st_store g = remove_key p (st_store s) ->
  lsize g p = None /\ forall q, q <> p -> lsize g q = lsize s q.
Proof.
  unfold lsize; intros s g p ->. split; [rewrite lookup_remove_key_same; reflexivity|].
  intros q Hne. rewrite lookup_remove_key_other by exact Hne. reflexivity.
Qed.

Lemma disk_repo_flushed : forall s, st_rtrunc s = false -> disk_repo s = st_repo s.
Proof. unfold disk_repo; intros s E. rewrite E. destruct (st_repo s); reflexivity. Qed.

Lemma flush_repo_held : forall s pr, st_repo s = Some (p_meta pr) -> st_rtrunc s = p_dirty pr ->
  st_repo (flush_repo s pr) = Some (p_meta pr) /\ st_rtrunc (flush_repo s pr) = false.
Proof. unfold flush_repo; intros s pr E1 E2. destruct (p_dirty pr); auto. Qed.

Lemma disk_repo_none : forall s, disk_repo s = None -> st_repo s = None.
Proof. unfold disk_repo; intros s H. destruct (st_repo s); [discriminate|reflexivity]. Qed.

(* json.dump is buffered: repo.json is empty on disk only from truncate() until OpenLocked.__exit__ of its
   exclusive holder flushes *)
Definition trunc_held (s : state) : Prop :=
  st_rtrunc s = true -> exists i pr, proc_at s i pr /\ repo_mode (p_pc pr) = Some true.

Lemma no_holder_free : forall s, trunc_held s -> repo_free_x s = true -> st_rtrunc s = false.
Proof.
  intros s B Hf. destruct (st_rtrunc s) eqn:E; auto.
  destruct (B E) as (j & prj & Hj & Hm). rewrite (free_no_x _ _ _ Hf Hj) in Hm. discriminate.
Qed.

(* between os.rename and __addPackage an installer owes repo.json the entry of its package *)
Definition owes (pr : proc) : list (N * N) := if pend (p_pc pr) then [(o_pkg (cur pr), o_size (cur pr))] else [].

Definition ledger (s : state) : list (N * N) := pkgs s ++ flat_map owes (st_procs s).

(* repo.json as last written, followed by what is owed to it, lists every installed package once (so none is entered
   twice, owed twice, or owed and entered) and with the size recorded in its pkg.json *)
Definition acct (s : state) : Prop := tallies (ledger s) (lsize s).

Lemma acct_nd : forall s, acct s -> NoDup (map fst (pkgs s)).
Proof.
  intros s [ND _]. unfold ledger in ND. rewrite map_app in ND.
  exact (proj1 (proj1 (ListFacts.NoDup_app_iff _ _ _) ND)).
Qed.

Lemma acct_listed : forall s q sz, acct s -> In (q, sz) (pkgs s) -> lsize s q = Some sz.
Proof. intros s q sz [ND H] Hin. rewrite <- H. apply NoDup_lookup_In; [exact ND|apply in_or_app; left; exact Hin]. Qed.

Lemma acct_visible : forall s q sz, acct s -> lsize s q = Some sz ->
  In (q, sz) (pkgs s) \/ exists i pr, proc_at s i pr /\ pend (p_pc pr) = true /\ o_pkg (cur pr) = q.
Proof.
  intros s q sz [_ H] E. rewrite <- H in E. apply lookup_In, in_app_or in E. destruct E as [E|E]; [left; exact E|right].
  apply in_flat_map in E. destruct E as (pr & Hin & E). apply In_nth_error in Hin. destruct Hin as (i & Hi).
  exists i, pr. unfold owes in E. destruct (pend (p_pc pr)); [|destruct E]. destruct E as [E|[]]. inversion E. auto.
Qed.

Lemma flush_repo_pkgs : forall s pr, st_repo s = Some (p_meta pr) -> pkgs (flush_repo s pr) = pkgs s.
Proof. unfold flush_repo, pkgs; intros s pr E. destruct (p_dirty pr); rewrite E; reflexivity. Qed.

Lemma disk_nodup : forall s l, acct s -> disk_repo s = Some l -> NoDup (map fst l).
Proof.
  unfold disk_repo; intros s l A H. pose proof (acct_nd _ A) as ND. unfold pkgs in ND.
  destruct (st_repo s); [|discriminate]. inversion H. destruct (st_rtrunc s); [constructor|exact ND].
Qed.

(* no_spurious_failure, as a field of [inv] *)
Definition res_ok (s : state) : Prop :=
  forall i pr f, proc_at s i pr -> In (RFail f) (p_res pr) -> f = FHash \/ (f = FType /\ p_quota pr = None).

(* the clauses of move_ok that do not depend on the control point *)
Definition loop_ok (pr : proc) : Prop :=
  Permutation (p_done pr ++ p_queue pr) (p_cands pr) /\
  StronglySorted cand_le (p_done pr ++ p_queue pr) /\
  sizes (p_queue pr) <= p_size pr /\
  (forall pre c post, p_done pr = pre ++ c :: post ->
     must_go (p_quota pr) (g_unused pr) c (p_size pr + sizes (c :: post)) = true).

Lemma loop_ok_next : forall pr pr', move_next pr = inl pr' -> loop_ok pr -> move_ok pr'.
Proof.
  intros pr pr' H (MP & MS & MZ & MD).
  destruct (move_next_spec _ _ H) as [[-> Hq]|[-> Hq]]; (repeat split; [exact MP|exact MS|exact MZ|exact MD| |]);
    intros E; try discriminate E.
  - destruct Hq as [Hq|(c & rest & Hq & Hb)]; [left; exact Hq|right].
    exists c, rest. split; [exact Hq|]. apply must_go_break; exact Hb.
  - destruct Hq as (c & rest & Hq & Hb). exists c, rest. split; [exact Hq|]. apply must_go_break; exact Hb.
Qed.

Lemma loop_ok_sorted : forall pr, sizes (p_cands pr) <= p_size pr -> loop_ok (gc_sorted pr).
Proof.
  intros pr Hs. unfold loop_ok, gc_sorted; cbn [p_done p_queue p_cands p_size set_gc app].
  split; [apply sort_cands_perm|]. split; [apply sort_cands_sorted|].
  split; [rewrite (sizes_perm _ _ (sort_cands_perm (p_cands pr))); exact Hs|].
  intros pre c post E; destruct pre; discriminate.
Qed.

Lemma loop_ok_take : forall pr c rest, move_ok pr -> p_pc pr = GMove -> p_queue pr = c :: rest ->
  loop_ok (gc_take pr c rest).
Proof.
  intros pr c rest (MP & MS & MZ & MD & MG & _) Hpc Hq.
  destruct (MG Hpc) as (c0 & rest0 & Hq0 & Hgo). rewrite Hq in Hq0. inversion Hq0; subst c0 rest0.
  rewrite Hq in *. rewrite sizes_cons in MZ.
  unfold loop_ok, gc_take, g_unused; cbn [p_done p_queue p_cands p_size p_quota cur p_ops set_gc set_repo_mem].
  split; [rewrite <- app_assoc; exact MP|]. split; [rewrite <- app_assoc; exact MS|]. split; [lia|].
  assert (E0 : sizes [c] = c_size c) by (cbn; lia).
  intros pre y post E. apply app_snoc_split in E. destruct E as [(-> & -> & ->)|(post0 & -> & E)].
  - rewrite E0. replace (p_size pr - c_size c + c_size c) with (p_size pr) by lia. exact Hgo.
  - specialize (MD pre y post0 E). rewrite sizes_cons, sizes_app, E0.
    replace (p_size pr - c_size c + (c_size y + (sizes post0 + c_size c))) with (p_size pr + (c_size y + sizes post0)) by lia.
    exact MD.
Qed.

Lemma cands_ok_same : forall pr pr', cands_ok pr -> p_cands pr' = p_cands pr -> p_ops pr' = p_ops pr -> cands_ok pr'.
Proof.
  unfold cands_ok, is_newpkg, g_used, cur; intros pr pr' H E1 E2 c Hc. rewrite E1 in Hc. rewrite E2. apply H; auto.
Qed.

(* the ids gc has met and has yet to meet in its scan: distinct because repo.json's are, which is where the queue of
   the collection loop gets its distinct ids from *)
Definition scan_ids (pr : proc) : list N := map c_id (p_cands pr) ++ map fst (p_todo pr).

(* while scanning: [rest] are the entries of repo.json whose size is not yet in repoSize *)
Definition scan_sums (pr : proc) (rest : list (N * N)) : Prop :=
  NoDup (map fst (p_meta pr)) /\ NoDup (scan_ids pr) /\
  p_size pr + sum_sizes rest = sum_sizes (p_meta pr) /\
  (forall c, In c (p_cands pr) -> In (c_id c, c_size c) (p_meta pr)) /\ (forall e, In e (p_todo pr) -> In e (p_meta pr)).

(* what the collection loop knows of repo.json's entries: the queued ones are among them ([local_queue]: gc moves
   only what is listed, so [acct] survives a collection) and distinct (taking out the entry of the one collected
   leaves those of the others); the last clause is reported_size_is_sum for gc *)
Definition move_sums (pr : proc) : Prop :=
  NoDup (map fst (p_meta pr)) /\ (forall c, In c (p_queue pr) -> In (c_id c, c_size c) (p_meta pr)) /\
  NoDup (map c_id (p_queue pr)) /\ (g_dry pr = false -> p_size pr = sum_sizes (p_meta pr)).

(* repo.json is as the process has it in memory, and truncated while a dump is buffered there *)
Definition writes (s : state) (pr : proc) : Prop := st_repo s = Some (p_meta pr) /\ st_rtrunc s = p_dirty pr.

(* the scan loop: [next] is the size already added for the entry being looked at, [rest] the entries not yet added *)
Definition scanning (pr : proc) (next : N) (rest : list (N * N)) : Prop :=
  cands_ok pr /\ sizes (p_cands pr) + next <= p_size pr /\ scan_sums pr rest.

(* A proof outline in the sense of Owicki and Gries: every control point is annotated with what the process knows
   there about its own variables and about the files it has locked.  A move establishes the annotation of the
   mover's next control point ([local_moves]); the annotations of the others stand because they speak only of what
   their process has locked, which the mover leaves alone ([local_same]). *)
Definition local (s : state) (pr : proc) : Prop :=
  match p_pc pr with
  | IMeta => exists d, p_tmp pr = Some d /\ d_audit d = true /\ d_tree d = Some (o_expect (cur pr))
  | IRename => exists d m, p_tmp pr = Some d /\ d_audit d = true /\ d_meta d = Some m /\
                           d_tree d = Some (m_hash m) /\ m_size m = o_size (cur pr) /\ d_trunc d = false
  | ILockRepo | GLock => st_repo s <> None
  | IWrite | IUnlock => writes s pr /\ p_size pr = sum_sizes (p_meta pr)
  | UWrite | UUnlockPkg =>
      exists d, lookup (o_pkg (cur pr)) (st_store s) = Some d /\ d_meta d = Some (p_pmeta pr) /\ d_trunc d = p_dirty pr
  | GScan | GScanUnlock => writes s pr /\ scanning pr 0 (p_todo pr)
  | GScanLock => writes s pr /\ scanning pr (snd (hd (0, 0) (p_todo pr))) (tl (p_todo pr))
  | GMove | GUnlock => writes s pr /\ cands_ok pr /\ move_ok pr /\ move_sums pr
  | _ => True
  end.

Definition locals (s : state) : Prop := forall i pr, proc_at s i pr -> local s pr.

Lemma local_neutral : forall s pr, neutral (p_pc pr) = true -> local s pr.
Proof. unfold local; intros s pr H. destruct (p_pc pr); try discriminate H; exact I. Qed.

Lemma local_held : forall s pr, local s pr -> repo_mode (p_pc pr) = Some true -> writes s pr.
Proof. unfold local; intros s pr L H. destruct (p_pc pr); try discriminate H; exact (proj1 L). Qed.

Lemma local_use : forall s pr, local s pr -> p_pc pr = UWrite \/ p_pc pr = UUnlockPkg ->
  exists d, lookup (o_pkg (cur pr)) (st_store s) = Some d /\ d_meta d = Some (p_pmeta pr) /\ d_trunc d = p_dirty pr.
Proof. unfold local; intros s pr L [E|E]; rewrite E in L; exact L. Qed.

Lemma local_needs : forall s pr, local s pr -> needs_repo (p_pc pr) = true -> st_repo s <> None.
Proof. unfold local; intros s pr L H. destruct (p_pc pr); try discriminate H; exact L. Qed.

Lemma local_queue : forall s pr, local s pr -> p_pc pr = GMove ->
  forall c, In c (p_queue pr) -> In (c_id c) (map fst (pkgs s)).
Proof.
  unfold local, pkgs; intros s pr L E c Hc. rewrite E in L. destruct L as ((-> & _) & _ & _ & _ & CS & _).
  apply in_map_iff. exists (c_id c, c_size c). auto.
Qed.

Lemma local_same : forall s s' pr, local s pr ->
  (repo_mode (p_pc pr) = Some true -> st_repo s' = st_repo s /\ st_rtrunc s' = st_rtrunc s) ->
  (needs_repo (p_pc pr) = true -> st_repo s' <> None) ->
  (p_pc pr = UWrite \/ p_pc pr = UUnlockPkg -> lookup (o_pkg (cur pr)) (st_store s') = lookup (o_pkg (cur pr)) (st_store s)) ->
  local s' pr.
Proof.
  unfold local, writes; intros s s' pr L HX HN HU. destruct (p_pc pr); try exact L; try (apply HN; reflexivity);
    try (rewrite HU by auto; exact L); (destruct (HX eq_refl) as [-> ->]; exact L).
Qed.

Lemma local_next : forall s pr pr', move_next pr = inl pr' ->
  writes s pr -> cands_ok pr -> loop_ok pr -> move_sums pr -> local s pr'.
Proof.
  intros s pr pr' H W CO LO MS. pose proof (loop_ok_next _ _ H LO) as MO.
  destruct (move_next_spec _ _ H) as [[-> _]|[-> _]];
    (split; [exact W|split; [eapply cands_ok_same; eauto|split; [exact MO|exact MS]]]).
Qed.

Lemma local_after_scan : forall s pr pr', after_scan pr = inl pr' -> writes s pr -> scanning pr 0 (p_todo pr) -> local s pr'.
Proof.
  intros s pr pr' H W SC. destruct (after_scan_spec _ _ H) as [[_ ->]|[Ht H2]]; [split; [exact W|exact SC]|].
  destruct SC as (CO & SZ & ND & NI & SM & CS & _). unfold scan_ids in NI. rewrite Ht in *. rewrite app_nil_r in NI. cbn in SM.
  apply (local_next s _ _ H2); [exact W|eapply cands_ok_same; eauto|apply loop_ok_sorted; lia|].
  unfold move_sums; proc_fields.
  split; [exact ND|]. split; [intros c Hc; apply CS, In_sort_cands; exact Hc|]. split; [apply NoDup_sorted_ids; exact NI|]. lia.
Qed.

(* how a candidate enters p_cands: the premises of rule m_GScanLock_cand, from which [cand_hist_step] makes the scan
   witness of the new candidate ([moves_cands] says a candidate is an old one or this) *)
Definition new_scan (s : state) (pr : proc) (c : cand) : Prop :=
  p_pc pr = GScanLock /\
  exists sz rest d m, p_todo pr = (c_id c, sz) :: rest /\ pkg_free_s s (c_id c) = true /\
     lookup (c_id c) (st_store s) = Some d /\ disk_meta d = Some m /\
     c_unused c = (check_unused (st_links s) (m_users m) (c_id c) && negb (is_newpkg pr (c_id c))).

Lemma count_log_app : forall e l x,
  count_log e (l ++ [x]) = (count_log e l + (if Bool.eqb (fst x) (fst e) && (snd x =? snd e)%N then 1 else 0))%nat.
Proof.
  unfold count_log; intros e l x. rewrite filter_app, app_length. cbn.
  destruct (Bool.eqb (fst x) (fst e) && (snd x =? snd e)); reflexivity.
Qed.

(* the statement of installed_at_most_once; holds of every start state with empty log and store, so it needs no
   wf_procs and stays outside [inv] *)
Definition once_inv (s : state) : Prop :=
  forall p, count_log (true, p) (st_log s) =
            (count_log (false, p) (st_log s) + (if has_key p (st_store s) then 1 else 0))%nat.

(* what a move is for [once_inv]: [moves_log] sorts the rules into these two, [once_step] argues once for each *)
Inductive log_effect (l : list (bool * N)) (st : list (N * pdir)) (l' : list (bool * N)) (st' : list (N * pdir)) : Prop :=
| le_none (El : l' = l) (Ek : forall q, has_key q st' = has_key q st)
| le_entry b p (El : l' = l ++ [(b, p)]) (K0 : has_key p st = negb b) (K1 : has_key p st' = b)
    (Ko : forall q, q <> p -> has_key q st' = has_key q st).

(* what a move is for [acct]: [moves_acct] sorts the rules into these four, [acct_moves] argues once for each *)
Inductive acct_effect (s : state) (pr : proc) (a : pcT) (g : state) (pr' : proc) : Prop :=
| ae_none (Epk : pkgs g = pkgs s) (Els : forall q, lsize g q = lsize s q)
    (Epe : pend (p_pc pr') = pend a) (Ecur : pend a = true -> cur pr' = cur pr)
| ae_rename d (Ea : a = IRename) (Epc' : p_pc pr' = IOpenRepo) (Ecur : cur pr' = cur pr) (Epk : pkgs g = pkgs s)
    (Hnone : lookup (o_pkg (cur pr)) (st_store s) = None) (Est : st_store g = st_store s ++ [(o_pkg (cur pr), d)])
    (Hsz : option_map m_size (d_meta d) = Some (o_size (cur pr)))
| ae_enter (Ea : a = ILockRepo) (Epe : pend (p_pc pr') = false)
    (Epk : pkgs g = set_key (o_pkg (cur pr)) (o_size (cur pr)) (pkgs s)) (Els : forall q, lsize g q = lsize s q)
| ae_collect q (Ea : a = GMove) (Epe : pend (p_pc pr') = false) (Hq : In q (map fst (pkgs s)))
    (Epk : pkgs g = remove_key q (pkgs s)) (Est : st_store g = remove_key q (st_store s)).

Section OneMove.
Context {s : state} {i : nat} {pr : proc} {a : pcT} {g : state} {pr' : proc}.
Hypotheses (Hp : proc_at s i pr) (Hpc : p_pc pr = a) (M : moves s pr a g pr').

Lemma moved_cases : forall j prj, proc_at (upd_proc g i pr') j prj -> (j = i /\ prj = pr') \/ (j <> i /\ proc_at s j prj).
Proof.
  clear Hpc. intros j prj Hj. unfold proc_at in Hj. cbn in Hj. rewrite (moves_procs _ _ _ _ _ M) in Hj.
  exact (proc_at_upd s i pr pr' j prj Hp Hj).
Qed.

Lemma moved_self : proc_at (upd_proc g i pr') i pr'.
Proof. clear Hpc. unfold proc_at. cbn. rewrite (moves_procs _ _ _ _ _ M). eapply nth_error_set_nth_same; exact Hp. Qed.

Lemma moved_other : forall j prj, j <> i -> proc_at s j prj -> proc_at (upd_proc g i pr') j prj.
Proof. clear Hpc. intros j prj Hne Hj. unfold proc_at. cbn. rewrite (moves_procs _ _ _ _ _ M), nth_error_set_nth_other; auto. Qed.

Lemma moved_exists : forall P : proc -> Prop, (P pr -> P pr') ->
  (exists j prj, proc_at s j prj /\ P prj) -> exists j prj, proc_at (upd_proc g i pr') j prj /\ P prj.
Proof.
  intros P Keep (j & prj & Hj & HP). destruct (Nat.eq_dec j i) as [->|Hne].
  - exists i, pr'. split; [exact moved_self|]. apply Keep. replace pr with prj by (unfold proc_at in *; congruence). exact HP.
  - exists j, prj. split; [apply moved_other; assumption|exact HP].
Qed.

(* a lock is taken only by a step whose guard found it free *)
Lemma moves_repo_mode : forall b, repo_mode (p_pc pr') = Some b ->
  repo_mode a = Some b \/ (if b then repo_free_x s else repo_free_s s) = true.
Proof.
  clear Hpc. intros b E.
  destruct M; cbn [p_pc set_pc] in E; try discriminate E; try (rewrite repo_mode_neutral in E by exit_point; discriminate E);
    try (gc_keeps; rewrite (repo_mode_gc_next _ Knext) in E); injection E as <-; auto.
Qed.

Lemma excl_repo_moves : excl_repo s -> excl_repo (upd_proc g i pr').
Proof.
  intros Inv x y px py Hxy Hx Hy Hm.
  destruct (moved_cases _ _ Hx) as [[-> ->]|[Hxi Hx0]]; destruct (moved_cases _ _ Hy) as [[-> ->]|[Hyi Hy0]]; try congruence.
  - destruct (moves_repo_mode _ Hm) as [Hh|Hf]; [apply (Inv i y pr py); auto; congruence|eapply free_no_x; eauto].
  - assert (Hn : repo_mode a = None) by (rewrite <- Hpc; apply (Inv x i px pr); auto).
    destruct (repo_mode (p_pc pr')) as [[|]|] eqn:E; auto.
    + destruct (moves_repo_mode _ E) as [Hh|Hf]; [congruence|].
      rewrite (free_no_x _ _ _ Hf Hx0) in Hm; discriminate.
    + destruct (moves_repo_mode _ E) as [Hh|Hf]; [congruence|].
      exfalso; eapply free_s_no_x; eauto.
  - apply (Inv x y px py); auto.
Qed.

Lemma moves_pkg_lock : forall q m, pkg_lock pr' = Some (q, m) ->
  pkg_lock pr = Some (q, m) \/ (if m then pkg_free_x s q else pkg_free_s s q) = true.
Proof.
  intros q m L.
  destruct M; try (unfold pkg_lock in L; cbn [p_pc set_pc] in L; discriminate L);
    try (rewrite pkg_lock_neutral in L by exit_point; discriminate L);
    try (gc_keeps; rewrite pkg_lock_gc_next in L by assumption; discriminate L);
    unfold pkg_lock in L; cbn [p_pc set_pc] in L.
  (* the lock was held before, or it is taken now and the guard has found it free *)
  all: try (left; unfold pkg_lock; rewrite Hpc; exact L).
  all: inversion L; subst; auto.
Qed.

Lemma excl_pkg_moves : excl_pkg s -> excl_pkg (upd_proc g i pr').
Proof.
  intros Inv x y px py q Hxy Hx Hy Hl m Hl2.
  destruct (moved_cases _ _ Hx) as [[-> ->]|[Hxi Hx0]]; destruct (moved_cases _ _ Hy) as [[-> ->]|[Hyi Hy0]]; try congruence.
  - destruct (moves_pkg_lock _ _ Hl) as [L|Hf].
    + exact (Inv i y pr py q Hxy Hp Hy0 L m Hl2).
    + exact (pkg_free_x_nth _ _ _ _ m Hf Hy0 Hl2).
  - destruct (moves_pkg_lock _ _ Hl2) as [L|Hf].
    + exact (Inv x i px pr q Hxy Hx0 Hp Hl m L).
    + destruct m; [exact (pkg_free_x_nth _ _ _ _ true Hf Hx0 Hl)|exact (pkg_free_s_nth _ _ _ _ Hf Hx0 Hl)].
  - exact (Inv x y px py q Hxy Hx0 Hy0 Hl m Hl2).
Qed.

Lemma store_ok_moves : local s pr -> store_ok s -> store_ok (upd_proc g i pr').
Proof.
  intros L S q d0 Hq. cbn [st_store upd_proc] in Hq. unfold local in L. rewrite Hpc in L.
  pose proof moved_self as Self.
  (* an entry that was there before keeps its writer, unless the writer is the mover and leaves *)
  assert (Keep : forall d1, lookup q (st_store s) = Some d1 ->
                 (a = UWrite \/ a = UUnlockPkg -> o_pkg (cur pr) = q -> d_trunc d1 = true ->
                    (p_pc pr' = UWrite \/ p_pc pr' = UUnlockPkg) /\ cur pr' = cur pr) ->
                 dir_ok d1 /\ (d_trunc d1 = true -> writer (upd_proc g i pr') q)).
  { intros d1 Hd1 Hown. destruct (S q d1 Hd1) as [V W]. split; [exact V|]. intros Ht1.
    apply moved_exists; [|exact (W Ht1)]. intros [Hpcj Hqj]. rewrite Hpc in Hpcj.
    destruct (Hown Hpcj Hqj Ht1) as [Hpc' Hcur]. rewrite Hcur. auto. }
  destruct M; rewrite ?flush_repo_store in Hq; cbn [st_store with_store with_repo with_links with_log with_dir dropped] in Hq;
    try (apply lookup_remove_key_some in Hq);
    try (solve [apply (Keep d0 Hq); intros [E|E] _ _; discriminate E]).
  - (* IRename *)
    destruct (N.eq_dec q (o_pkg (cur pr))) as [->|Hne].
    + rewrite lookup_app_new in Hq by (apply has_key_false; auto). inversion Hq; subst d0.
      destruct L as (d1 & m & Hd & Ha & Hm & Ht & _ & Hf).
      assert (d1 = d) by congruence; subst d1. split; [split; eauto|congruence].
    + rewrite lookup_app_other in Hq by auto. apply (Keep d0 Hq). intros [E|E] _ _; discriminate E.
  - (* ULockPkg: users.append, truncates *)
    destruct (lookup_set_key_some _ _ _ _ _ _ Hq) as [[-> ->]|[Hne Hq0]].
    + destruct (S _ _ Hlook) as [(Ha & m0 & Hm0 & Ht0) _].
      unfold disk_meta in Hmeta. destruct (d_trunc d); [discriminate|]. assert (m0 = m) by congruence; subst m0.
      split; [split; cbn; eauto|]. intros _. exists i. eexists. split; [exact Self|]. auto.
    + apply (Keep d0 Hq0). intros [E|E] _ _; discriminate E.
  - (* UWrite, buffered *)
    apply (Keep d0 Hq). auto.
  - (* UWrite: utime *)
    destruct (lookup_set_key_some _ _ _ _ _ _ Hq) as [[-> ->]|[Hne Hq0]]; [|apply (Keep d0 Hq0); auto].
    destruct (S _ _ Hlook) as [(Ha & m0 & Hm0 & Ht0) _]. split; [split; cbn; eauto|].
    intros _. exists i. eexists. split; [exact Self|]. auto.
  - (* UUnlockPkg: flush *)
    destruct (lookup_set_key_some _ _ _ _ _ _ Hq) as [[-> ->]|[Hne Hq0]]; [|apply (Keep d0 Hq0); intros _ E; congruence].
    destruct L as (d1 & Hd1 & Hm1 & _).
    destruct (S _ _ Hlook) as [(Ha & m1 & Hm1' & Ht1) _]. assert (m1 = p_pmeta pr) by congruence; subst m1.
    split; [split; cbn; eauto|discriminate].
  - (* UUnlockPkg, nothing buffered *)
    destruct L as (d1 & Hd1 & _ & Htr).
    apply (Keep d0 Hq). intros _ E Ht1. congruence.
Qed.

Lemma moves_repo_released : local s pr -> repo_mode a = Some true -> repo_mode (p_pc pr') <> Some true -> st_rtrunc g = false.
Proof.
  intros L Ea E'. destruct (local_held _ _ L) as [R1 R2]; [rewrite Hpc; exact Ea|].
  destruct M; try discriminate Ea;
    try (exfalso; apply E'; reflexivity);
    try (match goal with |- context [flush_repo ?s0 ?p0] => exact (proj2 (flush_repo_held s0 p0 R1 R2)) end);
    try reflexivity.
  all: exfalso; apply E'; gc_keeps; exact (repo_mode_gc_next _ Knext).
Qed.

Lemma moves_repo_other : repo_mode a <> Some true -> repo_mode (p_pc pr') <> Some true ->
  (st_repo g = st_repo s /\ st_rtrunc g = st_rtrunc s) \/ (st_repo s = None /\ st_rtrunc g = false).
Proof.
  clear Hpc. intros Ea E'. destruct M; try (left; split; reflexivity);
    try (exfalso; apply Ea; reflexivity); try (exfalso; apply E'; reflexivity); (right; split; [assumption|reflexivity]).
Qed.

Lemma moves_repo_stays : st_repo s <> None -> st_repo g <> None.
Proof.
  clear Hpc. intros E. destruct M; try exact E; try discriminate;
    unfold flush_repo; match goal with |- context [if ?b then _ else _] => destruct b end; try exact E; discriminate.
Qed.

Lemma moves_acct : local s pr -> trunc_held s -> acct_effect s pr a g pr'.
Proof.
  intros L B. pose proof (local_queue _ _ L) as Q.
  assert (Held := local_held _ _ L). assert (Need := local_needs _ _ L). rewrite Hpc in Held, Need.
  unfold local in L. rewrite Hpc in L.
  destruct M; try (destruct (Held eq_refl) as [R _]);
    try (gc_keeps; apply pend_gc_next in Knext);
    try (solve [apply ae_none;
                  [first [reflexivity|apply flush_repo_pkgs; exact R]
                  |apply lsize_same_store; first [reflexivity|apply flush_repo_store]
                  |first [reflexivity|exact Knext|rewrite pend_neutral by exit_point; reflexivity]
                  |intros E; first [reflexivity|discriminate E]]]).
  - (* IRename *)
    apply has_key_false in Hkey.
    destruct L as (d0 & m & Hd & _ & Hm & _ & Hs & _).
    assert (d0 = d) by congruence; subst d0. apply ae_rename with (d := d); auto. rewrite Hm. cbn. congruence.
  - (* ICreateRepo *)
    apply ae_none; [unfold pkgs; cbn; rewrite Hrepo; reflexivity|apply lsize_same_store; reflexivity|reflexivity|reflexivity].
  - (* ILockRepo *)
    rewrite (disk_repo_flushed _ (no_holder_free _ B Hfree)) in Hdisk.
    apply ae_enter; auto. unfold pkgs. rewrite Hdisk. reflexivity.
  - (* ILockRepo without repo.json *)
    exfalso. exact (Need eq_refl (disk_repo_none _ Hdisk)).
  - (* IUnlock *)
    apply ae_none; [unfold pkgs; cbn; rewrite R; reflexivity|apply lsize_same_store; reflexivity|reflexivity|discriminate].
  - (* UOpenRepo creates repo.json *)
    apply ae_none; [unfold pkgs; cbn; rewrite Hrepo; reflexivity|apply lsize_same_store; reflexivity|reflexivity|discriminate].
  - (* ULockPkg: users.append *)
    apply ae_none; [reflexivity| |reflexivity|discriminate].
    intros q. eapply lsize_set_key; [exact Hlook|reflexivity|]. unfold disk_meta in Hmeta. destruct (d_trunc d); [discriminate|].
    rewrite Hmeta. reflexivity.
  - (* UWrite: utime *)
    apply ae_none; [reflexivity| |reflexivity|discriminate].
    intros q. eapply lsize_set_key; [exact Hlook|reflexivity|reflexivity].
  - (* UUnlockPkg: flush *)
    apply ae_none; [reflexivity| |reflexivity|discriminate].
    destruct L as (d0 & Hd0 & Hm0 & _). assert (d0 = d) by congruence; subst d0.
    intros q. eapply lsize_set_key; [exact Hlook|reflexivity|]. rewrite Hm0. reflexivity.
  - (* GMove *)
    apply ae_collect with (q := c_id c); [reflexivity|exact Knext| | |reflexivity].
    + apply (Q Hpc); rewrite Hqueue; left; reflexivity.
    + unfold pkgs; rewrite R; reflexivity.
  - (* GMove, then TypeError *)
    apply ae_collect with (q := c_id c); [reflexivity|rewrite pend_neutral by exit_point; reflexivity| | |apply flush_repo_store].
    + apply (Q Hpc); rewrite Hqueue; left; reflexivity.
    + unfold pkgs; rewrite R; reflexivity.
Qed.

Lemma ledger_moved : exists F1 F2,
  ledger s = pkgs s ++ F1 ++ owes pr ++ F2 /\ ledger (upd_proc g i pr') = pkgs g ++ F1 ++ owes pr' ++ F2.
Proof.
  clear Hpc. unfold ledger. cbn [st_procs upd_proc]. rewrite (moves_procs _ _ _ _ _ M).
  destruct (set_nth_split _ _ _ _ Hp) as (l1 & l2 & E & Eset). rewrite Eset, E, !flat_map_app.
  exists (flat_map owes l1), (flat_map owes l2). split; reflexivity.
Qed.

Lemma acct_moves : local s pr -> trunc_held s -> acct s -> acct (upd_proc g i pr').
Proof.
  intros L B A. unfold acct. destruct ledger_moved as (F1 & F2 & E & ->).
  unfold owes in *. rewrite Hpc in E.
  destruct (moves_acct L B) as [Epk Els Epe Ecur|d Ea Epc' Ecur Epk Hnone Est Hsz|Ea Epe Epk Els|q0 Ea Epe Hq0 Epk Est];
    rewrite Epk.
  - (* nothing relevant changes *)
    rewrite Epe. destruct (pend a) eqn:Hpe; [rewrite (Ecur eq_refl)|]; rewrite <- E; exact (tallies_perm _ _ _ _ (Permutation_refl _) Els A).
  - (* the installer has renamed its package into the store: it owes the entry *)
    rewrite Epc', Ecur. rewrite Ea in E. cbn [pend app] in *.
    destruct (lsize_app _ _ _ _ Hnone Est) as [Hnew Hls]. rewrite Hsz in Hnew.
    apply (tallies_perm ((o_pkg (cur pr), o_size (cur pr)) :: ledger s) _ (lsize g));
      [rewrite E, !app_assoc; apply Permutation_middle|reflexivity|].
    eapply tallies_cons; [exact Hnew| |intros q Hne; symmetry; exact (Hls q Hne)|exact A]; unfold lsize; rewrite Hnone; reflexivity.
  - (* the installer has entered its package into repo.json: the entry moves from what is owed into the file *)
    rewrite Epe. rewrite Ea in E.
    assert (Hnin : ~ In (o_pkg (cur pr)) (map fst (pkgs s))).
    { destruct A as [ND _]. rewrite E, app_assoc, map_app in ND. apply NoDup_remove_2 in ND.
      intros Hin. apply ND. rewrite map_app, !in_app_iff. auto. }
    rewrite (set_key_new _ _ _ _ Hnin), <- app_assoc. apply (tallies_perm (ledger s) _ (lsize s)); [|exact Els|exact A].
    rewrite E. apply Permutation_app_head. symmetry. exact (Permutation_middle F1 F2 _).
  - (* gc has moved a package to its attic *)
    rewrite Epe. rewrite Ea in E.
    apply in_map_iff in Hq0. destruct Hq0 as ([q z] & Eq & Hin). cbn in Eq; subst q.
    destruct (lsize_remove _ _ _ Est) as [Hgone Hls].
    eapply (proj1 (tallies_cons _ _ _ _ _ (acct_listed _ _ _ A Hin) Hgone Hls)).
    apply (tallies_perm (ledger s) _ (lsize s)); [|reflexivity|exact A].
    rewrite E. exact (Permutation_app_tail _ (remove_key_perm _ _ _ _ (acct_nd _ A) Hin)).
Qed.

Lemma moves_quota : p_quota pr' = p_quota pr.
Proof.
  clear Hpc. destruct M; try reflexivity;
    try (unfold use_return; destruct (o_kind (cur pr)); reflexivity);
    try (unfold gc_return; cbn [cur p_ops set_gc set_repo_mem set_attic]; destruct (o_kind _); reflexivity).
  all: gc_keeps; exact Kquota.
Qed.

Lemma moves_failure : forall f, store_ok s -> acct s -> local s pr ->
  In (RFail f) (p_res pr') -> In (RFail f) (p_res pr) \/ f = FHash \/ (f = FType /\ p_quota pr = None).
Proof.
  intros f S A L Hin.
  assert (Need := local_needs _ _ L). rewrite Hpc in Need.
  destruct M;
    proc_fields;
    rewrite ?p_res_use_return in Hin; try (apply p_res_gc_return in Hin);
    try (gc_keeps; rewrite Kres in Hin);
    try (left; exact Hin);
    (destruct Hin as [Hin|Hin]; [inversion Hin; subst f|left; exact Hin]); auto.
  (* TypeError of the collection loop *)
  all: try (match goal with H : _ = inr _ |- _ =>
              first [apply after_scan_inr in H|apply move_next_inr in H]; destruct H as [-> E]; right; right; split; [reflexivity|exact E] end).
  all: exfalso.
  - (* ILockRepo without repo.json *)
    apply (Need eq_refl), disk_repo_none; assumption.
  - (* ULockPkg, pkg.json unreadable: its writer would hold the lock *)
    destruct (unreadable_locked _ _ _ S Hlook Hmeta) as (j & prj & Hj & Hl). exact (pkg_free_x_nth _ _ _ _ true Hfree Hj Hl).
  - (* GLock without repo.json *)
    apply (Need eq_refl), disk_repo_none; assumption.
  - (* GScanLock, pkg.json unreadable *)
    destruct (unreadable_locked _ _ _ S Hlook Hmeta) as (j & prj & Hj & Hl). exact (pkg_free_s_nth _ _ _ _ Hfree Hj Hl).
  - (* GMove, directory gone: gc moves only packages listed in repo.json, and those are installed *)
    assert (Hk : In (c_id c) (map fst (pkgs s))) by (apply (local_queue _ _ L Hpc); rewrite Hqueue; left; reflexivity).
    apply In_keys_lookup in Hk. destruct Hk as (sz & Hk). apply lookup_In in Hk. pose proof (acct_listed _ _ _ A Hk) as Hv.
    apply has_key_false in Hkey. unfold lsize in Hv. rewrite Hkey in Hv. discriminate Hv.
Qed.

Lemma local_moves : trunc_held s -> acct s -> local s pr -> local (upd_proc g i pr') pr'.
Proof.
  intros B A L. unfold local in L. rewrite Hpc in L.
  destruct M; try (apply local_neutral; exit_point); try exact I.
  - (* ICopy -> IMeta *)
    eexists; split; [reflexivity|]. apply N.eqb_eq in Hhash. rewrite Hhash. auto.
  - (* IMeta -> IRename *)
    destruct L as (d0 & Hd & Ha & Ht). assert (d0 = d) by congruence; subst d0.
    eexists; eexists; split; [reflexivity|]. cbn. auto 6.
  - (* IOpenRepo *) unfold local; cbn. congruence.
  - (* ICreateRepo *) discriminate.
  - (* ILockRepo: the size is computed from the new text *) split; [split; reflexivity|reflexivity].
  - (* IWrite *) exact L.
  - (* ULockPkg, already a user *)
    unfold disk_meta in Hmeta. destruct (d_trunc d) eqn:Et; [discriminate|]. exists d. auto.
  - (* ULockPkg, appended *)
    eexists. cbn [st_store upd_proc with_store]. rewrite lookup_set_key_same. split; [reflexivity|]. auto.
  - (* UWrite, buffered *) exact L.
  - (* UWrite, utime *)
    destruct L as (d0 & Hd & Hm & Ht). assert (d0 = d) by congruence; subst d0.
    eexists. cbn [st_store upd_proc with_store]. rewrite lookup_set_key_same. split; [reflexivity|]. auto.
  - (* GStart *) unfold local; cbn. congruence.
  - (* GLock: nobody holds the lock, so the file is not truncated and what gc reads is its text *)
    pose proof (disk_nodup _ _ A Hdisk) as ND.
    pose proof (no_holder_free _ B Hfree) as Ht. rewrite (disk_repo_flushed _ Ht) in Hdisk.
    eapply local_after_scan; [eassumption|split; [exact Hdisk|exact Ht]|].
    unfold scanning, scan_sums, scan_ids; proc_fields. split; [intros c []|]. split; [cbn; lia|].
    split; [exact ND|]. split; [exact ND|]. split; [lia|]. split; [intros c []|auto].
  - (* GScan -> GScanLock: the size is added before the directory is looked at *)
    destruct L as (W & CO & SZ & ND & NI & SM & CS & TD). rewrite Htodo in SM. rewrite sum_sizes_cons in SM. cbn [snd] in SM.
    split; [exact W|]. unfold scanning, scan_sums, scan_ids; proc_fields. cbn [hd tl snd]. rewrite <- Htodo.
    split; [eapply cands_ok_same; eauto|]. repeat split; auto; lia.
  - (* GScan, directory gone *)
    destruct L as (W & CO & SZ & ND & NI & SM & CS & TD). unfold scan_ids in NI. rewrite Htodo in SM, TD, NI.
    rewrite sum_sizes_cons in SM. cbn [snd map] in SM, NI.
    eapply local_after_scan; [eassumption|exact W|]. unfold scanning, scan_sums, scan_ids; proc_fields.
    split; [eapply cands_ok_same; eauto|]. split; [lia|].
    split; [exact ND|]. split; [eapply NoDup_remove_1; exact NI|]. split; [lia|]. split; [exact CS|].
    intros e He. apply TD. right; exact He.
  - (* GScanLock, candidate *)
    destruct L as (W & CO & SZ & ND & NI & SM & CS & TD). unfold scan_ids in NI. rewrite Htodo in SZ, SM, TD, NI. cbn [hd tl snd] in SZ, SM.
    split; [exact W|]. unfold scanning, scan_sums, scan_ids; proc_fields. split; [|split; [rewrite sizes_app; cbn; lia|]].
    + intros c0 Hc. apply in_app_iff in Hc. destruct Hc as [Hc|[<-|[]]]; [exact (CO c0 Hc)|]. split.
      * intros Hu. apply andb_true_iff in Hu. destruct Hu as [_ Hu]. apply negb_true_iff in Hu. exact Hu.
      * intros Hg. change (g_used pr = false) in Hg. rewrite Hg, orb_false_r in Hcand. exact Hcand.
    + split; [exact ND|]. split; [rewrite map_app, <- app_assoc; exact NI|]. split; [exact SM|]. split.
      * intros c0 Hc. apply in_app_iff in Hc. destruct Hc as [Hc|[<-|[]]]; [auto|]. apply TD. left; reflexivity.
      * intros e He. apply TD. right; exact He.
  - (* GScanLock, not a candidate *)
    destruct L as (W & CO & SZ & ND & NI & SM & CS & TD). unfold scan_ids in NI. rewrite Htodo in SZ, SM, TD, NI. cbn [hd tl snd] in SZ, SM.
    split; [exact W|]. unfold scanning, scan_sums, scan_ids; proc_fields.
    split; [eapply cands_ok_same; eauto|]. split; [lia|].
    split; [exact ND|]. split; [eapply NoDup_remove_1; exact NI|]. split; [exact SM|]. split; [exact CS|].
    intros e He. apply TD. right; exact He.
  - (* GScanUnlock *)
    destruct L as (W & SC). eapply local_after_scan; eassumption.
  - (* GMove, dry run *)
    destruct L as (W & CO & MO & ND & CS & NQ & SZ). rewrite Hqueue in CS, NQ. apply NoDup_cons_iff in NQ. destruct NQ as [Hnin NQ].
    eapply local_next; [eassumption|exact W|eapply cands_ok_same; eauto|exact (loop_ok_take pr c rest MO Hpc Hqueue)|].
    split; [exact ND|]. split; [intros c' Hc'; apply CS; right; exact Hc'|]. split; [exact NQ|].
    intros Hd. change (g_dry pr = false) in Hd. congruence.
  - (* GMove, collect: the entry leaves the copy in memory, which is dumped at once *)
    destruct L as (W & CO & MO & ND & CS & NQ & SZ). rewrite Hqueue in CS, NQ. apply NoDup_cons_iff in NQ. destruct NQ as [Hnin NQ].
    assert (Hc : In (c_id c, c_size c) (p_meta pr)) by (apply CS; left; reflexivity).
    pose proof (sum_remove_key _ _ _ ND Hc) as Hsum. specialize (SZ Hdry).
    eapply local_next; [eassumption|split; reflexivity|eapply cands_ok_same; eauto|exact (loop_ok_take pr c rest MO Hpc Hqueue)|].
    unfold move_sums; proc_fields.
    split; [apply NoDup_remove_key; exact ND|]. split; [|split; [exact NQ|intros _; lia]].
    intros c' Hc'. apply In_remove_key. split; [|apply CS; right; exact Hc'].
    intros E. apply Hnin. rewrite <- E. apply in_map; exact Hc'.
Qed.

(* a bystander holds the lock of its pkg.json, and repo.json shared: the mover does not hold repo.json exclusively,
   so it is not a gc, and it leaves that entry of the store alone *)
Lemma use_stable : excl_repo s -> excl_pkg s -> forall j pj, j <> i -> proc_at s j pj -> local s pj ->
  p_pc pj = UWrite \/ p_pc pj = UUnlockPkg -> lookup (o_pkg (cur pj)) (st_store g) = lookup (o_pkg (cur pj)) (st_store s).
Proof.
  intros ER EP j prj Hne Hj0 Lj Hb.
  pose proof (pkg_lock_use prj Hb) as L.
  assert (NoX : repo_mode a <> Some true).
  { intros E. pose proof (repo_mode_use prj Hb) as Hs. rewrite (ER i j pr prj) in Hs; auto; [discriminate|rewrite Hpc; exact E]. }
  assert (Mine : forall b, a = b -> b = UWrite \/ b = UUnlockPkg -> o_pkg (cur prj) <> o_pkg (cur pr)).
  { intros b <- Hw E. apply (EP i j pr prj (o_pkg (cur pr))) with (m := true); auto.
    - apply pkg_lock_use. rewrite Hpc. exact Hw.
    - rewrite <- E. exact L. }
  destruct M; try (exfalso; apply NoX; reflexivity); try reflexivity.
  + apply lookup_app_other. intros E. apply has_key_false in Hkey.
    destruct (local_use _ _ Lj Hb) as (d0 & Hd0 & _). congruence.
  + apply lookup_set_key_other. intros E. rewrite E in L. exact (pkg_free_x_nth _ _ _ _ true Hfree Hj0 L).
  + apply lookup_set_key_other, (Mine UWrite); auto.
  + apply lookup_set_key_other, (Mine UUnlockPkg); auto.
Qed.

Lemma trunc_moves : local s pr -> trunc_held s -> trunc_held (upd_proc g i pr').
Proof.
  intros L B Ht. cbn [st_rtrunc upd_proc] in Ht.
  assert (Dec : forall b, repo_mode b = Some true \/ repo_mode b <> Some true)
    by (intros b; destruct (repo_mode b) as [[|]|]; auto; right; discriminate).
  destruct (Dec (p_pc pr')) as [Hm'|Hm']; [exists i, pr'; split; [apply moved_self|exact Hm']|].
  destruct (Dec a) as [Hm|Hm]; [rewrite (moves_repo_released L Hm Hm') in Ht; discriminate|].
  destruct (moves_repo_other Hm Hm') as [[_ E]|[_ E]]; [|congruence].
  rewrite E in Ht. apply moved_exists; [|exact (B Ht)]. rewrite Hpc. contradiction.
Qed.

Lemma locals_moves : excl_repo s -> excl_pkg s -> trunc_held s -> acct s -> locals s -> locals (upd_proc g i pr').
Proof.
  intros ER EP B A LS j pj Hj. destruct (moved_cases _ _ Hj) as [[-> ->]|[Hne Hj0]]; [exact (local_moves B A (LS i pr Hp))|].
  pose proof (LS j pj Hj0) as Lj. apply (local_same s); [exact Lj| | |].
  - (* the bystander holds repo.json exclusively: the mover neither held it nor holds it now *)
    intros Hm. destruct (local_held _ _ Lj Hm) as [R _].
    destruct moves_repo_other as [[E1 E2]|[E _]]; [| |split; assumption|congruence].
    + rewrite <- Hpc, (ER j i pj pr); auto; discriminate.
    + rewrite (excl_repo_moves ER j i pj pr'); auto; [discriminate|apply moved_self].
  - intros Hn. apply moves_repo_stays, (local_needs _ _ Lj Hn).
  - exact (use_stable ER EP j pj Hne Hj0 Lj).
Qed.

Lemma moves_cands : forall c, gphase (p_pc pr') = true -> In c (p_cands pr') ->
  gphase a = true /\ p_ops pr' = p_ops pr /\ (In c (p_cands pr) \/ new_scan s pr c).
Proof.
  intros c Hg Hc.
  destruct M; try discriminate Hg; try (rewrite gphase_neutral in Hg by exit_point; discriminate Hg);
    try (gc_keeps; rewrite Kcands in Hc; proc_fields).
  - (* GLock: nothing scanned yet *) destruct Hc.
  - (* GScan *) auto.
  - (* GScan, directory gone *) auto.
  - (* GScanLock: the new candidate *)
    split; [reflexivity|]. split; [reflexivity|].
    apply in_app_iff in Hc. destruct Hc as [Hc|[<-|[]]]; [auto|].
    right. split; [exact Hpc|]. exists sz, rest, d, m. auto 6.
  - (* GScanLock, no candidate *) auto.
  - (* GScanUnlock *) auto.
  - (* GMove, dry run *) auto.
  - (* GMove, collect *) auto.
Qed.

Lemma moves_log : log_effect (st_log s) (st_store s) (st_log g) (st_store g).
Proof.
  clear Hpc.
  destruct M; rewrite ?flush_repo_log, ?flush_repo_store;
    cbn [st_log st_store with_store with_repo with_links with_log with_dir dropped];
    try (apply le_none; [reflexivity|]; intros q0; first [reflexivity|apply has_key_set_key_present, has_key_lookup; eexists; eassumption]).
  - apply le_entry with (b := true) (p := o_pkg (cur pr)); [reflexivity|assumption| |]; apply has_key_false in Hkey.
    + unfold has_key. rewrite lookup_app_new by assumption. reflexivity.
    + intros q Hne. unfold has_key. rewrite lookup_app_other by auto. reflexivity.
  - apply le_entry with (b := false) (p := c_id c); [reflexivity|assumption| |].
    + unfold has_key. rewrite lookup_remove_key_same. reflexivity.
    + intros q Hne. unfold has_key. rewrite lookup_remove_key_other by auto. reflexivity.
  - apply le_entry with (b := false) (p := c_id c); [reflexivity|assumption| |].
    + unfold has_key. rewrite lookup_remove_key_same. reflexivity.
    + intros q Hne. unfold has_key. rewrite lookup_remove_key_other by auto. reflexivity.
Qed.

End OneMove.

Lemma run_app : forall s a b, run s (a ++ b) = run (run s a) b.
Proof. intros; apply fold_left_app. Qed.

Lemma run_snoc : forall s a x, run s (a ++ [x]) = act (run s a) x.
Proof. intros; rewrite run_app; reflexivity. Qed.

Lemma run_inv : forall P : state -> Prop,
  (forall s, P s -> P (tick s)) -> (forall s i s', P s -> step s i = Some s' -> P s') ->
  forall sched s, P s -> P (run s sched).
Proof.
  intros P Ht Hs. induction sched as [|a r IH]; intros s H; auto.
  apply IH. destruct a as [i|]; cbn [act]; [|auto]. destruct (step s i) eqn:E; eauto.
Qed.

Lemma once_step : forall s i s', once_inv s -> step s i = Some s' -> once_inv s'.
Proof.
  intros s i s' I H p. specialize (I p). destruct (step_moves _ _ _ H) as [pr g pr' _ M ->].
  cbn [st_log st_store upd_proc].
  destruct (moves_log M) as [El Ek|b p0 El K0 K1 Ko]; rewrite El.
  - rewrite Ek. exact I.
  - rewrite !count_log_app. cbn [fst snd]. destruct (N.eq_dec p p0) as [->|Hne].
    + rewrite N.eqb_refl, K1. rewrite K0 in I. destruct b; cbn in *; lia.
    + assert (E : (p0 =? p) = false) by (apply N.eqb_neq; auto). rewrite E, (Ko p Hne), !andb_false_r. lia.
Qed.

Lemma once_run : forall s sched, once_inv s -> once_inv (run s sched).
Proof. intros s sched. apply run_inv; [auto|exact once_step]. Qed.

Section WithDir.

Variable dir : bool.   (* does the store directory exist at the beginning *)

Lemma excl_repo_init : forall procs, (forall pr, In pr procs -> repo_mode (p_pc pr) = None) -> excl_repo (init dir procs).
Proof.
  intros procs H i j pi pj _ _ Hj _. apply H. eapply nth_error_In; exact Hj.
Qed.

Lemma excl_repo_shared : forall s i j pi pj, excl_repo s -> i <> j -> proc_at s i pi -> proc_at s j pj ->
  repo_mode (p_pc pi) = Some false -> repo_mode (p_pc pj) <> Some true.
Proof.
  intros s i j pi pj Inv Hne Hi Hj Hm Hx. rewrite (Inv j i pj pi) in Hm; auto; discriminate.
Qed.

(* the conclusion of never_collected_while_used_partial; the last clause (as many operations left) says that the
   scan belongs to the gc operation still in progress *)
Definition scan_witness (procs : list proc) (sched : list action) (g : nat) (q : N) : Prop :=
  exists sched0 rest, sched = sched0 ++ Step g :: rest /\
    scans (run (init dir procs) sched0) g q /\
    (forall w, recorded (run (init dir procs) sched0) q w -> lookup w (st_links (run (init dir procs) sched0)) <> Some q) /\
    ops_left (run (init dir procs) sched0) g = ops_left (run (init dir procs) sched) g.

(* about the whole schedule, so not a field of [inv]: proved by induction on the schedule from its end
   ([cand_hist_all]); with [cands_ok] and [move_ok] of the annotation at GMove it gives
   never_collected_while_used_partial *)
Definition cand_hist (procs : list proc) (sched : list action) : Prop :=
  forall g pr c, proc_at (run (init dir procs) sched) g pr -> gphase (p_pc pr) = true ->
    In c (p_cands pr) -> c_unused c = true -> scan_witness procs sched g (c_id c).

Lemma scan_witness_extend : forall procs sched a g q,
  ops_left (act (run (init dir procs) sched) a) g = ops_left (run (init dir procs) sched) g ->
  scan_witness procs sched g q -> scan_witness procs (sched ++ [a]) g q.
Proof.
  intros procs sched a g q Hops (sched0 & rest & E & Hs & Hl & Ho).
  exists sched0, (rest ++ [a]). split; [rewrite E, <- app_assoc; reflexivity|].
  split; auto. split; auto. rewrite run_snoc. congruence.
Qed.

Lemma check_unused_links : forall links users q w, check_unused links users q = true -> In w users -> lookup w links <> Some q.
Proof.
  unfold check_unused; intros links users q w H Hin E.
  rewrite forallb_forall in H. specialize (H w Hin). unfold links_to in H. rewrite E, N.eqb_refl in H. discriminate.
Qed.

Lemma cand_hist_step : forall procs sched a, cand_hist procs sched -> cand_hist procs (sched ++ [a]).
Proof.
  intros procs sched a IH g pr' c Hp' Hg Hc Hu. rewrite run_snoc in Hp'.
  set (s := run (init dir procs) sched) in *.
  (* the process stood at its place with the same operations before: its witness extends *)
  assert (Old : forall pr, proc_at s g pr -> gphase (p_pc pr) = true -> In c (p_cands pr) -> p_ops pr' = p_ops pr ->
                scan_witness procs (sched ++ [a]) g (c_id c)).
  { intros pr Hp Hg0 Hc0 Hops. apply scan_witness_extend; [|exact (IH g pr c Hp Hg0 Hc0 Hu)].
    fold s. unfold ops_left. rewrite Hp', Hp, Hops. reflexivity. }
  destruct a as [k|]; cbn [act] in Hp'; [|exact (Old pr' Hp' Hg Hc eq_refl)].
  destruct (step s k) as [s'|] eqn:Hst; [|exact (Old pr' Hp' Hg Hc eq_refl)].
  destruct (step_moves _ _ _ Hst) as [pr g0 pr1 Hp M ->].
  destruct (moved_cases Hp M _ _ Hp') as [[-> ->]|[Hne Hp0]]; [|exact (Old pr' Hp0 Hg Hc eq_refl)].
  destruct (moves_cands eq_refl M c Hg Hc) as (Hg0 & Hops & [Hold|(Hpc & sz & rest & d & m & Htodo & Hfree & Hlk & Hdm & Hun)]);
    [exact (Old pr Hp Hg0 Hold Hops)|].
  exists sched, []. split; [reflexivity|]. fold s. split; [|split].
  - exists pr, sz, rest. auto.
  - intros w (d' & m' & Hd' & Hm' & Hin).
    unfold disk_meta in Hdm. destruct (d_trunc d); [discriminate|]. assert (m' = m) by congruence; subst m'.
    rewrite Hu in Hun. symmetry in Hun. apply andb_true_iff in Hun. destruct Hun as [Hun _].
    eapply check_unused_links; eauto.
  - rewrite run_snoc. fold s. cbn [act]. rewrite Hst.
    unfold ops_left. rewrite Hp', Hp, Hops. reflexivity.
Qed.

Lemma cand_hist_all : forall procs sched, wf_procs procs -> cand_hist procs sched.
Proof.
  intros procs sched WF. induction sched as [|a sched IH] using rev_ind; [|apply cand_hist_step; exact IH].
  intros g pr c Hp Hg. destruct (WF pr) as (q & a & ops & ->); [eapply nth_error_In; exact Hp|].
  rewrite gphase_neutral in Hg by apply start_pc_neutral. discriminate.
Qed.

Record inv (s : state) : Prop := {
  i_er : excl_repo s;       (* lock_protocol_excludes, repo.json *)
  i_ep : excl_pkg s;        (* lock_protocol_excludes, pkg.json *)
  i_store : store_ok s;     (* visible_is_complete_and_hashed, truncated_pkg_json_has_writer *)
  i_trunc : trunc_held s;   (* last clause of repo_size_is_sum; lets a process that finds repo.json free read its text *)
  i_acct : acct s;          (* repo_size_is_sum *)
  i_res : res_ok s;         (* no_spurious_failure *)
  i_local : locals s        (* reported_size_is_sum, auto_gc_only_unused_oldest_first_until_quota; the four above it are kept with its help *)
}.

Lemma inv_step : forall s i s', inv s -> step s i = Some s' -> inv s'.
Proof.
  intros s i s' [ER EP S B A R LS] H.
  destruct (step_moves _ _ _ H) as [pr g pr' Hp M ->]. pose proof (LS i pr Hp) as L.
  constructor.
  - exact (excl_repo_moves Hp eq_refl M ER).
  - exact (excl_pkg_moves Hp eq_refl M EP).
  - exact (store_ok_moves Hp eq_refl M L S).
  - exact (trunc_moves Hp eq_refl M L B).
  - exact (acct_moves Hp eq_refl M L B A).
  - intros j prj f Hj Hin. destruct (moved_cases Hp M _ _ Hj) as [[-> ->]|[Hne Hj0]]; [|exact (R j prj f Hj0 Hin)].
    rewrite (moves_quota M).
    destruct (moves_failure eq_refl M f S A L Hin) as [Hold|[E|E]]; auto. exact (R i pr f Hp Hold).
  - exact (locals_moves Hp eq_refl M ER EP B A LS).
Qed.

Lemma inv_init : forall procs, wf_procs procs -> inv (init dir procs).
Proof.
  intros procs WF.
  assert (St : forall i pr, proc_at (init dir procs) i pr -> neutral (p_pc pr) = true /\ p_res pr = []).
  { intros i pr Hi. destruct (WF pr) as (q & a & ops & ->); [eapply nth_error_In; exact Hi|].
    split; [exact (start_pc_neutral ops)|reflexivity]. }
  constructor.
  - intros i j pi pj _ _ Hj _. apply repo_mode_neutral, (St j pj Hj).
  - intros i j pi pj q _ Hi _ Hl. rewrite pkg_lock_neutral in Hl by apply (St i pi Hi). discriminate.
  - intros q d H. discriminate.
  - discriminate.
  - unfold acct, ledger. rewrite flat_map_nil.
    + split; [constructor|reflexivity].
    + intros pr Hin. apply In_nth_error in Hin. destruct Hin as (i & Hi).
      unfold owes. rewrite pend_neutral by apply (St i pr Hi). reflexivity.
  - intros i pr f Hi Hin. destruct (St i pr Hi) as [_ E]. rewrite E in Hin. destruct Hin.
  - intros i pr Hi. apply local_neutral, (St i pr Hi).
Qed.

Lemma inv_run : forall procs sched, wf_procs procs -> inv (run (init dir procs) sched).
Proof.
  intros procs sched WF. apply run_inv; [| |apply inv_init; exact WF].
  - intros s [ER EP S B A R LS]. constructor; assumption.
  - exact inv_step.
Qed.

End WithDir.
