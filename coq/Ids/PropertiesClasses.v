(* C03/C02 at the class level — property theorems about class resolution
   (Ids/Classes.v models Recipe.__resolveClassesOrder and Recipe.resolveClasses). *)
From Coq Require Import List NArith Bool.
Require Import BobV.Ids.Model BobV.Ids.Classes BobV.Ids.ClassesProofs.
Import ListNotations.
Open Scope N_scope.

(* every class is inherited only once *)
Theorem linearise_no_class_twice : forall t r l, linearise t r = Ok l -> NoDup l.
Proof. intros t r l H. apply (linearise_ok _ _ _ H). Qed.
Print Assumptions linearise_no_class_twice.

(* the result holds exactly the classes reachable through inherit / the anonymous multiPackage base *)
Theorem linearise_exactly_the_ancestors : forall t r l,
  linearise t r = Ok l -> forall a, In a l <-> anc t r a.
Proof. intros t r l H. apply (linearise_ok _ _ _ H). Qed.
Print Assumptions linearise_exactly_the_ancestors.

(* a class stands after every class it inherits, directly or through other classes: it overrides its bases *)
Theorem linearise_bases_before_derived : forall t r l l1 a l2 b,
  linearise t r = Ok l -> l = l1 ++ a :: l2 ->
  (exists b', edge t a b' /\ reach t b' b) -> In b l1.
Proof.
  intros t r l l1 a l2 b H -> [b' [E R]]. eapply ordered_ancestors_before; eauto.
  apply (linearise_ok _ _ _ H).
Qed.
Print Assumptions linearise_bases_before_derived.

(* a result exists iff every named class exists and no inheritance cycle is reachable *)
Theorem linearise_succeeds_iff : forall t r,
  (exists l, linearise t r = Ok l) <-> (closed_from t r /\ ~ exists a, anc t r a /\ cyclic_at t a).
Proof.
  intros t r. generalize (linearise_result t r). destruct (linearise t r) as [l|[]]; intros R.
  - split; [intros _; exact R | now exists l].
  - split; [intros [l E]; discriminate | intros [_ N]; destruct (N R)].
  - split; [intros [l E]; discriminate | intros [C _]; destruct (R C)].
  - destruct R.
Qed.
Print Assumptions linearise_succeeds_iff.

(* "Cyclic class inheritence" is reported iff a cycle is reachable (all named classes existing) *)
Theorem linearise_cycle_error_iff : forall t r,
  closed_from t r ->
  (linearise t r = Err ECycle <-> exists a, anc t r a /\ cyclic_at t a).
Proof.
  intros t r C. generalize (linearise_result t r). destruct (linearise t r) as [l|[]]; intros R.
  - split; [discriminate | intros Cy; destruct (proj2 R Cy)].
  - split; auto.
  - destruct (R C).
  - destruct R.
Qed.
Print Assumptions linearise_cycle_error_iff.

Theorem linearise_missing_error_iff : forall t r,
  (~ exists a, anc t r a /\ cyclic_at t a) ->
  (linearise t r = Err EMissing <-> ~ closed_from t r).
Proof.
  intros t r N. generalize (linearise_result t r). destruct (linearise t r) as [l|[]]; intros R.
  - split; [discriminate | intros NC; destruct (NC (proj1 R))].
  - destruct (N R).
  - split; auto.
  - destruct R.
Qed.
Print Assumptions linearise_missing_error_iff.

(* the fuel of the model (number of table entries + 1 = bound on the recursion depth) always suffices,
   and more fuel never changes a result *)
Theorem linearise_never_out_of_fuel : forall t r, linearise t r <> Err EFuel.
Proof. exact linearise_fuel_proof. Qed.
Print Assumptions linearise_never_out_of_fuel.

Theorem lin_cls_fuel_monotone : forall t f f' stack acc n R,
  (f <= f')%nat -> lin_cls t f stack acc n = R -> R <> Err EFuel -> lin_cls t f' stack acc n = R.
Proof. exact lin_cls_mono. Qed.
Print Assumptions lin_cls_fuel_monotone.

(* the resolved recipe is a function of the recipe and of its inherit closure: classes (and anonymous
   base classes of other recipes) that are no ancestors may be added, removed or changed at will *)
Theorem resolve_depends_only_on_ancestors : forall t t' glue r,
  (forall a, anc t r a -> lookup t a = lookup t' a) ->
  resolve t glue r = resolve t' glue r.
Proof.
  intros t t' glue r H. unfold resolve. rewrite <- (linearise_agree t t' r H).
  destruct (linearise t r) as [l|e] eqn:E; auto.
  rewrite (lookup_all_agree t t' l); auto.
  intros a Ha. apply H. eapply linearise_sound_proof; eauto.
Qed.
Print Assumptions resolve_depends_only_on_ancestors.

(* the loop as Python runs it, in place on a heap of objects, computes [resolve] and writes no object but
   the recipe that is being resolved: class objects keep their state *)
Theorem resolve_inplace_is_resolve_and_frames : forall t glue h rn r,
  heap_init t h -> hget h (OR rn) = m_init r ->
  res_map fst (resolve_inplace t glue h rn r) = resolve t glue r /\
  (forall x h', resolve_inplace t glue h rn r = Ok (x, h') ->
     hget h' (OR rn) = merge_all (classes_of t x) r /\
     (forall o, o <> OR rn -> hget h' o = hget h o)).
Proof.
  intros t glue h rn r Hi Hr. unfold resolve_inplace, resolve. destruct (linearise t r) as [l|e] eqn:E; cbn.
  - destruct (merge_inplace_spec t h rn r l Hi Hr E) as [M1 M2]. split.
    + now rewrite M1.
    + intros x h' [= <- <-]. unfold classes_of. cbn. auto.
  - split; auto. intros x h' H. discriminate.
Qed.
Print Assumptions resolve_inplace_is_resolve_and_frames.

(* two recipes resolved in either order (the order in which the recipe files were read): same resolved
   recipes, equal to the pure [resolve]; same final heap; every class object unchanged *)
Theorem resolve_inplace_commutes : forall t glue h n1 r1 n2 r2 x1 h1 x2 h12,
  heap_init t h -> hget h (OR n1) = m_init r1 -> hget h (OR n2) = m_init r2 -> n1 <> n2 ->
  resolve_inplace t glue h n1 r1 = Ok (x1, h1) ->
  resolve_inplace t glue h1 n2 r2 = Ok (x2, h12) ->
  resolve t glue r1 = Ok x1 /\ resolve t glue r2 = Ok x2 /\
  exists h2 h21,
    resolve_inplace t glue h n2 r2 = Ok (x2, h2) /\
    resolve_inplace t glue h2 n1 r1 = Ok (x1, h21) /\
    (forall o, hget h12 o = hget h21 o) /\
    (forall n, hget h12 (OC n) = hget h (OC n)).
Proof.
  intros t glue h n1 r1 n2 r2 x1 h1 x2 h12 Hi H1 H2 Hn A B.
  assert (N12 : OR n2 <> OR n1) by congruence. assert (N21 : OR n1 <> OR n2) by congruence.
  destruct (resolve_inplace_is_resolve_and_frames t glue h n1 r1 Hi H1) as [S1 F1].
  destruct (F1 _ _ A) as [G1 Fr1]. rewrite A in S1.
  assert (Hi1 : heap_init t h1) by (apply (heap_init_frame t h); [exact Hi | intros; apply Fr1; discriminate]).
  destruct (resolve_inplace_is_resolve_and_frames t glue h1 n2 r2 Hi1) as [S2 F2]; [now rewrite Fr1|].
  destruct (F2 _ _ B) as [G2 Fr2]. rewrite B in S2.
  destruct (resolve_inplace_is_resolve_and_frames t glue h n2 r2 Hi H2) as [S3 F3].
  rewrite <- S2 in S3. apply res_map_fst_Ok in S3. destruct S3 as [h2 C]. destruct (F3 _ _ C) as [G3 Fr3].
  assert (Hi2 : heap_init t h2) by (apply (heap_init_frame t h); [exact Hi | intros; apply Fr3; discriminate]).
  destruct (resolve_inplace_is_resolve_and_frames t glue h2 n1 r1 Hi2) as [S4 F4]; [now rewrite Fr3|].
  rewrite <- S1 in S4. apply res_map_fst_Ok in S4. destruct S4 as [h21 D]. destruct (F4 _ _ D) as [G4 Fr4].
  repeat split; auto. exists h2, h21. repeat split; auto.
  - intros o. destruct (oid_dec o (OR n2)) as [-> | O2].
    + rewrite G2, Fr4, G3 by auto. reflexivity.
    + rewrite Fr2 by auto. destruct (oid_dec o (OR n1)) as [-> | O1].
      * rewrite G1, G4. reflexivity.
      * rewrite Fr1, Fr4, Fr3 by auto. reflexivity.
  - intros n. rewrite Fr2, Fr1 by discriminate. reflexivity.
Qed.
Print Assumptions resolve_inplace_commutes.

Theorem initial_heap_is_initial : forall t rs,
  heap_init t (heap_of t rs) /\ forall n r, lookup rs n = Some r -> hget (heap_of t rs) (OR n) = m_init r.
Proof. intros t rs. split; [apply heap_of_init | apply heap_of_recipe]. Qed.
Print Assumptions initial_heap_is_initial.

(* provideTools / provideVars / metaEnvironment / *AuditFiles (position i): the recipe's own entry wins,
   then the classes from the last of the linearisation (most derived) to the first *)
Theorem dict_keys_most_derived_wins : forall t glue r x i k,
  resolve t glue r = Ok x -> cls_wf r -> (forall c, In c (classes_of t x) -> cls_wf c) ->
  dict_get (nth i (m_dicts (rs_m x)) []) k =
  first_some (dict_get (nth i (c_dicts r) []) k ::
              map (fun c => dict_get (nth i (c_dicts c) []) k) (rev (classes_of t x))).
Proof.
  intros t glue r x i k H Wr Wc. rewrite (resolve_rs_m _ _ _ _ H). unfold merge_all. cbn [finish m_dicts].
  rewrite fold_dicts, map_map; [reflexivity | now apply m_init_dicts_wf |].
  apply Forall_map, Forall_forall. intros c Hc. apply m_init_dicts_wf, Wc. now apply in_rev.
Qed.
Print Assumptions dict_keys_most_derived_wins.

(* root shared relocatable jobServer packageDepends provideSandbox *NetAccess, plugin properties:
   first value that is not None in the same order, then the built-in default *)
Theorem scalar_keys_first_not_none : forall t glue r x i,
  resolve t glue r = Ok x ->
  nth i (m_scalars (rs_m x)) None =
  first_some (nth i (c_scalars r) None ::
              map (fun c => nth i (c_scalars c) None) (rev (classes_of t x)) ++ [nth i scalar_defaults None]).
Proof.
  intros t glue r x i H. rewrite (resolve_rs_m _ _ _ _ H). unfold merge_all. cbn [finish m_scalars].
  rewrite (nth_zipd orelse None), fold_scalars, map_map, app_comm_cons by reflexivity. apply first_some_snoc.
Qed.
Print Assumptions scalar_keys_first_not_none.

(* *Vars, *VarsWeak, provideDeps: union over the recipe and all ancestors, in canonical form *)
Theorem set_keys_are_unions : forall t glue r x i v,
  resolve t glue r = Ok x ->
  (In v (nth i (m_sets (rs_m x)) []) <->
   In v (nth i (c_sets r) []) \/
   exists a c, In a (rs_order x) /\ lookup t a = Some c /\ In v (nth i (c_sets c) [])).
Proof.
  intros t glue r x i v H. rewrite (resolve_sets _ _ _ _ _ H), In_set_norm, in_app_iff.
  rewrite In_concat_map. unfold classes_of. apply or_iff_compat_l. split.
  - intros [c [[a [Ha Hl]]%in_rev%In_lookup_all Hv]]. exists a, c. auto.
  - intros [a [c [Ha [Hl Hv]]]]. exists c. split; [|exact Hv]. apply -> in_rev. apply In_lookup_all. eauto.
Qed.
Print Assumptions set_keys_are_unions.

Theorem set_keys_canonical : forall t glue r x i,
  resolve t glue r = Ok x -> sset (nth i (m_sets (rs_m x)) []).
Proof.
  intros t glue r x i H. rewrite (resolve_sets _ _ _ _ _ H). apply set_norm_sorted.
Qed.
Print Assumptions set_keys_canonical.

Theorem set_norm_canonical : forall a b, (forall x, In x a <-> In x b) -> set_norm a = set_norm b.
Proof.
  intros a b H. apply sset_ext; try apply set_norm_sorted. intros x. rewrite !In_set_norm. apply H.
Qed.
Print Assumptions set_norm_canonical.

(* scripts, SCMs, asserts: the ancestors in linearisation order, then the recipe *)
Theorem scripts_in_linearisation_order : forall t glue r x,
  resolve t glue r = Ok x ->
  let all := classes_of t x ++ [r] in
  let lg := rs_lang x in
  rs_lang x = sel_lang all r /\
  rs_checkout x = merge_scripts (glue lg) (map (fun c => sel lg (c_checkout c)) all) /\
  rs_build x = merge_scripts (glue lg) (map (fun c => sel lg (c_build c)) all) /\
  (snd (fst (merge_scripts (glue lg) (map (fun c => sel lg (c_package c)) all))) <> None ->
   rs_package x = merge_scripts (glue lg) (map (fun c => sel lg (c_package c)) all)) /\
  rs_scms x = flat_map c_scms all /\ rs_asserts x = flat_map c_asserts all /\
  rs_codet x = forallb (co_det lg) all.
Proof.
  intros t glue r x H. destruct (resolve_inv _ _ _ _ H) as [l [_ [_ ->]]]. unfold classes_of.
  cbn [rs_order rs_lang rs_checkout rs_build rs_package rs_scms rs_asserts rs_codet assemble].
  repeat split; auto.
  - intros N. destruct (snd (fst (merge_scripts _ _))); [reflexivity | contradiction].
  - generalize (co_det (sel_lang (lookup_all t l ++ [r]) r)). intros f.
    induction (lookup_all t l ++ [r]) as [|c L IH]; cbn [map forallb]; congruence.
Qed.
Print Assumptions scripts_in_linearisation_order.

(* main script: Script fragments in that order, then the Finalize fragments in the reverse order *)
Theorem main_script_shape : forall glue fs,
  snd (fst (merge_scripts glue fs)) =
  join_scripts glue (map (fun f => fst (f_main f)) fs ++ map (fun f => fst (f_final f)) (rev fs)).
Proof. reflexivity. Qed.
Print Assumptions main_script_shape.

(* the six tool lists: own entries, then most derived class ... base class *)
Theorem tool_lists_own_then_derived_to_base : forall t glue r x i,
  resolve t glue r = Ok x ->
  nth i (m_tools (rs_m x)) [] =
  nth i (c_tools r) [] ++ concat_map (fun c => nth i (c_tools c) []) (rev (classes_of t x)).
Proof.
  intros t glue r x i H. rewrite (resolve_rs_m _ _ _ _ H). unfold merge_all. cbn [finish m_tools].
  now rewrite fold_tools, concat_map_map.
Qed.
Print Assumptions tool_lists_own_then_derived_to_base.

(* dependencies and the environment / privateEnvironment layers: base ... derived, then the recipe;
   sources: the recipe's own, then derived ... base *)
Theorem deps_and_env_layers_base_to_derived : forall t glue r x,
  resolve t glue r = Ok x ->
  m_deps (rs_m x) = concat_map c_deps (classes_of t x) ++ c_deps r /\
  m_varSelf (rs_m x) = concat_map (fun c => dict_nonempty (c_varSelf c)) (classes_of t x) ++ dict_nonempty (c_varSelf r) /\
  m_varPrivate (rs_m x) = concat_map (fun c => dict_nonempty (c_varPrivate c)) (classes_of t x) ++ dict_nonempty (c_varPrivate r) /\
  m_sources (rs_m x) = c_sources r ++ concat_map c_sources (rev (classes_of t x)).
Proof.
  intros t glue r x H. rewrite (resolve_rs_m _ _ _ _ H). unfold merge_all.
  cbn [finish m_deps m_varSelf m_varPrivate m_sources].
  rewrite fold_deps, fold_varSelf, fold_varPrivate, fold_sources, <- map_rev, rev_involutive, !concat_map_map.
  auto.
Qed.
Print Assumptions deps_and_env_layers_base_to_derived.

Definition nA : name := [65].
Definition nB : name := [66].
Definition nC : name := [67].
Definition nX : name := [114; 35; 49].           (* "r#1" *)
Definition kK : str := [75].
Definition ex_table : table :=
  [ (nA, sample_cls [] None [97] kK [97] [116; 97] [86; 65]);
    (nB, sample_cls [nA] None [98] kK [98] [116; 98] [86; 66]);
    (nC, sample_cls [nA] None [99] kK [99] [116; 99] [86; 65]);
    (nX, sample_cls [nB] None [120] [88] [120] [116; 120] [86; 88]) ].
Definition ex_glue (l : lang) : str := [59].

(* a diamond (B and C inherit A) with repeated names in the inherit list *)
Example diamond_nonvacuous :
  linearise ex_table (with_inherit cls0 [nB; nC; nA; nB] None) = Ok [nA; nB; nC].
Proof. vm_compute. reflexivity. Qed.
Print Assumptions diamond_nonvacuous.

(* the anonymous base class of a multiPackage comes first *)
Example anon_base_nonvacuous :
  linearise ex_table (with_inherit cls0 [nC] (Some nX)) = Ok [nA; nB; nX; nC].
Proof. vm_compute. reflexivity. Qed.
Print Assumptions anon_base_nonvacuous.

Definition ex_cyclic : table :=
  [ (nA, with_inherit cls0 [nB] None); (nB, with_inherit cls0 [nC; nA] None); (nC, cls0) ].

Example cycle_nonvacuous :
  linearise ex_cyclic (with_inherit cls0 [nC; nA] None) = Err ECycle /\
  linearise ex_cyclic (with_inherit cls0 [nC] None) = Ok [nC] /\
  linearise ex_cyclic (with_inherit cls0 [nC; [90]] None) = Err EMissing.
Proof. vm_compute. repeat split; reflexivity. Qed.
Print Assumptions cycle_nonvacuous.

(* resolution of a recipe over the diamond: own provideVars entry wins over C over B over A, buildVars is the
   sorted union, buildTools are own, C, B, A, the build script joins A, B, C, own *)
Example resolve_nonvacuous :
  match resolve ex_table ex_glue (sample_cls [nB; nC] None [114] kK [114] [116; 114] [86; 90]) with
  | Ok x => rs_order x = [nA; nB; nC] /\
            dict_get (nth 1 (m_dicts (rs_m x)) []) kK = Some [114] /\
            nth 3 (m_sets (rs_m x)) [] = [[86; 65]; [86; 66]; [86; 90]] /\
            nth 2 (m_tools (rs_m x)) [] = [[116; 114]; [116; 99]; [116; 98]; [116; 97]] /\
            snd (fst (rs_build x)) = Some [97; 59; 98; 59; 99; 59; 114]
  | Err _ => False
  end /\
  match resolve ex_table ex_glue (with_inherit cls0 [nB; nC] None) with
  | Ok x => dict_get (nth 1 (m_dicts (rs_m x)) []) kK = Some [99]
  | Err _ => False
  end.
Proof. vm_compute. repeat split; reflexivity. Qed.
Print Assumptions resolve_nonvacuous.

(* two recipes resolved in place one after the other, as [resolve_inplace_commutes] assumes *)
Example inplace_nonvacuous :
  let r1 := sample_cls [nB; nC] None [114] kK [114] [116; 114] [86; 90] in
  let r2 := with_inherit cls0 [nC] (Some nX) in
  let h := heap_of ex_table [([49], r1); ([50], r2)] in
  match resolve_inplace ex_table ex_glue h [49] r1 with
  | Ok (x1, h1) =>
    match resolve_inplace ex_table ex_glue h1 [50] r2 with
    | Ok (x2, h12) => resolve ex_table ex_glue r1 = Ok x1 /\ resolve ex_table ex_glue r2 = Ok x2 /\
                      hget h12 (OC nA) = m_init (sample_cls [] None [97] kK [97] [116; 97] [86; 65]) /\
                      m_tools (hget h12 (OR [49])) = [[]; []; [[116; 114]; [116; 99]; [116; 98]; [116; 97]]]
    | Err _ => False
    end
  | Err _ => False
  end.
Proof. repeat apply conj; vm_compute; reflexivity. Qed.
Print Assumptions inplace_nonvacuous.
