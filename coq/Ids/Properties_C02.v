From Coq Require Import List NArith Bool Permutation.
Require Import BobV.Common.Sha1 BobV.Ids.Model BobV.Ids.Proofs.
Require BobV.Common.Sha1Digits.
Import ListNotations.
Open Scope N_scope.

(* Strings are hashed as <character count><UTF-8 bytes>; this is uniquely
   decodable although the prefix counts characters and not bytes. *)
Theorem charcount_prefix_uniquely_decodable : forall s r,
  wf_str s -> p_lstr (enc_lstr s ++ r) = Some (s, r).
Proof. exact p_lstr_rt. Qed.

(* The recipe part of the digest determines script, tools (recipe half of the
   provider's Variant-Id, path, libraries; in name order), the non-weak
   variables with their values and the recipe halves of the input Variant-Ids,
   in order: it can be decoded. *)
Theorem enc_recipes_decodes : forall s, wf_stepin s -> dec_recipes (enc_recipes s) = Some (core s).
Proof. exact dec_enc_recipes. Qed.

Theorem enc_recipes_injective : forall a b,
  wf_stepin a -> wf_stepin b -> enc_recipes a = enc_recipes b -> core a = core b.
Proof. exact enc_recipes_injective_proof. Qed.

(* "only if": equal Variant-Ids mean equal executed/consumed content and equal
   host stream — or an explicit SHA-1 collision among the hashed blobs. *)
Theorem variant_id_only_if : forall (H : bytes -> bytes),
  (forall x, length (H x) = 20%nat) -> forall a b,
  wf_stepin a -> wf_stepin b -> variant_id H a = variant_id H b ->
  (core a = core b \/ collision H (enc_recipes a) (enc_recipes b)) /\
  (enc_host a = enc_host b \/ collision H (enc_host a) (enc_host b)).
Proof.
  intros H Hlen a b Wa Wb E. rewrite !variant_id_halves in E.
  destruct (id_halves_eq H Hlen _ _ _ _ E) as [[E1|C] T]; auto using enc_recipes_injective.
Qed.

(* "if": the id is a function of that content; nothing else enters. *)
Theorem variant_id_if : forall (H : bytes -> bytes) a b,
  core a = core b -> enc_host a = enc_host b -> variant_id H a = variant_id H b.
Proof. exact variant_id_of_core_proof. Qed.

(* Full statement "equal ids => equal sequence of input step variants" is
   FALSE of the faithful model (finding F5): host parts are concatenated
   without position. *)
Theorem variant_id_separates_arg_sequences_refuted :
  exists a b, wf_stepin a /\ wf_stepin b /\ si_args a <> si_args b /\
              forall H, variant_id H a = variant_id H b.
Proof.
  exists f5_a, f5_b. split; [exact wf_f5_a|]. split; [exact wf_f5_b|]. split; [discriminate|].
  intros H. now apply variant_id_of_core_proof.
Qed.

(* ... it holds when no argument carries a host part (no fingerprinted input) *)
Theorem variant_id_separates_arg_sequences_partial : forall (H : bytes -> bytes),
  (forall x, length (H x) = 20%nat) -> forall a b,
  wf_stepin a -> wf_stepin b ->
  Forall (fun x => length x = 20%nat) (si_args a) -> Forall (fun x => length x = 20%nat) (si_args b) ->
  variant_id H a = variant_id H b ->
  si_args a = si_args b \/ collision H (enc_recipes a) (enc_recipes b).
Proof.
  intros H Hlen a b Wa Wb Fa Fb E.
  destruct (variant_id_only_if H Hlen a b Wa Wb E) as [[C|C] _]; [left|now right].
  apply (f_equal snd) in C. cbn [core snd] in C. now apply map_firstn20_exact.
Qed.

Example variant_id_nonvacuous :
  wf_stepin f5_a /\ length (variant_id sha1 f5_a) = 40%nat /\
  variant_id sha1 {| si_fp_sandbox := None; si_script := [120]; si_tools := []; si_env := []; si_args := [] |}
  <> variant_id sha1 {| si_fp_sandbox := None; si_script := [121]; si_tools := []; si_env := []; si_args := [] |}.
Proof.
  split; [exact wf_f5_a|]. unfold variant_id. rewrite <- !Sha1Digits.sha1n_eq.
  split; vm_compute; [reflexivity|discriminate].
Qed.
