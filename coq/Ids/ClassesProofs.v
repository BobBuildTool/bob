(* Ids/ClassesProofs — proofs about class linearisation and the merge of class contents (Ids/Classes.v).
   Linearisation: what one call of the search returns, case by case ([lin_cls_result]), and when two calls return
   the same ([lin_cls_same]: more fuel, changes of the table outside of the ancestors).  Merge loop: a fold per
   field, and the loop run in place on a heap. *)
From Coq Require Import List NArith Bool Arith.
Require BobV.Common.ListFacts.
Require Import BobV.Ids.Model BobV.Ids.Proofs BobV.Ids.Classes.
Import ListNotations.
Open Scope N_scope.

Lemma str_eqb_eq a : forall b, str_eqb a b = true <-> a = b.
Proof. exact (ListFacts.list_eqb_eq _ _ N.eqb_spec a). Qed.

Lemma str_eqb_refl a : str_eqb a a = true.
Proof. now apply str_eqb_eq. Qed.

Lemma str_eqb_neq a b : str_eqb a b = false <-> a <> b.
Proof. rewrite <- str_eqb_eq. symmetry. apply not_true_iff_false. Qed.

Lemma mem_In x l : mem x l = true <-> In x l.
Proof. exact (ListFacts.existsb_eqb_In _ _ (ListFacts.list_eqb_spec _ _ N.eqb_spec) x l). Qed.

Lemma mem_nIn x l : mem x l = false <-> ~ In x l.
Proof. rewrite <- mem_In. symmetry. apply not_true_iff_false. Qed.

Lemma lookup_In t n c : lookup t n = Some c -> In n (map fst t).
Proof.
  induction t as [|[k c'] t IH]; cbn; intros H; try discriminate.
  destruct (str_eqb k n) eqn:E.
  - left. now apply str_eqb_eq.
  - right. auto.
Qed.

Lemma defined_true t n : defined t n = true <-> lookup t n <> None.
Proof. unfold defined. destruct (lookup t n); split; intros; congruence. Qed.

Lemma all_defined_spec t l : all_defined t l = true <-> forall m, In m l -> lookup t m <> None.
Proof.
  unfold all_defined. rewrite forallb_forall. split; intros H m Hm; apply defined_true; auto.
Qed.

Lemma all_defined_false t l : all_defined t l = false -> exists m, In m l /\ lookup t m = None.
Proof.
  unfold all_defined, defined. induction l as [|x l IH]; cbn; intros H; [discriminate|].
  destruct (lookup t x) eqn:E; [|exists x; auto].
  destruct (IH H) as [m [Hm Hn]]. exists m. auto.
Qed.

Lemma all_defined_ext t t' l :
  (forall m, In m l -> lookup t m = lookup t' m) -> all_defined t l = all_defined t' l.
Proof.
  unfold all_defined, defined. induction l as [|x l IH]; cbn; intros H; [reflexivity|].
  rewrite (H x (or_introl eq_refl)), IH; auto.
Qed.

Lemma lookup_all_agree t t' l :
  (forall a, In a l -> lookup t a = lookup t' a) -> lookup_all t l = lookup_all t' l.
Proof.
  induction l as [|x l IH]; cbn; intros H; auto.
  rewrite (H x (or_introl eq_refl)). f_equal. apply IH. intros a Ha. apply H. now right.
Qed.

Lemma lookup_all_app t a b : lookup_all t (a ++ b) = lookup_all t a ++ lookup_all t b.
Proof. unfold lookup_all. apply flat_map_app. Qed.

Lemma lookup_all_rev t l : lookup_all t (rev l) = rev (lookup_all t l).
Proof.
  induction l as [|x l IH]; cbn [rev]; auto.
  rewrite lookup_all_app, IH. cbn. destruct (lookup t x); cbn; [reflexivity | now rewrite app_nil_r].
Qed.

Lemma In_lookup_all t l c : In c (lookup_all t l) <-> exists a, In a l /\ lookup t a = Some c.
Proof.
  unfold lookup_all. rewrite in_flat_map. split; intros [a [Ha H]]; exists a; split; auto.
  - destruct (lookup t a); [destruct H as [<-|[]]; auto | destruct H].
  - rewrite H. now left.
Qed.

Lemma NoDup_app_snoc {A} (l : list A) n : NoDup l -> ~ In n l -> NoDup (l ++ [n]).
Proof. intros Hd Hn. apply (NoDup_Add (Add_app n l [])). now rewrite app_nil_r. Qed.

Lemma reach_trans t a b c : reach t a b -> reach t b c -> reach t a c.
Proof. intros H1 H2. induction H2; auto. eapply reach_step; eauto. Qed.

Lemma reach_edge t a b : edge t a b -> reach t a b.
Proof. intros H. eapply reach_step; [apply reach_refl | exact H]. Qed.

Lemma reach_left t a b c : edge t a b -> reach t b c -> reach t a c.
Proof. intros H1 H2. eapply reach_trans; [apply reach_edge; exact H1 | exact H2]. Qed.

Lemma reach_inv t a c : reach t a c -> a = c \/ exists b, edge t a b /\ reach t b c.
Proof.
  intros H. induction H as [| b c H IH E].
  - now left.
  - right. destruct IH as [-> | [b' [E' R']]].
    + exists c. split; auto. apply reach_refl.
    + exists b'. split; auto. eapply reach_step; eauto.
Qed.

Lemma edge_fun t a b c : edge t a b -> lookup t a = Some c -> In b (succs c).
Proof. intros [c' [H1 H2]] H. congruence. Qed.

Lemma anc_succ t r s : In s (succs r) -> anc t r s.
Proof. intros Hs. exists s. split; [exact Hs | apply reach_refl]. Qed.

Lemma closed_from_anc t r : closed_from t r <-> forall a, anc t r a -> lookup t a <> None.
Proof.
  split.
  - intros [C1 C2] a [s [Hs R]]. destruct R as [|b a R [c [L I]]]; [now apply C1|].
    apply (C2 b c a); auto. exists s. auto.
  - intros H. split.
    + intros s Hs. apply H, anc_succ, Hs.
    + intros a c m [s [Hs R]] Hc Hm. apply H. exists s. split; auto. eapply reach_step; eauto. exists c. auto.
Qed.

Lemma lin_list_err f l : forall acc e,
  lin_list f acc l = Err e -> exists x acc0, In x l /\ f acc0 x = Err e.
Proof.
  induction l as [|x l IH]; cbn; intros acc e H; try discriminate.
  destruct (f acc x) as [acc1|e1] eqn:E.
  - destruct (IH _ _ H) as [y [acc0 [Hy Ey]]]. exists y, acc0. auto.
  - injection H as <-. exists x, acc. auto.
Qed.

Lemma lin_list_nofuel f l : forall acc,
  (forall acc x, In x l -> f acc x <> Err EFuel) -> lin_list f acc l <> Err EFuel.
Proof. intros acc Hf H. destruct (lin_list_err _ _ _ _ H) as [x [acc0 [Hx Ex]]]. exact (Hf acc0 x Hx Ex). Qed.

Section Lin.
Variable t : table.

(* the invariant of the accumulated list: it makes a result closed under inheritance, with bases before derived
   classes and, given [NoDup], free of classes on a cycle *)
Definition ordered (l : list name) : Prop :=
  forall l1 a l2, l = l1 ++ a :: l2 ->
    exists c, lookup t a = Some c /\ incl (succs c) l1.

Lemma ordered_nil : ordered [].
Proof. intros l1 a l2 H. destruct l1; discriminate. Qed.

Lemma ordered_snoc acc n c :
  ordered acc -> lookup t n = Some c -> incl (succs c) acc -> ordered (acc ++ [n]).
Proof.
  intros Ho Hl Hi l1 a l2 H. destruct l2 as [|m l2' _] using rev_ind.
  - apply app_inj_tail in H. destruct H as [<- <-]. eauto.
  - rewrite app_comm_cons, app_assoc in H. apply app_inj_tail in H. destruct H as [-> _].
    now apply (Ho l1 a l2').
Qed.

Lemma ordered_defined l a : ordered l -> In a l -> exists c, lookup t a = Some c /\ incl (succs c) l.
Proof.
  intros Ho Hi. apply in_split in Hi. destruct Hi as [l1 [l2 ->]].
  destruct (Ho l1 a l2 eq_refl) as [c [Hc Hs]]. exists c. split; [exact Hc | now apply incl_appl].
Qed.

Lemma ordered_prefix l1 l2 : ordered (l1 ++ l2) -> ordered l1.
Proof.
  intros Ho la a lb H. apply (Ho la a (lb ++ l2)). subst l1. now rewrite <- app_assoc.
Qed.

Lemma ordered_closed l a b : ordered l -> In a l -> reach t a b -> In b l.
Proof.
  intros Ho Ha R. induction R as [|b' b R IH E]; auto.
  destruct (ordered_defined l b' Ho IH) as [c [Hc Hs]]. apply Hs. eapply edge_fun; eauto.
Qed.

Lemma ordered_ancestors_before l1 a l2 b b' :
  ordered (l1 ++ a :: l2) -> edge t a b' -> reach t b' b -> In b l1.
Proof.
  intros Ho E R. destruct (Ho l1 a l2 eq_refl) as [c [Hc Hs]].
  apply (ordered_closed l1 b' b); auto.
  - eapply ordered_prefix; eauto.
  - apply Hs. eapply edge_fun; eauto.
Qed.

Lemma ordered_acyclic l a : ordered l -> NoDup l -> In a l -> ~ cyclic_at t a.
Proof.
  intros Ho Hd Ha [b [E R]]. apply in_split in Ha. destruct Ha as [l1 [l2 ->]].
  assert (In a l1) by (eapply ordered_ancestors_before; eauto).
  apply NoDup_remove_2 in Hd. apply Hd. apply in_or_app. now left.
Qed.

(* the contract between [lin_list] and the function it folds: [lin_list_ok] assumes it, [lin_cls_ok] provides it *)
Definition step_ok (f : list name -> name -> res (list name)) : Prop :=
  forall acc x acc', f acc x = Ok acc' ->
    exists new, acc' = acc ++ new /\
      (forall y, In y new -> reach t x y) /\
      In x acc' /\
      (ordered acc -> ordered acc') /\
      (NoDup acc -> NoDup acc').

Lemma lin_list_ok f : step_ok f ->
  forall l acc acc', lin_list f acc l = Ok acc' ->
    exists new, acc' = acc ++ new /\
      (forall y, In y new -> exists x, In x l /\ reach t x y) /\
      incl l acc' /\
      (ordered acc -> ordered acc') /\
      (NoDup acc -> NoDup acc').
Proof.
  intros Hf l. induction l as [|x l IH]; cbn; intros acc acc' H.
  - injection H as <-. exists []. rewrite app_nil_r. repeat split; auto; intros y [].
  - destruct (f acc x) as [acc1|e] eqn:E; try discriminate.
    destruct (Hf _ _ _ E) as [n1 [-> [R1 [I1 [O1 D1]]]]].
    destruct (IH _ _ H) as [n2 [-> [R2 [I2 [O2 D2]]]]].
    exists (n1 ++ n2). rewrite app_assoc. repeat split; auto.
    + intros y Hy. apply in_app_or in Hy. destruct Hy as [Hy|Hy].
      * exists x. split; [now left | auto].
      * destruct (R2 y Hy) as [x' [Hx' Hr]]. exists x'. split; [now right | auto].
    + apply incl_cons; [apply in_or_app; now left | exact I2].
Qed.

(* the invariant of the stack: when [n] is met on it again, this is the cycle that [ECycle] reports *)
Definition chain (stack : list name) (n : name) : Prop :=
  forall s, In s stack -> exists b, edge t s b /\ reach t b n.

(* what an error of the call on [n] says of the graph below [n]; [linearise_err] restates it for the recipe with
   [anc] and [closed_from], the terms of the property theorems *)
Definition err_cause (n : name) (e : err) : Prop :=
  exists a, reach t n a /\
    match e with ECycle => cyclic_at t a | EMissing => lookup t a = None | EFuel => False end.

Lemma err_cause_lift n c x e : lookup t n = Some c -> In x (succs c) -> err_cause x e -> err_cause n e.
Proof.
  intros Hl Hx [a [R P]]. exists a. split; [|exact P]. eapply reach_left; [|exact R]. exists c; auto.
Qed.

Lemma chain_push stack n c x :
  chain stack n -> lookup t n = Some c -> In x (succs c) -> chain (n :: stack) x.
Proof.
  intros Hc Hl Hx s [<-|Hs].
  - exists x. split; [exists c; auto | apply reach_refl].
  - destruct (Hc s Hs) as [b [Eb Rb]]. exists b. split; auto. eapply reach_step; eauto. exists c; auto.
Qed.

(* [EFuel]: the stack holds distinct names of the table, so fuel that ran out was not more than the table has
   names off the stack *)
Definition lin_post (fuel : nat) (stack acc : list name) (n : name) (R : res (list name)) : Prop :=
  match R with
  | Ok acc' => exists new, acc' = acc ++ new /\
      (forall y, In y new -> reach t n y) /\ In n acc' /\
      (ordered acc -> ordered acc') /\ (NoDup acc -> NoDup acc')
  | Err EFuel => NoDup stack -> incl stack (map fst t) -> (fuel + length stack <= length t)%nat
  | Err e => chain stack n -> err_cause n e
  end.

Lemma lin_cls_result fuel : forall stack acc n, lin_post fuel stack acc n (lin_cls t fuel stack acc n).
Proof.
  induction fuel as [|f IH]; intros stack acc n; cbn [lin_cls].
  (* no fuel: EFuel, the stack alone is within the table *)
  { intros Hd Hi. rewrite <- (map_length fst t). now apply NoDup_incl_length. }
  (* [n] on the stack: ECycle, [chain] closes the cycle at [n] *)
  destruct (mem n stack) eqn:M.
  { intros Hc. exists n. split; [apply reach_refl | apply Hc, mem_In, M]. }
  (* [n] undefined: EMissing, at [n] *)
  destruct (lookup t n) as [c|] eqn:Hl.
  2:{ intros _. exists n. split; [apply reach_refl | exact Hl]. }
  (* a successor undefined: EMissing, one edge below [n] *)
  destruct (all_defined t (succs c)) eqn:D.
  2:{ intros _. destruct (all_defined_false _ _ D) as [m [Hm Hn]].
      exists m. split; [apply reach_edge; exists c; auto | exact Hn]. }
  destruct (lin_list (lin_cls t f (n :: stack)) acc (succs c)) as [acc1|e] eqn:E.
  - (* the successors went through: Ok, with [n] already among them or appended *)
    assert (S : step_ok (lin_cls t f (n :: stack))).
    { intros a x a' H. generalize (IH (n :: stack) a x). now rewrite H. }
    destruct (lin_list_ok _ S _ _ _ E) as [n1 [-> [R1 [I1 [O1 D1]]]]].
    assert (Rn : forall y, In y n1 -> reach t n y).
    { intros y Hy. destruct (R1 y Hy) as [x [Hx Hr]]. eapply reach_left; [|exact Hr]. exists c. auto. }
    destruct (mem n (acc ++ n1)) eqn:Mn.
    + exists n1. repeat split; auto. now apply mem_In.
    + exists (n1 ++ [n]). rewrite app_assoc. repeat split; auto.
      * intros y Hy. apply in_app_or in Hy. destruct Hy as [Hy|[<-|[]]]; auto. apply reach_refl.
      * apply in_elt.
      * intros Ho. eapply ordered_snoc; eauto.
      * intros Hd. apply NoDup_app_snoc; auto. now apply mem_nIn.
  - (* a successor [x] failed: its error, one level down with [n] pushed; a cause below [x] is one below [n],
       and the bound for the longer stack is the bound for this one *)
    destruct (lin_list_err _ _ _ _ E) as [x [acc0 [Hx Ex]]].
    generalize (IH (n :: stack) acc0 x). rewrite Ex.
    assert (L : forall e', (chain (n :: stack) x -> err_cause x e') -> chain stack n -> err_cause n e').
    { intros e' B Hc. eapply err_cause_lift; eauto using chain_push. }
    destruct e; cbn [lin_post]; [apply L | apply L |].
    intros B Hd Hi. rewrite Nat.add_succ_comm. apply B.
    + constructor; [now apply mem_nIn | exact Hd].
    + intros y [<-|Hy]; [eapply lookup_In; eauto | auto].
Qed.

Lemma lin_cls_ok fuel : forall stack, step_ok (lin_cls t fuel stack).
Proof. intros stack acc n acc' H. generalize (lin_cls_result fuel stack acc n). now rewrite H. Qed.

Lemma lin_cls_err fuel : forall stack acc n e,
  chain stack n -> lin_cls t fuel stack acc n = Err e -> e = EFuel \/ err_cause n e.
Proof.
  intros stack acc n e Hc H. generalize (lin_cls_result fuel stack acc n). rewrite H.
  destruct e; [right | right | left]; auto.
Qed.

Lemma lin_cls_nofuel fuel : forall stack acc n,
  NoDup stack -> incl stack (map fst t) -> (length t < fuel + length stack)%nat ->
  lin_cls t fuel stack acc n <> Err EFuel.
Proof.
  intros stack acc n Hd Hi Hlen H. generalize (lin_cls_result fuel stack acc n). rewrite H.
  intros B. exact (Nat.lt_irrefl _ (Nat.lt_le_trans _ _ _ Hlen (B Hd Hi))).
Qed.
End Lin.

Lemma linearise_unfold t r l :
  linearise t r = Ok l ->
  all_defined t (succs r) = true /\ lin_list (lin_cls t (lin_fuel t) []) [] (succs r) = Ok l.
Proof. unfold linearise. destruct (all_defined t (succs r)); intros H; [auto | discriminate]. Qed.

Lemma linearise_ok t r l :
  linearise t r = Ok l -> NoDup l /\ ordered t l /\ forall a, In a l <-> anc t r a.
Proof.
  intros H. apply linearise_unfold in H. destruct H as [_ H].
  destruct (lin_list_ok t _ (lin_cls_ok t (lin_fuel t) []) _ _ _ H) as [new [-> [R [I [O D]]]]].
  cbn in *. specialize (O (ordered_nil t)). split; [apply D; constructor|]. split; [exact O|].
  intros a. split; [apply R|]. intros [s [Hs Rs]]. eapply ordered_closed; eauto.
Qed.

Lemma linearise_facts t r l :
  linearise t r = Ok l ->
  NoDup l /\ ordered t l /\ incl (succs r) l /\ (forall y, In y l -> anc t r y).
Proof.
  intros H. destruct (linearise_ok _ _ _ H) as [D [O A]]. repeat split; auto; [|now apply A].
  intros s Hs. apply A, anc_succ, Hs.
Qed.

Lemma linearise_sound_proof t r l a : linearise t r = Ok l -> In a l -> anc t r a.
Proof. intros H. apply (linearise_ok _ _ _ H). Qed.

Lemma linearise_complete_proof t r l a : linearise t r = Ok l -> anc t r a -> In a l.
Proof. intros H. apply (linearise_ok _ _ _ H). Qed.

Lemma linearise_defined_proof t r l a : linearise t r = Ok l -> In a l -> lookup t a <> None.
Proof.
  intros H Ha. destruct (linearise_ok _ _ _ H) as [_ [O _]].
  destruct (ordered_defined t l a O Ha) as [c [Hc _]]. congruence.
Qed.

Lemma linearise_ok_closed t r l : linearise t r = Ok l -> closed_from t r.
Proof.
  intros H. apply closed_from_anc. intros a Ha.
  apply (linearise_defined_proof _ _ _ _ H), (linearise_complete_proof _ _ _ _ H), Ha.
Qed.

Lemma linearise_ok_acyclic t r l a : linearise t r = Ok l -> anc t r a -> ~ cyclic_at t a.
Proof.
  intros H Ha. destruct (linearise_ok _ _ _ H) as [D [O A]].
  eapply ordered_acyclic; eauto. now apply A.
Qed.

Lemma linearise_fuel_proof t r : linearise t r <> Err EFuel.
Proof.
  unfold linearise. destruct (all_defined t (succs r)); try discriminate.
  apply lin_list_nofuel. intros acc x _.
  apply lin_cls_nofuel; [constructor | intros y [] | apply Nat.lt_lt_add_r, Nat.lt_succ_diag_r].
Qed.

Lemma linearise_err t r e :
  linearise t r = Err e ->
  e = EFuel \/
  (e = ECycle /\ exists a, anc t r a /\ cyclic_at t a) \/
  (e = EMissing /\ ~ closed_from t r).
Proof.
  unfold linearise. destruct (all_defined t (succs r)) eqn:D; intros H.
  - destruct (lin_list_err _ _ _ _ H) as [x [acc [Hx Ex]]].
    destruct (lin_cls_err t _ [] _ _ _ (fun s Hs => match Hs with end) Ex) as [-> | [a [R P]]]; [now left | right].
    assert (A : anc t r a) by (exists x; auto).
    destruct e; [left; eauto | right; split; [reflexivity|] | destruct P].
    intros C. exact (proj1 (closed_from_anc t r) C a A P).
  - injection H as <-. right. right. split; [reflexivity|]. intros [C1 _].
    destruct (all_defined_false t _ D) as [m [Hm Hn]]. apply (C1 m Hm Hn).
Qed.

Lemma linearise_result t r :
  match linearise t r with
  | Ok _ => closed_from t r /\ ~ exists a, anc t r a /\ cyclic_at t a
  | Err ECycle => exists a, anc t r a /\ cyclic_at t a
  | Err EMissing => ~ closed_from t r
  | Err EFuel => False
  end.
Proof.
  destruct (linearise t r) as [l|e] eqn:E.
  { split; [eapply linearise_ok_closed; eauto|]. intros [a [Ha C]]. eapply linearise_ok_acyclic; eauto. }
  destruct (linearise_err _ _ _ E) as [-> | [[-> X] | [-> X]]]; [|exact X|exact X].
  exact (linearise_fuel_proof _ _ E).
Qed.

(* [Q] is a case in which the two functions agree whatever the first returns *)
Lemma lin_list_same (Q : Prop) f1 f2 l : forall acc,
  (forall acc x, In x l -> Q \/ f1 acc x <> Err EFuel -> f2 acc x = f1 acc x) ->
  Q \/ lin_list f1 acc l <> Err EFuel -> lin_list f2 acc l = lin_list f1 acc l.
Proof.
  induction l as [|x l IH]; cbn; intros acc Hf Hn; [reflexivity|].
  rewrite Hf; [|now left|].
  - destruct (f1 acc x); [|reflexivity]. apply IH; auto.
  - destruct Hn as [q|Hn]; [now left | right]. intros E. now rewrite E in Hn.
Qed.

Lemma lin_list_stable f1 f2 l : forall acc,
  (forall acc x, In x l -> f1 acc x <> Err EFuel -> f2 acc x = f1 acc x) ->
  lin_list f1 acc l <> Err EFuel -> lin_list f2 acc l = lin_list f1 acc l.
Proof.
  intros acc Hf Hn. apply (lin_list_same False); [|now right]. intros a x Hx [[]|H]. now apply Hf.
Qed.

Lemma lin_list_mono f1 f2 l : forall acc R,
  (forall acc x R, In x l -> f1 acc x = R -> R <> Err EFuel -> f2 acc x = R) ->
  lin_list f1 acc l = R -> R <> Err EFuel -> lin_list f2 acc l = R.
Proof. intros acc R Hf <- Hn. apply lin_list_stable; [|exact Hn]. intros a x Hx Hne. now apply (Hf a x). Qed.

Lemma lin_list_ext f1 f2 l : forall acc,
  (forall acc x, In x l -> f1 acc x = f2 acc x) -> lin_list f1 acc l = lin_list f2 acc l.
Proof. intros acc H. symmetry. apply (lin_list_same True); [|now left]. intros a x Hx _. symmetry. now apply H. Qed.

Lemma lin_cls_same t t' f : forall f' stack acc n,
  (f <= f')%nat -> (forall a, reach t n a -> lookup t a = lookup t' a) ->
  f' = f \/ lin_cls t f stack acc n <> Err EFuel ->
  lin_cls t' f' stack acc n = lin_cls t f stack acc n.
Proof.
  induction f as [|f IH]; intros f' stack acc n Hle Ht Hn.
  { destruct Hn as [-> | Hn]; [reflexivity | now destruct Hn]. }
  destruct f' as [|f']; [destruct (Nat.nle_succ_0 _ Hle)|]. cbn in Hn |- *.
  destruct (mem n stack); [reflexivity|].
  rewrite <- (Ht n (reach_refl t n)). destruct (lookup t n) as [c|] eqn:Hl; [|reflexivity].
  assert (E : forall m, In m (succs c) -> edge t n m) by (intros m Hm; exists c; auto).
  rewrite <- (all_defined_ext t t' (succs c)) by (intros m Hm; apply Ht, reach_edge, E, Hm).
  destruct (all_defined t (succs c)); [|reflexivity].
  rewrite (lin_list_same (f' = f) (lin_cls t f (n :: stack)) (lin_cls t' f' (n :: stack))); [reflexivity| |].
  - intros a x Hx. apply IH; [now apply le_S_n|]. intros b Hb. apply Ht. eapply reach_left; eauto.
  - destruct Hn as [[= ->] | Hn]; [now left | right]. intros L. now rewrite L in Hn.
Qed.

Lemma lin_cls_stable t t' f : forall f' stack acc n,
  (f <= f')%nat -> (forall a, reach t n a -> lookup t a = lookup t' a) ->
  lin_cls t f stack acc n <> Err EFuel -> lin_cls t' f' stack acc n = lin_cls t f stack acc n.
Proof. intros f' stack acc n Hle Ht Hn. apply lin_cls_same; auto. Qed.

Lemma lin_cls_mono t f : forall f' stack acc n R,
  (f <= f')%nat -> lin_cls t f stack acc n = R -> R <> Err EFuel -> lin_cls t f' stack acc n = R.
Proof. intros f' stack acc n R Hle <- Hn. now apply lin_cls_stable. Qed.

Lemma lin_cls_agree t t' fuel : forall stack acc n,
  (forall a, reach t n a -> lookup t a = lookup t' a) ->
  lin_cls t fuel stack acc n = lin_cls t' fuel stack acc n.
Proof. intros stack acc n H. symmetry. apply lin_cls_same; auto. Qed.

Lemma linearise_agree t t' r :
  (forall a, anc t r a -> lookup t a = lookup t' a) -> linearise t r = linearise t' r.
Proof.
  intros H.
  assert (Hs : forall m, In m (succs r) -> lookup t m = lookup t' m).
  { intros m Hm. apply H, anc_succ, Hm. }
  pose proof (linearise_fuel_proof t r) as F1. pose proof (linearise_fuel_proof t' r) as F2.
  unfold linearise in *. rewrite <- (all_defined_ext t t' (succs r) Hs) in *.
  destruct (all_defined t (succs r)); auto.
  (* both runs agree with the run on [t'] with the larger fuel *)
  set (F := Nat.max (lin_fuel t) (lin_fuel t')).
  transitivity (lin_list (lin_cls t' F []) [] (succs r)).
  - symmetry. apply lin_list_stable; [|exact F1]. intros acc x Hx. apply lin_cls_stable; [apply Nat.le_max_l|].
    intros a Ha. apply H. exists x. auto.
  - apply lin_list_stable; [|exact F2]. intros acc x Hx. apply lin_cls_stable; [apply Nat.le_max_r|auto].
Qed.

Lemma nth_zipd {A} (f : A -> A -> A) (d : A) : f d d = d ->
  forall a b i, nth i (zipd f d a b) d = f (nth i a d) (nth i b d).
Proof.
  intros Hd a. induction a as [|x a IH]; intros b i.
  - cbn [zipd]. replace (nth i [] d) with d by now destruct i. now rewrite <- (map_nth (f d) b d i), Hd.
  - destruct b as [|y b], i as [|i]; cbn [zipd nth]; auto. rewrite IH. now destruct i.
Qed.

Lemma first_some_cons {A} (o : option A) l : first_some (o :: l) = orelse o (first_some l).
Proof. reflexivity. Qed.

Lemma orelse_assoc {A} (a b c : option A) : orelse (orelse a b) c = orelse a (orelse b c).
Proof. destruct a; reflexivity. Qed.

Lemma first_some_snoc {A} (L : list (option A)) d : orelse (first_some L) d = first_some (L ++ [d]).
Proof.
  induction L as [|o L IH]; cbn [first_some fold_right app].
  - now destruct d.
  - fold (first_some L). fold (first_some (L ++ [d])). rewrite <- IH. apply orelse_assoc.
Qed.

Lemma dict_get_set d k v k' :
  dict_get (dict_set d k v) k' = if str_eqb k k' then Some v else dict_get d k'.
Proof.
  induction d as [|[k0 v0] d IH]; cbn; [reflexivity|].
  destruct (str_eqb k0 k) eqn:E0; cbn.
  - apply str_eqb_eq in E0 as ->. now destruct (str_eqb k k').
  - rewrite IH. destruct (str_eqb k k') eqn:E; [|reflexivity]. apply str_eqb_eq in E as <-. now rewrite E0.
Qed.

Definition dict_wf (d : dict) : Prop := NoDup (map fst d).      (* Python dict: keys are unique *)

Lemma dict_get_None d k : ~ In k (map fst d) -> dict_get d k = None.
Proof.
  induction d as [|[k0 v0] d IH]; cbn; intros H; auto.
  destruct (str_eqb k0 k) eqn:E.
  - apply str_eqb_eq in E. exfalso. apply H. now left.
  - apply IH. intros I. apply H. now right.
Qed.

Lemma dict_get_app (d d' : dict) k : dict_get (d ++ d') k = orelse (dict_get d k) (dict_get d' k).
Proof. induction d as [|[k0 v0] d IH]; cbn; auto. destruct (str_eqb k0 k); auto. Qed.

Lemma dict_get_snoc (l : dict) k1 v1 kk :
  dict_get (l ++ [(k1, v1)]) kk = orelse (dict_get l kk) (if str_eqb k1 kk then Some v1 else None).
Proof. apply dict_get_app. Qed.

Lemma dict_get_rev d k : dict_wf d -> dict_get (rev d) k = dict_get d k.
Proof.
  unfold dict_wf. induction d as [|[k0 v0] d IH]; cbn [rev map fst]; intros H; auto.
  apply NoDup_cons_iff in H as [N H]. rewrite dict_get_snoc, IH by exact H. cbn [dict_get].
  destruct (str_eqb k0 k) eqn:E.
  - apply str_eqb_eq in E. subst k0. now rewrite dict_get_None.
  - destruct (dict_get d k); reflexivity.
Qed.

Lemma in_keys_set d k v x : In x (map fst (dict_set d k v)) -> In x (map fst d) \/ x = k.
Proof.
  induction d as [|[k0 v0] d IH]; cbn.
  - intros [<-|[]]. now right.
  - destruct (str_eqb k0 k); cbn.
    + intros [<-|H]; auto.
    + intros [<-|H]; auto. destruct (IH H); auto.
Qed.

Lemma dict_set_wf d k v : dict_wf d -> dict_wf (dict_set d k v).
Proof.
  unfold dict_wf. induction d as [|[k0 v0] d IH]; cbn; intros H.
  - constructor; [intros []|constructor].
  - apply NoDup_cons_iff in H as [N H]. destruct (str_eqb k0 k) eqn:E; cbn.
    + constructor; auto.
    + constructor; auto. intros I. apply in_keys_set in I. destruct I as [I| ->]; auto.
      rewrite str_eqb_refl in E. discriminate.
Qed.

Lemma dict_update_wf upd : forall base, dict_wf base -> dict_wf (dict_update base upd).
Proof.
  unfold dict_update. induction upd as [|[k v] u IH]; cbn; intros base H; auto.
  apply IH. now apply dict_set_wf.
Qed.

Lemma dict_get_update upd base k : dict_wf upd ->
  dict_get (dict_update base upd) k = orelse (dict_get upd k) (dict_get base k).
Proof.
  (* [fold_left] sets the entries front to back, so the last entry of a key wins: the first of [rev upd];
     with unique keys [rev] does not show *)
  intros W. rewrite <- (dict_get_rev upd k W). clear W. unfold dict_update. revert base.
  induction upd as [|[k0 v0] u IH]; intros base; cbn [fold_left rev]; auto.
  rewrite IH. cbn [fst snd]. rewrite dict_get_set, dict_get_snoc, orelse_assoc.
  destruct (str_eqb k0 k); reflexivity.
Qed.

Definition dicts_wf (m : mstate) : Prop := forall i, dict_wf (nth i (m_dicts m) []).

Lemma merge_step_wf s c : dicts_wf c -> dicts_wf (merge_step s c).
Proof.
  intros Hc i. cbn [merge_step m_dicts]. rewrite (nth_zipd dict_update []) by reflexivity.
  apply dict_update_wf. apply Hc.
Qed.

Definition cls_wf (c : cls) : Prop := forall i, dict_wf (nth i (c_dicts c) []).

Lemma m_init_dicts_wf c : cls_wf c -> dicts_wf (m_init c).
Proof. intros H i. apply H. Qed.

Lemma str_ltb_false_eq x y : str_ltb x y = false -> str_ltb y x = false -> x = y.
Proof. intros H1 H2. destruct (str_ltb_total x y) as [H | [H | H]]; congruence. Qed.

Lemma In_set_insert x l z : In z (set_insert x l) <-> z = x \/ In z l.
Proof.
  induction l as [|y l IH]; cbn [set_insert]; [split; intros [<-|[]]; now left|].
  destruct (str_ltb_total x y) as [T|[<-|T]].
  - rewrite T. split; intros [<-|H]; cbn; auto.
  - rewrite str_ltb_irrefl. split; [intros [<-|H] | intros [->|[<-|H]]]; cbn; auto.
  - rewrite (str_ltb_asym _ _ T), T. cbn [In]. rewrite IH. split; intros [H|[H|H]]; auto.
Qed.

Lemma In_set_norm l z : In z (set_norm l) <-> In z l.
Proof. induction l as [|x l IH]; cbn; [reflexivity|]. rewrite In_set_insert, IH. intuition auto. Qed.

Lemma nth_map_set_norm i l : nth i (map set_norm l) [] = set_norm (nth i l []).
Proof. change (@nil str) with (set_norm []) at 1. apply map_nth. Qed.

Definition lt_s (a b : str) : Prop := str_ltb a b = true.
Definition sset (l : list str) : Prop := Sorted.StronglySorted lt_s l.

Lemma set_insert_sorted x l : sset l -> sset (set_insert x l).
Proof.
  unfold sset. induction 1 as [|y l Hs IH Hf]; cbn; [repeat constructor|].
  destruct (str_ltb x y) eqn:E1.
  - constructor; [now constructor|]. constructor; [exact E1|].
    eapply Forall_impl; [|exact Hf]. intros a Ha. eapply str_ltb_trans; eauto.
  - destruct (str_ltb y x) eqn:E2; [|now constructor].
    constructor; [exact IH|]. rewrite Forall_forall in *. intros z [->|Hz]%In_set_insert; auto.
Qed.

Lemma set_norm_sorted l : sset (set_norm l).
Proof. induction l; cbn; [constructor | now apply set_insert_sorted]. Qed.

Lemma sset_ext a : forall b, sset a -> sset b -> (forall x, In x a <-> In x b) -> a = b.
Proof. apply ListFacts.sorted_ext. exact (lt_k_asym (fun x => x)). Qed.

Fixpoint concat_map {A B} (f : A -> list B) (l : list A) : list B :=
  match l with [] => [] | x :: r => f x ++ concat_map f r end.

Lemma concat_map_flat_map {A B} (f : A -> list B) l : concat_map f l = flat_map f l.
Proof. induction l; cbn; congruence. Qed.

Lemma In_concat_map {A B} (f : A -> list B) l y : In y (concat_map f l) <-> exists x, In x l /\ In y (f x).
Proof. rewrite concat_map_flat_map. apply in_flat_map. Qed.

Lemma concat_map_map {A B C} (g : A -> B) (f : B -> list C) l : concat_map f (map g l) = concat_map (fun x => f (g x)) l.
Proof. rewrite !concat_map_flat_map. apply flat_map_map. Qed.

Lemma concat_map_snoc {A B} (f : A -> list B) l x : concat_map f (l ++ [x]) = concat_map f l ++ f x.
Proof. rewrite !concat_map_flat_map, flat_map_app. cbn. now rewrite app_nil_r. Qed.

(* [p] reads a field (or one position of it); [ms] is in loop order, most derived class first *)
Section Fold.
Context {X : Type}.

Lemma fold_append (p : mstate -> list X) :
  (forall s c, p (merge_step s c) = p s ++ p c) ->
  forall ms s, p (fold_left merge_step ms s) = p s ++ concat_map p ms.
Proof.
  intros Hp ms. induction ms as [|c ms IH]; intros s; cbn [fold_left concat_map]; [now rewrite app_nil_r|].
  now rewrite IH, Hp, app_assoc.
Qed.

Lemma fold_prepend (p : mstate -> list X) :
  (forall s c, p (merge_step s c) = p c ++ p s) ->
  forall ms s, p (fold_left merge_step ms s) = concat_map p (rev ms) ++ p s.
Proof.
  intros Hp ms. induction ms as [|c ms IH]; intros s; cbn [fold_left rev]; [reflexivity|].
  now rewrite IH, Hp, concat_map_snoc, <- app_assoc.
Qed.

(* [Inv] is what the step equation of [p] needs of the object being updated; the result has it from the
   class merged in *)
Lemma fold_first (Inv : mstate -> Prop) (p : mstate -> option X) :
  (forall s c, Inv c -> Inv (merge_step s c)) ->
  (forall s c, Inv s -> p (merge_step s c) = orelse (p s) (p c)) ->
  forall ms s, Inv s -> Forall Inv ms ->
    p (fold_left merge_step ms s) = first_some (p s :: map p ms).
Proof.
  intros Hi Hp ms s Ws Wm. revert s Ws. induction Wm as [|c ms Wc _ IH]; intros s Ws; cbn [fold_left map].
  - cbn. now destruct (p s).
  - rewrite IH, Hp, !first_some_cons; auto using orelse_assoc.
Qed.
End Fold.

Lemma fold_sources ms : forall s,
  m_sources (fold_left merge_step ms s) = m_sources s ++ concat_map m_sources ms.
Proof. now apply fold_append. Qed.

Lemma fold_deps ms : forall s,
  m_deps (fold_left merge_step ms s) = concat_map m_deps (rev ms) ++ m_deps s.
Proof. now apply fold_prepend. Qed.

Lemma fold_varSelf ms : forall s,
  m_varSelf (fold_left merge_step ms s) = concat_map m_varSelf (rev ms) ++ m_varSelf s.
Proof. now apply fold_prepend. Qed.

Lemma fold_varPrivate ms : forall s,
  m_varPrivate (fold_left merge_step ms s) = concat_map m_varPrivate (rev ms) ++ m_varPrivate s.
Proof. now apply fold_prepend. Qed.

Lemma fold_tools ms i : forall s,
  nth i (m_tools (fold_left merge_step ms s)) [] =
  nth i (m_tools s) [] ++ concat_map (fun m => nth i (m_tools m) []) ms.
Proof. apply (fold_append (fun m => nth i (m_tools m) [])). intros s c. now apply nth_zipd. Qed.

Lemma fold_sets ms i : forall s,
  nth i (m_sets (fold_left merge_step ms s)) [] =
  nth i (m_sets s) [] ++ concat_map (fun m => nth i (m_sets m) []) ms.
Proof. apply (fold_append (fun m => nth i (m_sets m) [])). intros s c. now apply nth_zipd. Qed.

Lemma fold_scalars ms i : forall s,
  nth i (m_scalars (fold_left merge_step ms s)) None =
  first_some (nth i (m_scalars s) None :: map (fun m => nth i (m_scalars m) None) ms).
Proof.
  intros s. apply (fold_first (fun _ => True) (fun m => nth i (m_scalars m) None)); auto.
  - intros s' c _. now apply nth_zipd.
  - now apply Forall_forall.
Qed.

Lemma fold_dicts ms i k : forall s, dicts_wf s -> Forall dicts_wf ms ->
  dict_get (nth i (m_dicts (fold_left merge_step ms s)) []) k =
  first_some (dict_get (nth i (m_dicts s) []) k :: map (fun m => dict_get (nth i (m_dicts m) []) k) ms).
Proof.
  apply (fold_first dicts_wf (fun m => dict_get (nth i (m_dicts m) []) k)); auto using merge_step_wf.
  intros s' c W. cbn [merge_step m_dicts]. rewrite (nth_zipd dict_update []) by reflexivity. apply dict_get_update, W.
Qed.

Definition classes_of (t : table) (x : resolved) : list cls := lookup_all t (rs_order x).

Lemma resolve_inv t glue r x :
  resolve t glue r = Ok x ->
  exists l, linearise t r = Ok l /\ rs_order x = l /\
            x = assemble glue l (lookup_all t l) r (merge_all (lookup_all t l) r).
Proof. unfold resolve. destruct (linearise t r) as [l|e]; intros [= <-]. now exists l. Qed.

Lemma resolve_rs_m t glue r x : resolve t glue r = Ok x -> rs_m x = finish (merge_all (classes_of t x) r).
Proof. intros H. now destruct (resolve_inv _ _ _ _ H) as [l [_ [_ ->]]]. Qed.

Lemma resolve_sets t glue r x i :
  resolve t glue r = Ok x ->
  nth i (m_sets (rs_m x)) [] =
  set_norm (nth i (c_sets r) [] ++ concat_map (fun c => nth i (c_sets c) []) (rev (classes_of t x))).
Proof.
  intros H. rewrite (resolve_rs_m _ _ _ _ H). unfold merge_all. cbn [finish m_sets].
  now rewrite nth_map_set_norm, fold_sets, concat_map_map.
Qed.

Lemma oid_eqb_eq a b : oid_eqb a b = true <-> a = b.
Proof. destruct a, b; cbn; rewrite ?str_eqb_eq; split; congruence. Qed.

Lemma oid_dec (a b : oid) : a = b \/ a <> b.
Proof. rewrite <- oid_eqb_eq. destruct (oid_eqb a b); [now left | now right]. Qed.

Lemma hget_hset_same h o m : hget (hset h o m) o = m.
Proof.
  induction h as [|[k m'] h IH]; cbn.
  - assert (oid_eqb o o = true) as -> by now apply oid_eqb_eq. reflexivity.
  - destruct (oid_eqb k o) eqn:E; cbn; rewrite E; auto.
Qed.

Lemma hget_hset_other h o m o' : o <> o' -> hget (hset h o m) o' = hget h o'.
Proof.
  intros N. assert (F : oid_eqb o o' = false) by (apply not_true_iff_false; now rewrite oid_eqb_eq).
  induction h as [|[k m'] h IH]; cbn.
  - now rewrite F.
  - destruct (oid_eqb k o) eqn:E; cbn.
    + apply oid_eqb_eq in E. subst k. now rewrite F.
    + now rewrite IH.
Qed.

Definition inplace_step (self : oid) (h : heap) (n : name) : heap :=
  hset h self (merge_step (hget h self) (hget h (OC n))).

Lemma merge_inplace_unfold h self order :
  merge_inplace h self order = fold_left (inplace_step self) (rev order) h.
Proof. reflexivity. Qed.

Lemma inplace_fold self ns : (forall n, self <> OC n) -> forall h,
  hget (fold_left (inplace_step self) ns h) self
    = fold_left merge_step (map (fun n => hget h (OC n)) ns) (hget h self) /\
  (forall o, o <> self -> hget (fold_left (inplace_step self) ns h) o = hget h o).
Proof.
  intros Hs. induction ns as [|n ns IH]; intros h; cbn [fold_left map]; auto.
  destruct (IH (inplace_step self h n)) as [I1 I2]. split.
  - rewrite I1. unfold inplace_step at 2. rewrite hget_hset_same. f_equal.
    apply map_ext. intros m. unfold inplace_step. apply hget_hset_other. apply Hs.
  - intros o Ho. rewrite I2 by auto. unfold inplace_step. apply hget_hset_other. auto.
Qed.

Definition heap_init (t : table) (h : heap) : Prop :=
  forall n c, lookup t n = Some c -> hget h (OC n) = m_init c.

Lemma heap_init_frame t h h' : heap_init t h -> (forall n, hget h' (OC n) = hget h (OC n)) -> heap_init t h'.
Proof. intros Hi F n c Hc. rewrite F. now apply Hi. Qed.

Lemma heap_of_init t rs : heap_init t (heap_of t rs).
Proof.
  intros n c. unfold heap_of. induction t as [|[k c'] t IH]; cbn; intros H; try discriminate.
  destruct (str_eqb k n); [congruence | auto].
Qed.

Lemma heap_of_recipe t rs n r : lookup rs n = Some r -> hget (heap_of t rs) (OR n) = m_init r.
Proof.
  unfold heap_of. induction t as [|[k c'] t IH]; cbn; auto.
  induction rs as [|[k r'] rs IH]; cbn; intros H; try discriminate.
  destruct (str_eqb k n); [congruence | auto].
Qed.

Lemma map_hget_classes t h l :
  heap_init t h -> (forall a, In a l -> lookup t a <> None) ->
  map (fun n => hget h (OC n)) l = map m_init (lookup_all t l).
Proof.
  intros Hi. induction l as [|x l IH]; cbn; intros D; auto.
  destruct (lookup t x) as [c|] eqn:E.
  - cbn. rewrite (Hi x c E). f_equal. apply IH. intros a Ha. apply D. now right.
  - exfalso. apply (D x); auto.
Qed.

Lemma merge_inplace_spec t h rn r l :
  heap_init t h -> hget h (OR rn) = m_init r -> linearise t r = Ok l ->
  hget (merge_inplace h (OR rn) l) (OR rn) = merge_all (lookup_all t l) r /\
  (forall o, o <> OR rn -> hget (merge_inplace h (OR rn) l) o = hget h o).
Proof.
  intros Hi Hr Hl. rewrite merge_inplace_unfold.
  destruct (inplace_fold (OR rn) (rev l) (fun n => ltac:(discriminate)) h) as [I1 I2]. split; auto.
  rewrite I1, Hr. unfold merge_all. f_equal.
  rewrite (map_hget_classes t h (rev l) Hi).
  - now rewrite lookup_all_rev.
  - intros a Ha. apply in_rev in Ha. eapply linearise_defined_proof; eauto.
Qed.

Lemma res_map_fst_Ok {A B} (x : res (A * B)) a : res_map fst x = Ok a -> exists b, x = Ok (a, b).
Proof. destruct x as [[a' b]|e]; cbn; intros [= ->]. now exists b. Qed.
