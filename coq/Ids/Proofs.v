(* Ids — proofs about the Variant-Id / Build-Id encodings (Ids/Model.v).  The recipe part is injective on [core]
   because it can be decoded: every piece of the encoding has a parser with its round trip; conversely it is a
   function of [core].  An id is two hashed halves. *)
From Coq Require Import List NArith ZArith Bool Lia ZifyBool ZifyN Permutation Sorted.
Require BobV.Common.ListFacts.
Require Import BobV.Ids.Model.
Import ListNotations.
Open Scope N_scope.

(* one more base-[b] digit on top of the part of [n] below [k] *)
Lemma mod_digit n k b m : 0 < k -> 0 < b -> m = k * b -> n mod k + k * ((n / k) mod b) = n mod m.
Proof. intros Hk Hb ->. symmetry. apply N.mod_mul_r; now apply N.neq_0_lt_0. Qed.

Lemma div_mod_l n k : n / k * k + n mod k = n.
Proof. rewrite N.mul_comm. symmetry. apply N.div_mod'. Qed.

(* the same with the high digits first: one more base-[b] digit below the part of [n] from [m] on *)
Lemma div_digit n k b m : 0 < k -> 0 < b -> m = k * b -> n / m * m + (n / k) mod b * k = n / k * k.
Proof.
  intros Hk Hb ->. rewrite <- N.div_div by now apply N.neq_0_lt_0.
  now rewrite (N.mul_comm k b), N.mul_assoc, <- N.mul_add_distr_r, div_mod_l.
Qed.

Lemma add_sub_l a b : a + b - a = b.
Proof. now apply N.add_sub_eq_l. Qed.

Definition de32 (l : bytes) : option (N * bytes) :=
  match l with
  | a :: b :: c :: d :: r => Some (a + 256 * b + 65536 * c + 16777216 * d, r)
  | _ => None
  end.

Lemma de32_le32 n r : n < 4294967296 -> de32 (le32 n ++ r) = Some (n, r).
Proof.
  intros Hn. unfold le32, de32. cbn [app].
  rewrite (mod_digit n 256 256 65536), (mod_digit n 65536 256 16777216),
    (mod_digit n 16777216 256 4294967296) by reflexivity.
  now rewrite N.mod_small.
Qed.

Lemma le32_length n : length (le32 n) = 4%nat.
Proof. reflexivity. Qed.

Definition u8_decode (l : bytes) : option (N * bytes) :=
  match l with
  | [] => None
  | b1 :: r =>
    if b1 <? 128 then Some (b1, r)
    else if b1 <? 224 then
      match r with b2 :: r' => Some ((b1 - 192) * 64 + (b2 - 128), r') | _ => None end
    else if b1 <? 240 then
      match r with b2 :: b3 :: r' => Some ((b1 - 224) * 4096 + (b2 - 128) * 64 + (b3 - 128), r') | _ => None end
    else
      match r with
      | b2 :: b3 :: b4 :: r' => Some ((b1 - 240) * 262144 + (b2 - 128) * 4096 + (b3 - 128) * 64 + (b4 - 128), r')
      | _ => None
      end
  end.

Lemma u8_decode_2 q d r : q < 32 -> u8_decode (192 + q :: 128 + d :: r) = Some (q * 64 + d, r).
Proof.
  intros Q. cbn [u8_decode].
  replace (192 + q <? 128) with false by lia. replace (192 + q <? 224) with true by lia.
  now rewrite !add_sub_l.
Qed.

Lemma u8_decode_3 q d1 d0 r :
  q < 16 -> u8_decode (224 + q :: 128 + d1 :: 128 + d0 :: r) = Some (q * 4096 + d1 * 64 + d0, r).
Proof.
  intros Q. cbn [u8_decode].
  replace (224 + q <? 128) with false by lia. replace (224 + q <? 224) with false by lia.
  replace (224 + q <? 240) with true by lia.
  now rewrite !add_sub_l.
Qed.

Lemma u8_decode_4 q d2 d1 d0 r :
  u8_decode (240 + q :: 128 + d2 :: 128 + d1 :: 128 + d0 :: r) = Some (q * 262144 + d2 * 4096 + d1 * 64 + d0, r).
Proof.
  cbn [u8_decode].
  replace (240 + q <? 128) with false by lia. replace (240 + q <? 224) with false by lia.
  replace (240 + q <? 240) with false by lia.
  now rewrite !add_sub_l.
Qed.

(* holds of every [c]: the four-byte form of the model takes whatever is above 65535 *)
Lemma u8_roundtrip c r : u8_decode (u8 c ++ r) = Some (c, r).
Proof.
  unfold u8.
  destruct (c <? 128) eqn:E1; [|destruct (c <? 2048) eqn:E2; [|destruct (c <? 65536) eqn:E3]]; cbn [app].
  - cbn [u8_decode]. now rewrite E1.
  - rewrite u8_decode_2 by (apply N.div_lt_upper_bound; [discriminate | now apply N.ltb_lt]).
    now rewrite div_mod_l.
  - rewrite u8_decode_3 by (apply N.div_lt_upper_bound; [discriminate | now apply N.ltb_lt]).
    rewrite (div_digit c 64 64 4096) by reflexivity. now rewrite div_mod_l.
  - rewrite u8_decode_4, (div_digit c 4096 64 262144), (div_digit c 64 64 4096) by reflexivity.
    now rewrite div_mod_l.
Qed.

Fixpoint decode_n (n : nat) (l : bytes) : option (str * bytes) :=
  match n with
  | O => Some ([], l)
  | S n' =>
    match u8_decode l with
    | None => None
    | Some (c, r) =>
      match decode_n n' r with
      | None => None
      | Some (s, r') => Some (c :: s, r')
      end
    end
  end.

Lemma decode_n_utf8 s r : decode_n (length s) (utf8 s ++ r) = Some (s, r).
Proof.
  induction s as [|c s IH]; [reflexivity|].
  cbn [length decode_n utf8 flat_map]. rewrite <- app_assoc, u8_roundtrip.
  unfold utf8 in IH. now rewrite IH.
Qed.

Lemma utf8_app a b : utf8 (a ++ b) = utf8 a ++ utf8 b.
Proof. apply flat_map_app. Qed.

Definition valid_cp (c : N) : Prop := c < 1114112.
Definition valid_str (s : str) : Prop := Forall valid_cp s.
(* 2^32: every count and length of the encoding is written by struct.pack("<I", …) *)
Definition small (n : N) : Prop := n < 4294967296.
Definition wf_str (s : str) : Prop := valid_str s /\ small (slen s).

Definition obind {A B} (o : option (A * bytes)) (f : A -> bytes -> option B) : option B :=
  match o with Some (a, r) => f a r | None => None end.

Definition p_lstr (l : bytes) : option (str * bytes) :=
  obind (de32 l) (fun n r => decode_n (N.to_nat n) r).

Lemma p_lstr_rt s r : wf_str s -> p_lstr (enc_lstr s ++ r) = Some (s, r).
Proof.
  intros [_ Hs]. unfold p_lstr, enc_lstr. rewrite <- app_assoc, de32_le32 by exact Hs.
  cbn [obind]. unfold slen. rewrite Nat2N.id. apply decode_n_utf8.
Qed.

Definition p_take (n : nat) (l : bytes) : option (bytes * bytes) :=
  if Nat.leb n (length l) then Some (firstn n l, skipn n l) else None.

Lemma p_take_rt x r : p_take (length x) (x ++ r) = Some (x, r).
Proof.
  unfold p_take. rewrite app_length, (proj2 (Nat.leb_le _ _) (Nat.le_add_r _ _)).
  rewrite firstn_app, skipn_app, Nat.sub_diag, firstn_all, skipn_all. cbn. now rewrite app_nil_r.
Qed.

Lemma p_take_len n x r : length x = n -> p_take n (x ++ r) = Some (x, r).
Proof. intros <-. apply p_take_rt. Qed.

Lemma firstn20_length (v : bytes) : (20 <= length v)%nat -> length (firstn 20 v) = 20%nat.
Proof. apply firstn_length_le. Qed.

Lemma p_take20_rt v r : (20 <= length v)%nat -> p_take 20 (firstn 20 v ++ r) = Some (firstn 20 v, r).
Proof. intros H. now apply p_take_len, firstn20_length. Qed.

Lemma map_firstn20_id (l : list bytes) : Forall (fun a => length a = 20%nat) l -> map (firstn 20) l = l.
Proof. induction 1 as [|x l Hx _ IH]; cbn [map]; [reflexivity|]. now rewrite IH, <- Hx, firstn_all. Qed.

Lemma map_firstn20_exact (l1 l2 : list bytes) :
  Forall (fun a => length a = 20%nat) l1 -> Forall (fun a => length a = 20%nat) l2 ->
  map (firstn 20) l1 = map (firstn 20) l2 -> l1 = l2.
Proof. intros F1 F2. now rewrite !map_firstn20_id. Qed.

Fixpoint p_many {A} (p : bytes -> option (A * bytes)) (n : nat) (l : bytes) : option (list A * bytes) :=
  match n with
  | O => Some ([], l)
  | S n' => obind (p l) (fun x r => obind (p_many p n' r) (fun xs r' => Some (x :: xs, r')))
  end.

Lemma p_many_rt {A B} (enc : A -> bytes) (f : A -> B) (p : bytes -> option (B * bytes)) (wf : A -> Prop) :
  (forall x r, wf x -> p (enc x ++ r) = Some (f x, r)) ->
  forall xs r, Forall wf xs -> p_many p (length xs) (flat_map enc xs ++ r) = Some (map f xs, r).
Proof.
  intros Hp xs r Hxs. induction Hxs as [|x xs Hx Hxs IH]; [reflexivity|].
  cbn [length flat_map p_many map]. rewrite <- app_assoc, Hp by exact Hx.
  cbn [obind]. now rewrite IH.
Qed.

(* [n] apart from [xs]: the encoders write the count of the unsorted list before the sorted one *)
Lemma p_counted_rt {A B C} (enc : A -> bytes) (f : A -> B) (p : bytes -> option (B * bytes)) (wf : A -> Prop)
      (k : list B -> bytes -> option C) :
  (forall x r, wf x -> p (enc x ++ r) = Some (f x, r)) ->
  forall n xs r, small n -> Forall wf xs -> n = llen xs ->
  obind (de32 (le32 n ++ flat_map enc xs ++ r)) (fun c r1 => obind (p_many p (N.to_nat c) r1) k) = k (map f xs) r.
Proof.
  intros Hp n xs r Hn Hxs ->. rewrite de32_le32 by exact Hn. cbn [obind]. unfold llen.
  now rewrite Nat2N.id, (p_many_rt enc f p wf Hp xs r Hxs).
Qed.

Definition wf_tool (t : tool) : Prop :=
  (20 <= length (t_vid t))%nat /\ wf_str (t_path t) /\ Forall wf_str (t_libs t) /\ small (llen (t_libs t)).

Definition p_tool (l : bytes) : option ((bytes * str * list str) * bytes) :=
  obind (p_take 20 l) (fun vid r1 =>
  obind (de32 r1) (fun lp r2 =>
  obind (de32 r2) (fun nl r3 =>
  obind (decode_n (N.to_nat lp) r3) (fun path r4 =>
  obind (p_many p_lstr (N.to_nat nl) r4) (fun libs r5 => Some ((vid, path, libs), r5)))))).

Lemma p_tool_rt t r : wf_tool t -> p_tool (enc_tool t ++ r) = Some (norm_tool t, r).
Proof.
  intros (Hv & [_ Hps] & Hl & Hn). unfold p_tool, enc_tool, norm_tool, slen, llen.
  rewrite <- !app_assoc, p_take20_rt by exact Hv. cbn [obind].
  rewrite de32_le32 by exact Hps. cbn [obind].
  rewrite de32_le32 by exact Hn. cbn [obind].
  rewrite !Nat2N.id, decode_n_utf8. cbn [obind].
  rewrite (p_many_rt enc_lstr (fun x => x) p_lstr wf_str p_lstr_rt _ _ Hl).
  cbn [obind]. now rewrite map_id.
Qed.

Definition wf_ent (kv : str * str) : Prop := wf_str (fst kv) /\ wf_str (snd kv).

Definition p_ent (l : bytes) : option ((str * str) * bytes) :=
  obind (de32 l) (fun lk r1 =>
  obind (de32 r1) (fun lv r2 =>
  obind (decode_n (N.to_nat lk) r2) (fun k r3 =>
  obind (decode_n (N.to_nat lv) r3) (fun v r4 => Some ((k, v), r4))))).

Lemma p_ent_rt kv r : wf_ent kv -> p_ent (enc_envent kv ++ r) = Some (kv, r).
Proof.
  destruct kv as [k v]. intros [[_ Hks] [_ Hvs]]. unfold p_ent, enc_envent, slen. cbn [fst snd] in *.
  rewrite <- !app_assoc, de32_le32 by exact Hks. cbn [obind].
  rewrite de32_le32 by exact Hvs. cbn [obind].
  rewrite !Nat2N.id, utf8_app, <- app_assoc, decode_n_utf8. cbn [obind].
  now rewrite decode_n_utf8.
Qed.

Lemma str_ltb_irrefl a : str_ltb a a = false.
Proof. exact (ListFacts.ltb_irrefl a). Qed.

Lemma str_ltb_trans : forall a b d, str_ltb a b = true -> str_ltb b d = true -> str_ltb a d = true.
Proof. exact ListFacts.ltb_trans. Qed.

Lemma str_ltb_total a : forall b, str_ltb a b = true \/ a = b \/ str_ltb b a = true.
Proof. exact (ListFacts.ltb_total a). Qed.

Lemma str_ltb_asym a b : str_ltb a b = true -> str_ltb b a = false.
Proof. exact (ListFacts.ltb_asym a b). Qed.

Lemma insert_by_perm {A} (key : A -> str) x l : Permutation (insert_by key x l) (x :: l).
Proof.
  induction l as [|y l IH]; cbn [insert_by]; [reflexivity|].
  destruct (str_ltb (key y) (key x)); [|reflexivity].
  rewrite IH. apply perm_swap.
Qed.

Lemma sort_by_perm {A} (key : A -> str) l : Permutation (sort_by key l) l.
Proof.
  induction l as [|x l IH]; cbn [sort_by fold_right]; [reflexivity|].
  rewrite insert_by_perm. now constructor.
Qed.

Lemma sort_by_length {A} (key : A -> str) (l : list A) : length (sort_by key l) = length l.
Proof. apply Permutation_length, sort_by_perm. Qed.

Lemma Forall_sort_by {A} (P : A -> Prop) key l : Forall P l -> Forall P (sort_by key l).
Proof. apply Permutation_Forall, Permutation_sym, sort_by_perm. Qed.

Lemma insert_by_map {A B} (f : A -> B) (k : A -> str) (k' : B -> str) :
  (forall z, k' (f z) = k z) ->
  forall x l, map f (insert_by k x l) = insert_by k' (f x) (map f l).
Proof.
  intros Hk x l. induction l as [|y l IH]; cbn [insert_by map]; [reflexivity|].
  rewrite !Hk. destruct (str_ltb (k y) (k x)); cbn [map]; now rewrite ?IH.
Qed.

Lemma sort_by_map {A B} (f : A -> B) (k : A -> str) (k' : B -> str) :
  (forall z, k' (f z) = k z) -> forall l, map f (sort_by k l) = sort_by k' (map f l).
Proof.
  intros Hk l. induction l as [|x l IH]; [reflexivity|].
  cbn [sort_by fold_right map]. fold (sort_by k l). fold (sort_by k' (map f l)).
  rewrite (insert_by_map f k k' Hk). now rewrite IH.
Qed.

Section Sorting.
  Context {A : Type} (key : A -> str).
  Definition le_k (x y : A) : Prop := str_ltb (key y) (key x) = false.
  Definition lt_k (x y : A) : Prop := str_ltb (key x) (key y) = true.

  Lemma lt_k_asym x y : lt_k x y -> lt_k y x -> False.
  Proof. unfold lt_k. intros L1 L2. rewrite (str_ltb_asym _ _ L1) in L2. discriminate. Qed.

  Lemma le_k_trans x y z : le_k x y -> le_k y z -> le_k x z.
  Proof.
    unfold le_k. intros H1 H2. destruct (str_ltb (key z) (key x)) eqn:E; [|reflexivity].
    destruct (str_ltb_total (key y) (key x)) as [T|[T|T]].
    - congruence.
    - rewrite T in H2. congruence.
    - pose proof (str_ltb_trans _ _ _ E T). congruence.
  Qed.

  Lemma insert_by_sorted x l : StronglySorted le_k l -> StronglySorted le_k (insert_by key x l).
  Proof.
    induction 1 as [|y l Hs IH Hy]; cbn [insert_by].
    - constructor; constructor.
    - destruct (str_ltb (key y) (key x)) eqn:E.
      + constructor; [exact IH|].
        eapply Permutation_Forall; [apply Permutation_sym, insert_by_perm|].
        constructor; [|exact Hy]. unfold le_k. now apply str_ltb_asym.
      + constructor; [constructor; assumption|].
        constructor; [exact E|].
        eapply Forall_impl; [|exact Hy]. intros z Hz. eapply le_k_trans; [exact E|exact Hz].
  Qed.

  Lemma sort_by_sorted l : StronglySorted le_k (sort_by key l).
  Proof. induction l; cbn [sort_by fold_right]; [constructor|now apply insert_by_sorted]. Qed.

  Lemma le_k_strict l : StronglySorted le_k l -> NoDup (map key l) -> StronglySorted lt_k l.
  Proof.
    induction 1 as [|x l S IH F]; cbn [map]; intros N; [constructor|].
    apply NoDup_cons_iff in N. destruct N as [Nx N]. constructor; [now apply IH|].
    rewrite Forall_forall in *. intros z Hz.
    destruct (str_ltb_total (key x) (key z)) as [T|[T|T]]; [exact T| |].
    - destruct Nx. rewrite T. now apply in_map.
    - specialize (F z Hz). unfold le_k in F. congruence.
  Qed.

  Lemma sorted_perm_unique l1 : forall l2,
    StronglySorted le_k l1 -> StronglySorted le_k l2 -> Permutation l1 l2 ->
    NoDup (map key l1) -> l1 = l2.
  Proof.
    (* both lists are strictly sorted and have the same elements *)
    intros l2 S1 S2 P N. apply (ListFacts.sorted_ext _ lt_k lt_k_asym).
    - now apply le_k_strict.
    - apply le_k_strict; [exact S2|]. eapply Permutation_NoDup; [|exact N]. now apply Permutation_map.
    - intros x. now rewrite P.
  Qed.

  Lemma sort_by_perm_eq_proof l1 l2 :
    Permutation l1 l2 -> NoDup (map key l1) -> sort_by key l1 = sort_by key l2.
  Proof.
    intros P N. apply sorted_perm_unique; try apply sort_by_sorted.
    - now rewrite !sort_by_perm.
    - eapply Permutation_NoDup; [|exact N]. apply Permutation_map, Permutation_sym, sort_by_perm.
  Qed.
End Sorting.

Definition wf_stepin (s : stepin) : Prop :=
  wf_str (si_script s) /\
  Forall wf_tool (map snd (si_tools s)) /\ small (llen (si_tools s)) /\
  Forall wf_ent (si_env s) /\ small (llen (si_env s)) /\
  Forall (fun a => (20 <= length a)%nat) (si_args s) /\ small (llen (si_args s)).

Definition dec_recipes (l : bytes) :=
  obind (p_take 20 l) (fun _ r0 =>
  obind (p_lstr r0) (fun script r1 =>
  obind (de32 r1) (fun nt r2 =>
  obind (p_many p_tool (N.to_nat nt) r2) (fun tools r3 =>
  obind (de32 r3) (fun ne r4 =>
  obind (p_many p_ent (N.to_nat ne) r4) (fun env r5 =>
  obind (de32 r5) (fun na r6 =>
  obind (p_many (p_take 20) (N.to_nat na) r6) (fun args r7 =>
  match r7 with [] => Some (script, tools, env, args) | _ => None end)))))))).

Lemma enc_script_lstr s : enc_script s = enc_lstr s.
Proof. destruct s; reflexivity. Qed.

Lemma dec_enc_recipes s : wf_stepin s -> dec_recipes (enc_recipes s) = Some (core s).
Proof.
  intros (Hs & Ht & Hnt & He & Hne & Ha & Hna).
  assert (Ht' : Forall wf_tool (sorted_tools s)).
  { unfold sorted_tools. rewrite Forall_map in *. now apply Forall_sort_by. }
  unfold dec_recipes, enc_recipes, core, sorted_env. rewrite enc_script_lstr.
  rewrite (p_take_len 20 zeros20) by reflexivity. cbn [obind].
  rewrite p_lstr_rt by exact Hs. cbn [obind].
  rewrite (p_counted_rt enc_tool norm_tool p_tool wf_tool _ p_tool_rt _ _ _ Hnt Ht')
    by (unfold sorted_tools, llen; now rewrite map_length, sort_by_length).
  rewrite (p_counted_rt enc_envent (fun x => x) p_ent wf_ent _ p_ent_rt _ _ _ Hne (Forall_sort_by _ _ _ He))
    by (unfold llen; now rewrite sort_by_length).
  rewrite map_id, <- (app_nil_r (flat_map (firstn 20) (si_args s))).
  now rewrite (p_counted_rt (firstn 20) (firstn 20) (p_take 20) _ _ p_take20_rt _ _ _ Hna Ha eq_refl).
Qed.

Lemma enc_recipes_injective_proof a b :
  wf_stepin a -> wf_stepin b -> enc_recipes a = enc_recipes b -> core a = core b.
Proof.
  intros Ha Hb E. apply dec_enc_recipes in Ha. apply dec_enc_recipes in Hb.
  rewrite E in Ha. congruence.
Qed.

Definition enc_ntool (t : bytes * str * list str) : bytes :=
  let '(v, p, l) := t in v ++ le32 (slen p) ++ le32 (llen l) ++ utf8 p ++ flat_map enc_lstr l.

Lemma enc_tool_norm t : enc_tool t = enc_ntool (norm_tool t).
Proof. reflexivity. Qed.

Lemma flat_map_map {A B C} (f : A -> B) (g : B -> list C) l : flat_map g (map f l) = flat_map (fun x => g (f x)) l.
Proof. now rewrite !flat_map_concat_map, map_map. Qed.

Lemma flat_map_id (l : list bytes) : flat_map (fun x => x) l = concat l.
Proof. now rewrite flat_map_concat_map, map_id. Qed.

Definition enc_core (c : str * list (bytes * str * list str) * list (str * str) * list bytes) : bytes :=
  let '(script, tools, env, args) := c in
  zeros20 ++ enc_script script
  ++ le32 (llen tools) ++ flat_map enc_ntool tools
  ++ le32 (llen env) ++ flat_map enc_envent env
  ++ le32 (llen args) ++ concat args.

Lemma enc_recipes_core s : enc_recipes s = enc_core (core s).
Proof.
  unfold enc_recipes, enc_core, core, llen, sorted_tools, sorted_env.
  now rewrite !map_length, !sort_by_length, <- flat_map_id, !flat_map_map.
Qed.

Lemma enc_recipes_of_core a b : core a = core b -> enc_recipes a = enc_recipes b.
Proof. intros E. now rewrite !enc_recipes_core, E. Qed.

Lemma variant_id_of_core_proof H a b :
  core a = core b -> enc_host a = enc_host b -> variant_id H a = variant_id H b.
Proof. intros E1 E2. unfold variant_id. now rewrite (enc_recipes_of_core a b E1), E2. Qed.

Definition collision (H : bytes -> bytes) (x y : bytes) : Prop := x <> y /\ H x = H y.

Lemma bytes_eq_dec (x y : bytes) : {x = y} + {x <> y}.
Proof. apply list_eq_dec, N.eq_dec. Qed.

Lemma app_inv_len {A} (a b c d : list A) : length a = length c -> a ++ b = c ++ d -> a = c /\ b = d.
Proof.
  revert c. induction a as [|x a IH]; intros [|y c] Hl E; try discriminate; cbn in *.
  - auto.
  - injection E as -> E. destruct (IH c) as [-> ->]; auto.
Qed.

Section WithHash.
  Variable H : bytes -> bytes.
  (* [tail_of_eq] and [id_halves_eq] alone use it: outside of the section only they take it *)
  Hypothesis Hlen : forall x, length (H x) = 20%nat.

  Lemma hash_eq x y : H x = H y -> x = y \/ collision H x y.
  Proof. intros E. destruct (bytes_eq_dec x y); [left|right; split]; assumption. Qed.

  Definition tail_of (h : bytes) : bytes := match h with [] => [] | _ => H h end.

  Lemma tail_of_eq x y : tail_of x = tail_of y -> x = y \/ collision H x y.
  Proof.
    destruct x as [|a x], y as [|b y]; cbn [tail_of]; intros E.
    - now left.
    - apply (f_equal (@length N)) in E. rewrite Hlen in E. discriminate.
    - apply (f_equal (@length N)) in E. rewrite Hlen in E. discriminate.
    - now apply hash_eq.
  Qed.

  Lemma id_halves_eq x y x' y' :
    H x ++ tail_of y = H x' ++ tail_of y' ->
    (x = x' \/ collision H x x') /\ (y = y' \/ collision H y y').
  Proof.
    intros E. apply app_inv_len in E; [|now rewrite !Hlen].
    split; [apply hash_eq | apply tail_of_eq]; apply E.
  Qed.

  Lemma variant_id_halves s : variant_id H s = H (enc_recipes s) ++ tail_of (enc_host s).
  Proof. unfold variant_id. now destruct (enc_host s). Qed.

  Lemma build_id_halves s : build_id H s = H (bid_recipes s) ++ tail_of (bid_host s).
  Proof. unfold build_id. now destruct (bid_host s). Qed.
End WithHash.

(* the argument with a host part (bytes after the twentieth) is the first in one and the second in the
   other: same [core], same host stream, different [si_args] *)
Definition f5_a : stepin :=
  {| si_fp_sandbox := None; si_script := [120]; si_tools := []; si_env := [];
     si_args := [repeat 1 20 ++ repeat 9 20; repeat 2 20] |}.
Definition f5_b : stepin :=
  {| si_fp_sandbox := None; si_script := [120]; si_tools := []; si_env := [];
     si_args := [repeat 1 20; repeat 2 20 ++ repeat 9 20] |}.

Lemma wf_f5_a : wf_stepin f5_a.
Proof. repeat constructor. Qed.

Lemma wf_f5_b : wf_stepin f5_b.
Proof. repeat constructor. Qed.

Lemma enc_btool_weak n t1 t2 : enc_btool (n, (t1, true)) = enc_btool (n, (t2, true)).
Proof. reflexivity. Qed.

(* what the Build-Id sees of a tool entry, of a weakly used one its name only: [enc_btool] is [enc_rtool] of it *)
Definition relax (nt : str * (tool * bool)) : str * option tool :=
  let '(n, (t, w)) := nt in (n, if w then None else Some t).

Definition enc_rtool (x : str * option tool) : bytes :=
  match snd x with None => utf8 (fst x) | Some t => enc_tool t end.

Lemma enc_btool_rtool x : enc_btool x = enc_rtool (relax x).
Proof. destruct x as [n [t w]]. destruct w; reflexivity. Qed.

Lemma enc_btool_relax x y : relax x = relax y -> enc_btool x = enc_btool y.
Proof. intros E. now rewrite !enc_btool_rtool, E. Qed.

Lemma relax_fst x : fst (relax x) = fst x.
Proof. destruct x as [n [t w]]. reflexivity. Qed.

Lemma flat_map_btool l : flat_map enc_btool l = flat_map enc_rtool (map relax l).
Proof. rewrite flat_map_map. apply flat_map_ext, enc_btool_rtool. Qed.

