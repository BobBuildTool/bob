From Coq Require Import List NArith Bool Permutation.
Require Import BobV.Common.Sha1 BobV.Ids.Model BobV.Ids.Proofs.
Import ListNotations.
Open Scope N_scope.

(* The order in which tools and variables are presented (dict / set iteration
   order, hash seed, parse order) cannot matter. *)
Theorem variant_id_order_independent : forall H a b,
  si_fp_sandbox a = si_fp_sandbox b -> si_script a = si_script b -> si_args a = si_args b ->
  Permutation (si_tools a) (si_tools b) -> NoDup (map fst (si_tools a)) ->
  Permutation (si_env a) (si_env b) -> NoDup (map fst (si_env a)) ->
  variant_id H a = variant_id H b.
Proof.
  intros H a b E1 E2 E3 P1 N1 P2 N2. apply variant_id_of_core_proof.
  - unfold core, sorted_tools, sorted_env.
    now rewrite E2, E3, (sort_by_perm_eq_proof fst _ _ P1 N1), (sort_by_perm_eq_proof fst _ _ P2 N2).
  - unfold enc_host. now rewrite E1, E3.
Qed.

Theorem sorting_is_canonical : forall (A : Type) (key : A -> str) l1 l2,
  Permutation l1 l2 -> NoDup (map key l1) -> sort_by key l1 = sort_by key l2.
Proof. exact @sort_by_perm_eq_proof. Qed.

(* The id is a function of the declared inputs only: the model has no other
   argument (no path, time, counter), and of those inputs only [core] and the
   host stream matter. *)
Theorem variant_id_pure : forall (H : bytes -> bytes) a b,
  core a = core b -> enc_host a = enc_host b -> variant_id H a = variant_id H b.
Proof. exact variant_id_of_core_proof. Qed.

(* The Build-Id ignores which variant (and path, libraries) of a weakly used
   tool is installed: only its name enters. *)
Theorem build_id_relaxes_weak_tools : forall H a b,
  bi_script a = bi_script b -> bi_env a = bi_env b -> bi_args a = bi_args b ->
  bi_platform a = bi_platform b -> bi_fingerprint a = bi_fingerprint b ->
  map relax (bi_tools a) = map relax (bi_tools b) ->
  build_id H a = build_id H b.
Proof.
  intros H a b E1 E2 E3 E4 E5 R.
  assert (L : length (bi_tools a) = length (bi_tools b)) by (rewrite <- !(map_length relax); now f_equal).
  unfold build_id, bid_recipes, bid_host, llen.
  now rewrite !flat_map_btool, !(sort_by_map relax fst fst relax_fst), E1, E2, E3, E4, E5, L, R.
Qed.

Example order_independent_nonvacuous :
  variant_id sha1 {| si_fp_sandbox := None; si_script := [120]; si_tools := [];
                     si_env := [([66], [49]); ([65], [50])]; si_args := [] |}
  = variant_id sha1 {| si_fp_sandbox := None; si_script := [120]; si_tools := [];
                       si_env := [([65], [50]); ([66], [49])]; si_args := [] |}.
Proof.
  apply variant_id_order_independent; try reflexivity.
  - constructor.
  - apply perm_swap.
  - cbn. constructor; [intros [E|[]]; discriminate|]. constructor; [intros []|constructor].
Qed.
