(* C09 — property theorems and non-vacuity examples.  Four theorems are read
   off the invariant [inv] of Proofs.v at the state reached; [artifact_immutable]
   and [crash_leaves_only_temp] follow a fact along the run that comes after
   ([run_ind]).  All theorems quantify over ANY list of jobs [js] (any number of
   package uploaders, cache mirrors, metadata uploaders and readers, any
   build-ids, payloads and chunkings) and ANY schedule [ls] (any interleaving,
   an injected OSError at any operation, a kill of any process at any program
   counter). *)
From Coq Require Import List NArith Bool.
Require Import BobV.C09.Model BobV.C09.Proofs.
Import ListNotations.
Open Scope N_scope.

(* Under the artifact name there is either nothing, or the complete payload of
   one uploader/mirror of that build-id whose packing ended without exception
   and which linked the name itself. *)
Theorem artifact_absent_or_complete : forall js ls b,
  let s := run (init js) ls in
  f_names (s_fs s) (Dest b) = None \/
  exists i p j c, f_names (s_fs s) (Dest b) = Some i /\
     nth_error js p = Some j /\ s_procs s p = Some (j, c) /\
     j_bid j = b /\ is_uploader j = true /\ j_ok j = true /\ published_by c = true /\
     f_data (s_fs s) i = payload j.
Proof.
  intros js ls b s. destruct (f_names (s_fs s) (Dest b)) as [i|] eqn:Hb; [right|now left].
  assert (Hs : inv s) by apply run_inv, inv_init.
  destruct (i_dest s Hs b i Hb) as (p & j & c & Hp & B1 & B2 & B3 & B4 & B5).
  exists i, p, j, c. repeat split; auto. now apply (init_jobs js ls p j c).
Qed.

(* Once present, the name keeps its inode, and the inode its bytes and mode,
   whatever any process does afterwards (package uploads, mirrors, overwriting
   metadata uploads, faults, kills). *)
Theorem artifact_immutable : forall js ls ls' b i,
  let s := run (init js) ls in
  let s' := run s ls' in
  f_names (s_fs s) (Dest b) = Some i ->
  f_names (s_fs s') (Dest b) = Some i /\ f_data (s_fs s') i = f_data (s_fs s) i /\
  f_mode (s_fs s') i = f_mode (s_fs s) i.
Proof. intros js ls ls' b i s s'. apply run_dest_stable, run_inv, inv_init. Qed.

(* If no process of build-id b has linked the name (each one failed, was
   skipped, lost the race, was aborted, is still before its link or was killed
   before it), nothing is under the artifact name. *)
Theorem failed_upload_leaves_nothing : forall js ls b,
  let s := run (init js) ls in
  (forall p j c, s_procs s p = Some (j, c) -> j_bid j = b -> published_by c = false) ->
  f_names (s_fs s) (Dest b) = None.
Proof.
  intros js ls b s H. destruct (f_names (s_fs s) (Dest b)) as [i|] eqn:Hb; [|reflexivity].
  assert (Hs : inv s) by apply run_inv, inv_init.
  destruct (i_dest s Hs b i Hb) as (p & j & c & Hp & B1 & _ & B3 & _).
  rewrite (H p j c Hp B1) in B3. discriminate.
Qed.

(* A process killed anywhere before its link leaves its file under the temporary
   name only: that inode never appears under any artifact name, now or later. *)
Theorem crash_leaves_only_temp : forall js ls p j c t i ls' b,
  let s := run (init js) ls in
  s_procs s p = Some (j, c) -> pre c = true -> held c = Some t ->
  f_names (s_fs s) t = Some i ->
  let s' := run (fst (step s (LKill p))) ls' in
  f_names (s_fs s') (Dest b) <> Some i.
Proof.
  intros js ls p j c t i ls' b s Hp Hpre Ht Hi s'.
  assert (Hs : inv s) by apply run_inv, inv_init.
  apply (orphan_dest s' t i).
  apply (run_ind (fun s => orphan s t i) (sstep_orphan t i)); [now apply step_inv|].
  now apply (kill_orphan s p j c).
Qed.

(* A reader interleaved anywhere: what it has read so far is a prefix of, and
   what it returns at EOF is exactly, the complete payload of one uploader of
   that build-id (otherwise it found nothing). *)
Theorem reader_sees_nothing_or_complete : forall js ls p j c,
  let s := run (init js) ls in
  s_procs s p = Some (j, c) ->
  match c with
  | PDone (RRead d) =>
      exists q jq cq, s_procs s q = Some (jq, cq) /\ j_bid jq = j_bid j /\ is_uploader jq = true /\
                      j_ok jq = true /\ d = payload jq
  | PRead i acc =>
      exists q jq cq, s_procs s q = Some (jq, cq) /\ j_bid jq = j_bid j /\ is_uploader jq = true /\
                      j_ok jq = true /\ acc = firstn (length acc) (payload jq)
  | _ => True
  end.
Proof.
  intros js ls p j c s Hp. assert (Hs : inv s) by apply run_inv, inv_init.
  destruct (i_p s Hs p j c Hp) as (_ & _ & Hpc).
  destruct c; try exact I; [|destruct r; try exact I]; cbn [pinv_pc] in Hpc.
  - destruct Hpc as [Hn Ha].
    destruct (i_dest s Hs _ _ Hn) as (q & jq & cq & Hq & B1 & B2 & _ & B4 & B5).
    exists q, jq, cq. rewrite <- B4. auto 6.
  - destruct Hpc as (i & Hn & <-).
    destruct (i_dest s Hs _ _ Hn) as (q & jq & cq & Hq & B1 & B2 & _ & B4 & B5).
    exists q, jq, cq. auto 6.
Qed.

(* Cache mirroring: a mirror that linked the name had a consumer that finished
   without exception, and the artifact holds the WHOLE source stream, however
   early the consumer stopped reading; an aborted mirror (ok = false) therefore
   never links. *)
Theorem mirror_commit_abort : forall js ls p b src n mode ok c,
  let s := run (init js) ls in
  s_procs s p = Some (mirror_job b src n mode ok, c) ->
  published_by c = true ->
  ok = true /\ exists i, f_names (s_fs s) (Dest b) = Some i /\ f_data (s_fs s) i = concat src.
Proof.
  intros js ls p b src n mode ok c s Hp Pc. assert (Hs : inv s) by apply run_inv, inv_init.
  destruct (i_pub s Hs p _ c Hp Pc eq_refl) as (Ok & i & Hn & Hd). cbn in Ok, Hn. subst ok.
  split; [reflexivity|]. exists i. split; [assumption|]. rewrite Hd. apply tee_forwarded_complete.
Qed.

Definition up (b : N) (ch : list data) (m : option N) : job :=
  {| j_kind := KUpload; j_bid := b; j_chunks := ch; j_mode := m; j_ok := true |}.
Definition rd (b : N) : job :=
  {| j_kind := KRead; j_bid := b; j_chunks := []; j_mode := None; j_ok := true |}.
Definition st_ (p : nat) := LStep p false 0.

(* two uploaders race on build-id 5, a reader opens between link and unlink *)
Definition race_jobs := [up 5 [[1; 2]; [3]] (Some 420); up 5 [[9]] None; rd 5].
Definition race_sched :=
  [st_ 0; st_ 0; st_ 0; LStep 0 false 7; st_ 0; st_ 0; st_ 0; st_ 0;     (* p0 up to just before link *)
   st_ 1; st_ 1; LStep 1 false 8; st_ 1; st_ 1;                           (* p1 up to just before link *)
   st_ 1;                                                                 (* p1 links: wins *)
   st_ 0;                                                                 (* p0 links: EEXIST, lost race *)
   st_ 2; st_ 2;                                                          (* reader opens and reads *)
   st_ 0; st_ 1; st_ 2].

Example race_nonvacuous :
  let s := run (init race_jobs) race_sched in
  file_at s (Dest 5) = Some ([9], 384) /\
  file_at s (Tmp 0 7) = None /\ file_at s (Tmp 0 8) = None /\
  map (pc_of s) [0; 1; 2]%nat = [Some (PDone RLost); Some (PDone ROk); Some (PDone (RRead [9]))] /\
  nth 13 (trace (init race_jobs) race_sched) ONone = OLink (Tmp 0 8) (Dest 5) 0 /\
  nth 14 (trace (init race_jobs) race_sched) ONone = OLink (Tmp 0 7) (Dest 5) 1.
Proof. vm_compute. repeat split. Qed.

(* later uploads, an overwriting metadata upload and a kill do not touch it *)
Example immutable_nonvacuous :
  let s := run (init (race_jobs ++ [up 5 [[4; 4]] (Some 256);
              {| j_kind := KMeta 1; j_bid := 5; j_chunks := [[7]]; j_mode := None; j_ok := true |}]))
               (race_sched ++ [st_ 3; st_ 4; st_ 4; st_ 4; st_ 4; st_ 4; LKill 0]) in
  file_at s (Dest 5) = Some ([9], 384) /\ file_at s (Meta 5 1) = Some ([7], 384) /\
  pc_of s 3 = Some (PDone RSkipped).
Proof. vm_compute. repeat split. Qed.

(* exception while packing (second write fails): temporary file removed, nothing published *)
Example failed_upload_nonvacuous :
  let js := [up 5 [[1]; [2]; [3]] None] in
  let ls := [st_ 0; st_ 0; st_ 0; LStep 0 false 3; st_ 0; LStep 0 true 0; st_ 0; st_ 0; st_ 0] in
  let s := run (init js) ls in
  file_at s (Dest 5) = None /\ file_at s (Tmp 0 3) = None /\ pc_of s 0 = Some (PDone RFail) /\
  trace (init js) ls = [OIsFile (Dest 5) false; OIsDir 0 false; OMkdirs 0 true; OMkTemp (Tmp 0 3) true;
                        OWrite (Tmp 0 3) 1 true; OWrite (Tmp 0 3) 1 false; OWrite (Tmp 0 3) 1 true;
                        OClose (Tmp 0 3) true; OUnlink (Tmp 0 3) true].
Proof. vm_compute. repeat split. Qed.

(* kill after the first write: a partial temporary file stays, nothing under the name,
   and a later uploader publishes its own complete payload *)
Example crash_nonvacuous :
  let js := [up 5 [[1]; [2]] None; up 5 [[8; 8]] None] in
  let ls := [st_ 0; st_ 0; st_ 0; LStep 0 false 3; st_ 0; LKill 0;
             st_ 1; st_ 1; LStep 1 false 3; LStep 1 false 4; st_ 1; st_ 1; st_ 1; st_ 1] in
  let s := run (init js) ls in
  file_at s (Tmp 0 3) = Some ([1], 384) /\ file_at s (Dest 5) = Some ([8; 8], 384) /\
  map (pc_of s) [0; 1]%nat = [Some (PDead false); Some (PDone ROk)].
Proof. vm_compute. repeat split. Qed.

(* mirror: consumer stopped after 1 of 3 source reads; commit publishes all three, abort nothing *)
Example mirror_nonvacuous :
  let ls := [st_ 0; st_ 0; st_ 0; LStep 0 false 1; st_ 0; st_ 0; st_ 0; st_ 0; st_ 0; st_ 0] in
  let s1 := run (init [mirror_job 5 [[1]; [2]; [3]] 1 None true]) ls in
  let s2 := run (init [mirror_job 5 [[1]; [2]; [3]] 1 None false]) ls in
  file_at s1 (Dest 5) = Some ([1; 2; 3], 384) /\ pc_of s1 0 = Some (PDone ROk) /\
  file_at s2 (Dest 5) = None /\ file_at s2 (Tmp 0 1) = None /\ pc_of s2 0 = Some (PDone RFail).
Proof. vm_compute. repeat split. Qed.
