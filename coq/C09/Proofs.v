(* C09 — proofs: an inductive invariant [inv] of the interleaving LTS of Model.v.
   [step_proc] is analysed once, into [eff]: what one step of one process does
   to the file system and to its pc; a kill is such a step too.  The clauses of
   [inv] follow from frame lemmas about [eff]: a file is [kept] by every step of
   a process that has no handle on it, be it an artifact ([eff_dest_stable]) or
   a temporary file under a name the process does not hold ([eff_apart]).
   [run_ind] is induction along a run from a state with [inv]: it follows
   through later steps an artifact once linked and the file a killed process
   leaves behind. *)
From Coq Require Import List NArith Bool PeanoNat.
Require Import BobV.C09.Model.
Import ListNotations.
Open Scope N_scope.

Lemma name_eqb_spec a b : reflect (a = b) (name_eqb a b).
Proof.
  destruct a as [x|x s|d k], b as [y|y s'|d' k']; cbn; try (constructor; congruence).
  - destruct (N.eqb_spec x y); constructor; congruence.
  - destruct (N.eqb_spec x y), (N.eqb_spec s s'); cbn; constructor; congruence.
  - destruct (N.eqb_spec d d'), (N.eqb_spec k k'); cbn; constructor; congruence.
Qed.

Lemma name_eqb_refl a : name_eqb a a = true.
Proof. destruct (name_eqb_spec a a); congruence. Qed.

Lemma tmp_not_dest t b : is_tmp t = true -> name_eqb t (Dest b) = false.
Proof. destruct t; cbn; congruence. Qed.

Lemma dest_not_tmp t b : is_tmp t = true -> name_eqb (Dest b) t = false.
Proof. destruct t; cbn; congruence. Qed.

Definition pinv_pc (f : fs) (j : job) (c : pc) : Prop :=
  match c with
  | PWrite t i rest ok =>
      f_names f t = Some i /\ (ok = true -> payload j = f_data f i ++ concat rest)
  | PClose t i ok =>
      f_names f t = Some i /\ (ok = true -> f_data f i = payload j /\ j_ok j = true)
  | PChmod t _ => exists i, f_names f t = Some i /\ f_data f i = payload j /\ j_ok j = true
  | PPublish t => exists i, f_names f t = Some i /\ f_data f i = payload j /\ j_ok j = true
  | PRead i acc => f_names f (Dest (j_bid j)) = Some i /\ acc = firstn (length acc) (f_data f i)
  | PDone (RRead acc) => exists i, f_names f (Dest (j_bid j)) = Some i /\ f_data f i = acc
  | PUnlink _ (RRead _) => False
  | PUnlink _ RFailPub => False
  | _ => True
  end.

(* The first two clauses keep a process's writes and chmod off every artifact and
   make a kill leave an [orphan]; [pinv_pc] is where the premises of [eff_link]
   and the reader theorem come from. *)
Definition pinv (f : fs) (j : job) (c : pc) : Prop :=
  (forall t, held c = Some t -> is_tmp t = true /\ exists i, f_names f t = Some i) /\
  (forall t i, pre c = true -> held c = Some t -> f_names f t = Some i ->
     forall b, f_names f (Dest b) <> Some i) /\
  pinv_pc f j c.

(* [i_q], [i_lt], [i_inj] keep the temporary files of different processes apart
   ([eff_frame] feeds them to [eff_apart]); [i_dest] and [i_pub] are converses,
   the first carrying the theorems about what is under an artifact name, the
   second [mirror_commit_abort]. *)
Record inv (s : st) : Prop := {
  i_p : forall p j c, s_procs s p = Some (j, c) -> pinv (s_fs s) j c;
  i_q : forall p q j c j' c' t, p <> q -> s_procs s p = Some (j, c) -> s_procs s q = Some (j', c') ->
        held c = Some t -> held c' = Some t -> False;
  i_lt : forall n i, f_names (s_fs s) n = Some i -> i < f_next (s_fs s);
  i_inj : forall t t' i, is_tmp t = true -> is_tmp t' = true ->
        f_names (s_fs s) t = Some i -> f_names (s_fs s) t' = Some i -> t = t';
  i_dest : forall b i, f_names (s_fs s) (Dest b) = Some i ->
        exists p j c, s_procs s p = Some (j, c) /\ j_bid j = b /\ is_uploader j = true /\
                      published_by c = true /\ f_data (s_fs s) i = payload j /\ j_ok j = true;
  i_pub : forall p j c, s_procs s p = Some (j, c) -> published_by c = true -> is_uploader j = true ->
        j_ok j = true /\ exists i, f_names (s_fs s) (Dest (j_bid j)) = Some i /\ f_data (s_fs s) i = payload j
}.

(* the clauses [i_lt] and [i_inj] of [inv] *)
Definition fs_lt (f : fs) : Prop := forall n i, f_names f n = Some i -> i < f_next f.

Definition tmp_inj (f : fs) : Prop :=
  forall t t' i, is_tmp t = true -> is_tmp t' = true ->
    f_names f t = Some i -> f_names f t' = Some i -> t = t'.

Lemma dest_uploader j : is_uploader j = true -> dest_of j = Dest (j_bid j).
Proof. unfold is_uploader, dest_of. destruct (j_kind j); congruence. Qed.

Lemma after_writes_held j t i rest ok : held (after_writes j t i rest ok) = Some t.
Proof. destruct rest; reflexivity. Qed.

Lemma after_writes_pre j t i rest ok : pre (after_writes j t i rest ok) = true.
Proof. destruct rest; reflexivity. Qed.

Lemma after_writes_published j t i rest ok : published_by (after_writes j t i rest ok) = false.
Proof. destruct rest; reflexivity. Qed.

Lemma after_writes_pinv_pc f j t i rest ok :
  f_names f t = Some i -> (ok = true -> payload j = f_data f i ++ concat rest) ->
  pinv_pc f j (after_writes j t i rest ok).
Proof.
  intros Hn Hd. destruct rest; cbn; (split; [assumption|]); [|assumption].
  intros [Hok Hj]%andb_true_iff. split; [|assumption].
  rewrite (Hd Hok). symmetry. apply app_nil_r.
Qed.

Lemma read_at_prefix (d : data) acc k :
  acc = firstn (length acc) d ->
  let ch := read_at d (length acc) k in
  acc ++ ch = firstn (length (acc ++ ch)) d /\ (ch = [] -> d = acc).
Proof.
  intros Ha ch.
  assert (exists tl, d = (acc ++ ch) ++ tl /\ (ch = [] -> tl = [])) as (tl & Hd & Htl).
  { pose proof (firstn_skipn (length acc) d) as Hd. rewrite <- Ha in Hd.
    subst ch. unfold read_at. set (rest := skipn (length acc) d) in *. clearbody rest. subst d.
    destruct (N.eqb_spec k 0).
    - exists []. rewrite app_nil_r. auto.
    - exists (skipn (N.to_nat k) rest). rewrite <- app_assoc, firstn_skipn. split; [reflexivity|].
      destruct rest; [intros _; apply skipn_nil|].
      destruct (N.to_nat k) eqn:E; [now apply (N2Nat.inj k 0) in E | discriminate]. }
  clearbody ch. split.
  - now rewrite Hd, firstn_app, firstn_all, Nat.sub_diag, app_nil_r.
  - intros H. now rewrite Hd, (Htl H), H, !app_nil_r.
Qed.

Lemma tee_forwarded_complete src n : concat (tee_forwarded src n true) = concat src.
Proof. unfold tee_forwarded. now rewrite firstn_skipn. Qed.

(* [eff_same] is every step that leaves the file system alone; its premises say
   what such a step may do to the pc.  [eff_replace] forgets which metadata name
   is bound: no clause of [inv] speaks of [Meta] names. *)
Inductive eff (f : fs) (j : job) : pc -> fs -> pc -> Prop :=
| eff_same c c'
    (Hheld : held c' = None \/ held c' = held c /\ pre c = true)
    (Hpub : published_by c' = published_by c) (Hpc : pinv_pc f j c') : eff f j c f c'
| eff_dir d : eff f j PMkdirs (set_dir f d) PMkTemp
| eff_alloc t (Htmp : is_tmp t = true) (Hfree : f_names f t = None) :
    eff f j PMkTemp (create_excl f t) (after_writes j t (f_next f) (j_chunks j) true)
| eff_write t i ch r ok (Hn : f_names f t = Some i) :
    eff f j (PWrite t i (ch :: r) ok) (set_data f i (f_data f i ++ ch)) (after_writes j t i r ok)
| eff_mode t i m (Hn : f_names f t = Some i) : eff f j (PChmod t m) (set_mode f i m) (PPublish t)
| eff_link t i (Hn : f_names f t = Some i) (Hfree : f_names f (Dest (j_bid j)) = None)
    (Hup : is_uploader j = true) (Hd : f_data f i = payload j) (Hok : j_ok j = true) :
    eff f j (PPublish t) (set_name f (Dest (j_bid j)) (Some i)) (PUnlink t ROk)
| eff_unlink t r : eff f j (PUnlink t r) (set_name f t None) (PDone r)
| eff_replace t i b s (Hn : f_names f t = Some i) (Hup : is_uploader j = false) :
    eff f j (PPublish t) (set_name (set_name f (Meta b s) (Some i)) t None) (PDone ROk).

Lemma step_proc_eff f j c fault k :
  pinv_pc f j c -> let '(f', c', _) := step_proc f j c fault k in eff f j c f' c'.
Proof.
  intros Hp. destruct c as [| | | |t i rest ok|t i ok|t m|t|t r|i acc|r|b];
    cbn [pinv_pc] in Hp; unfold step_proc, do_isdir; cbv beta iota zeta.
  - destruct (j_kind j) eqn:Hk; [destruct (_ && _); apply eff_same; cbn; auto ..|].
    unfold dest_of. rewrite Hk.
    destruct fault, (f_names f (Dest (j_bid j))) eqn:Hd; apply eff_same; cbn; auto.
  - destruct (_ && _); apply eff_same; cbn; auto.
  - destruct fault; [apply eff_same; cbn; auto | apply eff_dir].
  - destruct (_ || _); [apply eff_same; cbn; auto|].
    destruct (f_names f _) eqn:Ht; [apply eff_same; cbn; auto | apply eff_alloc; auto].
  - destruct Hp as [Hn Hd]. destruct rest as [|ch r]; [apply eff_same; cbn; auto; now split|].
    destruct fault; [|now apply eff_write].
    apply eff_same; [rewrite after_writes_held; auto | apply after_writes_published |].
    now apply after_writes_pinv_pc.
  - destruct Hp as [Hn Hd]. destruct fault; [apply eff_same; cbn; auto|].
    destruct ok; [|apply eff_same; cbn; auto]. destruct (Hd eq_refl).
    destruct (j_mode j); apply eff_same; cbn; eauto.
  - destruct Hp as (i & Hn & _). rewrite Hn.
    destruct fault; [apply eff_same; cbn; auto | now apply eff_mode].
  - destruct Hp as (i & Hn & Hd & Hok). rewrite Hn. unfold dest_of.
    (* U carries [is_uploader j] through the case split on the kind *)
    assert (U := eq_refl (is_uploader j)). unfold is_uploader at 1 in U.
    destruct (j_kind j);
      [| |destruct fault; [apply eff_same; cbn; auto | now apply eff_replace] |apply eff_same; cbn; auto].
    all: destruct fault; [apply eff_same; cbn; auto|].
    all: destruct (f_names f (Dest (j_bid j))) eqn:Hb; [apply eff_same; cbn; auto | now apply eff_link].
  - destruct (_ || _); [destruct r; try contradiction; apply eff_same; cbn; auto | apply eff_unlink].
  - destruct Hp as [Hn Ha]. destruct fault; [apply eff_same; cbn; auto|].
    destruct (read_at_prefix _ _ k Ha) as [Hpre Heof].
    destruct (read_at (f_data f i) (length acc) k); apply eff_same; cbn [pinv_pc]; auto.
    exists i. auto.
  - apply eff_same; cbn; auto.
  - apply eff_same; cbn; auto.
Qed.

Lemma kill_held c : held (kill_pc c) = None.
Proof. destruct c; try reflexivity. now destruct r. Qed.

Lemma kill_published c : published_by (kill_pc c) = published_by c.
Proof. destruct c; try reflexivity. now destruct r. Qed.

Lemma kill_pinv_pc f j c : pinv_pc f j c -> pinv_pc f j (kill_pc c).
Proof. destruct c; cbn; auto. destruct r; cbn; auto. Qed.

Lemma kill_eff f j c : pinv_pc f j c -> eff f j c f (kill_pc c).
Proof.
  intros Hp. apply eff_same; [left; apply kill_held | apply kill_published | now apply kill_pinv_pc].
Qed.

Lemma eff_held f j c f' c' t i :
  eff f j c f' c' -> held c' = Some t -> f_names f t = Some i -> held c = Some t.
Proof.
  intros E. destruct E; rewrite ?after_writes_held; cbn; try discriminate; auto.
  - destruct Hheld as [-> | [-> _]]; [discriminate | auto].
  - intros [= <-]. congruence.
Qed.

Lemma eff_tmp f j c f' c' n :
  eff f j c f' c' -> is_tmp n = true ->
  f_names f' n = f_names f n \/
  held c' = Some n /\ f_names f n = None /\ f_names f' n = Some (f_next f) \/
  held c = Some n /\ f_names f' n = None.
Proof.
  intros E T. destruct E; cbn [f_names create_excl set_name]; try (left; reflexivity).
  - destruct (name_eqb_spec n t) as [->|]; [|auto].
    right. left. rewrite after_writes_held. auto.
  - now rewrite tmp_not_dest; auto.
  - destruct (name_eqb_spec n t) as [->|]; auto.
  - destruct (name_eqb_spec n t) as [->|]; [auto|]. destruct n; try discriminate T. auto.
Qed.

Lemma eff_lt f j c f' c' : eff f j c f' c' -> fs_lt f -> fs_lt f'.
Proof.
  intros E Hlt n x. destruct E; cbn; eauto.
  - destruct (name_eqb n t); intros X.
    + injection X as <-. apply N.lt_succ_diag_r.
    + apply N.lt_lt_succ_r. now apply Hlt in X.
  - destruct (name_eqb n (Dest (j_bid j))); intros X; [injection X as <-|]; eauto.
  - destruct (name_eqb n t); intros X; [discriminate|eauto].
  - destruct (name_eqb n t); [discriminate|].
    destruct (name_eqb n (Meta b s)); intros X; [injection X as <-|]; eauto.
Qed.

Lemma eff_inj f j c f' c' : eff f j c f' c' -> fs_lt f -> tmp_inj f -> tmp_inj f'.
Proof.
  intros E Hlt Hinj a b x Ta Tb Ha Hb.
  assert (Hfresh : forall n, f_names f n <> Some (f_next f)).
  { intros n H%Hlt. now apply N.lt_irrefl in H. }
  (* a released name is unbound, the fresh name is the one held after the step *)
  destruct (eff_tmp _ _ _ _ _ a E Ta) as [Ea | [(Ca & _ & Ea) | (_ & Ea)]],
           (eff_tmp _ _ _ _ _ b E Tb) as [Eb | [(Cb & _ & Eb) | (_ & Eb)]]; try congruence.
  rewrite Ea in Ha. rewrite Eb in Hb. eauto.
Qed.

Lemma eff_data f j c f' c' x :
  eff f j c f' c' -> x < f_next f ->
  (forall t, pre c = true -> held c = Some t -> f_names f t <> Some x) ->
  f_data f' x = f_data f x /\ f_mode f' x = f_mode f x.
Proof.
  intros E Hx Hp. destruct E; cbn; auto.
  - destruct (N.eqb_spec x (f_next f)) as [->|]; [now apply N.lt_irrefl in Hx|auto].
  - destruct (N.eqb_spec x i) as [->|]; [|auto]. now destruct (Hp t).
  - destruct (N.eqb_spec x i) as [->|]; [|auto]. now destruct (Hp t).
Qed.

Inductive link_step (f : fs) (j : job) : pc -> fs -> pc -> Prop :=
| link_step_intro t i :
    f_names f t = Some i -> f_names f (Dest (j_bid j)) = None -> is_uploader j = true ->
    f_data f i = payload j -> j_ok j = true ->
    link_step f j (PPublish t) (set_name f (Dest (j_bid j)) (Some i)) (PUnlink t ROk).

Lemma eff_dest f j c f' c' :
  eff f j c f' c' -> pinv f j c ->
  (forall b, f_names f' (Dest b) = f_names f (Dest b)) /\
  (is_uploader j = true -> published_by c' = published_by c)
  \/ link_step f j c f' c'.
Proof.
  intros E (Hh & _ & Hp).
  destruct E; [left; split; auto using after_writes_published .. | | left; split | left; split].
  (* left: mkstemp (names), link, unlink and replace (names, flag) *)
  - intros b. cbn [f_names create_excl]. now rewrite dest_not_tmp.
  - right. now apply link_step_intro.
  - intros b. cbn [f_names set_name]. destruct (Hh t eq_refl) as [T _]. now rewrite dest_not_tmp.
  - intros _. destruct r; try reflexivity; contradiction.
  - intros b'. cbn [f_names set_name]. destruct (Hh t eq_refl) as [T _]. now rewrite dest_not_tmp.
  - congruence.
Qed.

Record kept (f f' : fs) (n : name) (x : inode) : Prop := {
  kept_name : f_names f' n = Some x;
  kept_data : f_data f' x = f_data f x;
  kept_mode : f_mode f' x = f_mode f x;
  kept_dest : (forall b, f_names f (Dest b) <> Some x) -> forall b, f_names f' (Dest b) <> Some x
}.

Lemma eff_dest_stable f j c f' c' :
  eff f j c f' c' -> pinv f j c -> fs_lt f ->
  forall b i, f_names f (Dest b) = Some i -> kept f f' (Dest b) i.
Proof.
  intros E P Hlt b i Hb.
  destruct (eff_data _ _ _ _ _ i E) as [D M]; [eauto | |].
  { intros t Hpre Ht Hx. destruct P as (_ & Hs & _). eapply Hs; eauto. }
  split; [|assumption ..|intros Hd; now destruct (Hd b)].
  destruct (eff_dest _ _ _ _ _ E P) as [[Hn _] | L]; [|destruct L as [t x _ Hnone _ _ _]].
  - now rewrite Hn.
  - cbn. destruct (N.eqb_spec b (j_bid j)) as [->|]; [congruence|assumption].
Qed.

(* Nothing a process does reaches a temporary file under a name it does not
   hold: the only link is of the inode under the held name, and temporary
   names do not share inodes. *)
Lemma eff_apart f j c f' c' t x :
  eff f j c f' c' -> pinv f j c -> fs_lt f -> tmp_inj f ->
  is_tmp t = true -> f_names f t = Some x -> held c <> Some t ->
  kept f f' t x /\ held c' <> Some t.
Proof.
  intros E P Hlt Hinj T Ht Hc.
  assert (Hmine : forall t0, held c = Some t0 -> f_names f t0 <> Some x).
  { intros t0 H0 Hx. destruct P as (Ph & _). destruct (Ph t0 H0) as [T0 _].
    apply Hc. now rewrite <- (Hinj t0 t x T0 T Hx Ht). }
  destruct (eff_data _ _ _ _ _ x E) as [D M]; [now apply (Hlt t) | auto |].
  split; [split; [|assumption ..|]|].
  - destruct (eff_tmp _ _ _ _ _ t E T) as [En | [(_ & En & _) | (H & _)]]; congruence.
  - intros Hd b. destruct (eff_dest _ _ _ _ _ E P) as [[Hn _] | L]; [now rewrite Hn|].
    destruct L as [t0 i Hi _ _ _ _]. cbn. destruct (b =? j_bid j); [|apply Hd].
    intros [= ->]. now apply (Hmine t0).
  - intros H. exact (Hc (eff_held _ _ _ _ _ _ _ E H Ht)).
Qed.

Lemma pinv_idle f j c : held c = None -> pinv_pc f j c -> pinv f j c.
Proof. intros H Hp. split; [|split]; [rewrite H; discriminate .. | assumption]. Qed.

Lemma pinv_holding f j c t i :
  held c = Some t -> is_tmp t = true -> f_names f t = Some i ->
  (forall b, f_names f (Dest b) <> Some i) -> pinv_pc f j c -> pinv f j c.
Proof.
  intros H T Hi Hd Hp. split; [|split]; [| |assumption]; rewrite H.
  - intros t' [= <-]. eauto.
  - intros t' i' _ [= <-] Hi'. now replace i' with i by congruence.
Qed.

(* the frame rule behind [eff_frame]: [pinv f j c] reads only the file under the
   held name and the artifact of the job's build-id *)
Lemma pinv_ext f f' j c :
  (forall n x, f_names f n = Some x -> held c = Some n \/ n = Dest (j_bid j) -> kept f f' n x) ->
  pinv f j c -> pinv f' j c.
Proof.
  intros Hk (Hh & Hs & Hp). split; [|split].
  - intros t Ht. destruct (Hh t Ht) as [T [x Hx]]. split; [assumption|].
    exists x. apply (Hk t x); auto.
  - intros t x Hpre Ht Hx. destruct (Hh t Ht) as [_ [x' Hx']].
    destruct (Hk t x') as [K _ _ Kd]; [auto ..|]. replace x with x' by congruence. eauto.
  - clear Hh Hs. destruct c; cbn [pinv_pc held] in *; auto; [| | | | |destruct r; auto].
    (* PWrite, PClose, PRead; then PChmod, PPublish, PDone (RRead _) *)
    1, 2, 5: destruct Hp as [Hi Hd]; destruct (Hk _ _ Hi) as [A B _ _]; [auto|]; rewrite B; auto.
    all: destruct Hp as (i & Hi & Hd); destruct (Hk _ _ Hi) as [A B _ _]; [auto|];
      exists i; rewrite B; auto.
Qed.

Lemma eff_self f j c f' c' : eff f j c f' c' -> fs_lt f -> pinv f j c -> pinv f' j c'.
Proof.
  intros E Hlt (Hh & Hs & Hp). destruct E.
  - destruct Hheld as [H | [H Hpre]]; [now apply pinv_idle|].
    split; [|split]; [| |assumption]; rewrite H; [assumption|].
    intros t i _. now apply Hs.
  - now apply pinv_idle.
  - (* mkstemp: the new inode is above every inode in use *)
    apply (pinv_holding _ _ _ t (f_next f)); [apply after_writes_held | assumption | | |].
    + cbn. now rewrite name_eqb_refl.
    + intros b. cbn [f_names create_excl]. rewrite (dest_not_tmp _ _ Htmp).
      intros Hb%Hlt. now apply N.lt_irrefl in Hb.
    + apply after_writes_pinv_pc; cbn; now rewrite ?name_eqb_refl, ?N.eqb_refl.
  - destruct (Hh t eq_refl) as [T _].
    apply (pinv_holding _ _ _ t i);
      [apply after_writes_held | assumption | assumption | exact (Hs t i eq_refl eq_refl Hn) |].
    apply after_writes_pinv_pc; cbn; [assumption|]. rewrite N.eqb_refl.
    intros Hok. rewrite (proj2 Hp Hok). cbn. apply app_assoc.
  - exact (conj Hh (conj Hs Hp)).
  - split; [|split]; [|discriminate|exact I].
    intros t' [= <-]. destruct (Hh t eq_refl) as [T ?]. cbn. rewrite tmp_not_dest; auto.
  - apply pinv_idle; [reflexivity|]. destruct r; try exact I; contradiction.
  - now apply pinv_idle.
Qed.

Lemma eff_frame s p j c f' c' q jq cq :
  inv s -> s_procs s p = Some (j, c) -> eff (s_fs s) j c f' c' ->
  p <> q -> s_procs s q = Some (jq, cq) -> pinv f' jq cq.
Proof.
  intros I Hp E Hpq Hq.
  pose proof (i_p s I p j c Hp) as P. pose proof (i_p s I q jq cq Hq) as Q.
  apply (pinv_ext (s_fs s)); [|assumption]. intros n x Hx [Hn | ->].
  - destruct Q as (Qh & _). destruct (Qh n Hn) as [T _].
    apply (eff_apart _ _ _ _ _ n x E P (i_lt s I) (i_inj s I) T Hx).
    intros Hc. exact (i_q s I p q j c jq cq n Hpq Hp Hq Hc Hn).
  - exact (eff_dest_stable _ _ _ _ _ E P (i_lt s I) _ _ Hx).
Qed.

Lemma pupd_same ps p x : pupd ps p x p = Some x.
Proof. unfold pupd. now rewrite Nat.eqb_refl. Qed.

Lemma pupd_other ps p x q : q <> p -> pupd ps p x q = ps q.
Proof. unfold pupd. intros H. destruct (Nat.eqb_spec q p); congruence. Qed.

Lemma pupd_cases ps p x q y :
  pupd ps p x q = Some y -> q = p /\ y = x \/ q <> p /\ ps q = Some y.
Proof. unfold pupd. destruct (Nat.eqb_spec q p); [intros [= <-]|]; auto. Qed.

(* [step] in terms of [eff], the form in which [sstep_inv], [sstep_orphan] and
   [run_ind] take a step; [sstep_idle]: the label names no process *)
Inductive sstep (s : st) : st -> Prop :=
| sstep_idle : sstep s s
| sstep_proc p j c f' c' : s_procs s p = Some (j, c) -> eff (s_fs s) j c f' c' ->
    sstep s {| s_fs := f'; s_procs := pupd (s_procs s) p (j, c') |}.

Lemma step_sstep s l : inv s -> sstep s (fst (step s l)).
Proof.
  intros I. destruct l as [p fault k | p]; cbn [step];
    (destruct (s_procs s p) as [[j c]|] eqn:Hp; [|apply sstep_idle]);
    destruct (i_p s I p j c Hp) as (_ & _ & Pp).
  - pose proof (step_proc_eff _ _ _ fault k Pp) as E.
    destruct (step_proc (s_fs s) j c fault k) as [[f' c'] o]. now apply sstep_proc with (c := c).
  - apply sstep_proc with (c := c); [assumption|]. now apply kill_eff.
Qed.

Lemma init_pc js p j c : s_procs (init js) p = Some (j, c) -> c = PStart.
Proof. cbn. now destruct (nth_error js p); intros [= _ <-]. Qed.

Lemma inv_init js : inv (init js).
Proof.
  constructor; try discriminate.
  - intros p j c ->%init_pc. now apply pinv_idle.
  - intros p q j c j' c' t _ ->%init_pc. discriminate.
  - intros p j c ->%init_pc. discriminate.
Qed.

Lemma sstep_inv s s' : inv s -> sstep s s' -> inv s'.
Proof.
  intros I [|p j c f' c' Hp E]; [assumption|].
  pose proof (i_p s I p j c Hp) as Pp.
  pose proof (eff_dest _ _ _ _ _ E Pp) as Hdest.
  pose proof (eff_dest_stable _ _ _ _ _ E Pp (i_lt s I)) as Hstable.
  constructor; cbn [s_fs s_procs].
  - intros q jq cq [[-> [= <- <-]] | [Hne Hq]]%pupd_cases.
    + now apply (eff_self _ _ _ _ _ E (i_lt s I)).
    + apply (eff_frame s p j c _ c' q jq cq); auto.
  - (* distinct temporary names: a fresh one is bound nowhere before *)
    assert (Hnew : forall q jq cq t, q <> p -> s_procs s q = Some (jq, cq) ->
                   held c' = Some t -> held cq = Some t -> False).
    { intros q jq cq t Hq Hsq H1 H2.
      destruct (i_p s I q jq cq Hsq) as (Qh & _). destruct (Qh t H2) as [_ (i & Hi)].
      eapply (i_q s I p q); eauto using eff_held. }
    intros a b ja ca jb cb t Hab [[-> [= <- <-]] | [Ha Hqa]]%pupd_cases [[-> [= <- <-]] | [Hb Hqb]]%pupd_cases;
      [now destruct Hab | eauto .. | eapply (i_q s I a b); eassumption].
  - exact (eff_lt _ _ _ _ _ E (i_lt s I)).
  - exact (eff_inj _ _ _ _ _ E (i_lt s I) (i_inj s I)).
  - intros b i Hb. destruct (f_names (s_fs s) (Dest b)) as [i0|] eqn:Hn.
    + (* the name was there before: its publisher still is one *)
      destruct (Hstable _ _ Hn) as [Hn' D' _ _]. rewrite Hb in Hn'. injection Hn' as <-.
      destruct (i_dest s I b i Hn) as (q & jq & cq & Hq & <- & U & P & D & Ok). rewrite <- D' in D.
      destruct (Nat.eq_dec q p) as [->|Hne].
      * rewrite Hp in Hq. injection Hq as <- <-. exists p, j, c'. rewrite pupd_same.
        destruct Hdest as [[_ Hpub] | L]; [rewrite <- (Hpub U) in P; auto 10 | destruct L; discriminate].
      * exists q, jq, cq. rewrite pupd_other by assumption. auto 10.
    + (* the name is new: this step is the link *)
      destruct Hdest as [[Hn' _] | L]; [congruence|]. destruct L as [t x Hx Hnone U Hd Hok].
      cbn in Hb. destruct (N.eqb_spec b (j_bid j)) as [->|]; [|congruence].
      injection Hb as <-. exists p, j, (PUnlink t ROk). rewrite pupd_same. auto 10.
  - intros q jq cq Hq Pq Uq.
    assert (Hq' : forall cq0, s_procs s q = Some (jq, cq0) -> published_by cq0 = true ->
              j_ok jq = true /\ exists i, f_names f' (Dest (j_bid jq)) = Some i /\ f_data f' i = payload jq).
    { intros cq0 Hq0 Pq0. destruct (i_pub s I q jq cq0 Hq0 Pq0 Uq) as (Ok & i & Hn & Hd).
      destruct (Hstable _ _ Hn) as [Hn' Hd' _ _]. split; [assumption|].
      exists i. split; congruence. }
    apply pupd_cases in Hq as [[-> [= <- <-]] | [Hne Hq]]; [|exact (Hq' cq Hq Pq)].
    destruct Hdest as [[_ Hpub] | L]; [|destruct L as [t x Hx Hnone U Hd Hok]].
    + apply (Hq' c Hp). now rewrite <- Hpub.
    + split; [assumption|]. exists x. cbn. rewrite N.eqb_refl. auto.
Qed.

Lemma step_inv s l : inv s -> inv (fst (step s l)).
Proof. intros I. apply (sstep_inv s); [assumption | now apply step_sstep]. Qed.

Lemma run_ind (P : st -> Prop) :
  (forall s s', inv s -> sstep s s' -> P s -> P s') ->
  forall ls s, inv s -> P s -> P (run s ls).
Proof.
  intros Hstep ls. induction ls as [|l ls IH]; intros s I H; cbn; [assumption|].
  apply IH; [now apply step_inv | apply (Hstep s); auto using step_sstep].
Qed.

Lemma run_inv ls : forall s, inv s -> inv (run s ls).
Proof. intros s I. exact (run_ind inv (fun s0 s' I0 S _ => sstep_inv s0 s' I0 S) ls s I I). Qed.

Lemma reachable_inv s : reachable s -> inv s.
Proof. intros (js & ls & ->). apply run_inv. apply inv_init. Qed.

Lemma init_jobs js ls p j c :
  s_procs (run (init js) ls) p = Some (j, c) -> nth_error js p = Some j.
Proof.
  revert p j c. apply run_ind; [|apply inv_init|].
  - intros s s' _ [|p0 j0 c0 f' c' H0 _] H p j c; [apply H|].
    intros [[-> [= -> _]] | [_ Hp]]%pupd_cases; eauto.
  - intros p j c. cbn. destruct (nth_error js p); cbn; congruence.
Qed.

Lemma run_dest_stable s ls b i :
  inv s -> f_names (s_fs s) (Dest b) = Some i ->
  f_names (s_fs (run s ls)) (Dest b) = Some i /\ f_data (s_fs (run s ls)) i = f_data (s_fs s) i /\
  f_mode (s_fs (run s ls)) i = f_mode (s_fs s) i.
Proof.
  intros Hs Hb. pattern (run s ls). apply run_ind; auto.
  intros s1 s' I1 [|p j c f' c' Hp E] (A & B & C); [auto|].
  destruct (eff_dest_stable _ _ _ _ _ E (i_p s1 I1 p j c Hp) (i_lt s1 I1) _ _ A) as [A' B' C' _].
  repeat split; cbn; congruence.
Qed.

(* the file a killed process leaves behind: no process holds its name, so nobody links it *)
Record orphan (s : st) (t : name) (i : inode) : Prop := {
  orphan_tmp : is_tmp t = true;
  orphan_name : f_names (s_fs s) t = Some i;
  orphan_dest : forall b, f_names (s_fs s) (Dest b) <> Some i;
  orphan_free : forall q j c, s_procs s q = Some (j, c) -> held c <> Some t
}.

Lemma sstep_orphan t i s s' : inv s -> sstep s s' -> orphan s t i -> orphan s' t i.
Proof.
  intros I [|p j c f' c' Hp E] [T Ht Hd Hh]; [now split|].
  destruct (eff_apart _ _ _ _ _ t i E (i_p s I p j c Hp) (i_lt s I) (i_inj s I) T Ht (Hh p j c Hp))
    as [[K1 _ _ K3] A2].
  split; cbn [s_fs s_procs]; auto.
  intros q jq cq [[-> [= -> ->]] | [Hne Hq]]%pupd_cases; [assumption | now apply (Hh q jq cq)].
Qed.

Lemma kill_orphan s p j c t i :
  inv s -> s_procs s p = Some (j, c) -> pre c = true -> held c = Some t ->
  f_names (s_fs s) t = Some i -> orphan (fst (step s (LKill p))) t i.
Proof.
  intros I Hp Hpre Ht Hi. cbn [step]. rewrite Hp. cbn [fst].
  destruct (i_p s I p j c Hp) as (Ph & Ps & _). destruct (Ph t Ht) as [T _].
  split; [assumption | assumption | ..]; cbn [s_fs s_procs].
  - intros b. now apply (Ps t).
  - intros q jq cq [[-> [= -> ->]] | [Hne Hq]]%pupd_cases Htq.
    + now rewrite kill_held in Htq.
    + apply (i_q s I p q j c jq cq t); auto.
Qed.
