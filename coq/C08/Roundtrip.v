(* C08 — packing followed by extraction reproduces the tree (up to inode numbers).

   Every member of a packed tree arrives where nothing is yet, at the end of a
   path that runs through directories only ([straight], [ready]); there
   TarFile.extract has an exact effect ([effect], [tar_extract_new]) that
   leaves everything elsewhere alone ([frame]), and the loop goes on with the
   next member ([steps]).  The induction over the source tree ([installs])
   carries the map from packed inode numbers to first names ([seen_ok]) by
   which later names of an inode become hard links. *)
From Coq Require Import List NArith Bool Lia.
Require Import BobV.Gen.ConstsC08 BobV.C08.Model BobV.C08.Proofs.
Import ListNotations.
Open Scope N_scope.

Lemma split_acc_nosep : forall n r cur,
  forallb (fun c => negb (c =? SLASH)) n = true -> split_acc (n ++ r) cur = split_acc r (rev n ++ cur).
Proof.
  induction n as [|c n IH]; intros r cur H; simpl in *; [reflexivity|].
  apply andb_true_iff in H as [H1 H2]. apply negb_true_iff in H1. rewrite H1.
  rewrite IH by exact H2. rewrite <- app_assoc. reflexivity.
Qed.

Lemma split_slash_single : forall n, forallb (fun c => negb (c =? SLASH)) n = true -> split_slash n = [n].
Proof.
  intros n H. unfold split_slash. pose proof (split_acc_nosep n [] [] H) as E. rewrite app_nil_r in E. rewrite E.
  simpl. rewrite app_nil_r, rev_involutive. reflexivity.
Qed.

Lemma split_slash_cons : forall n s, forallb (fun c => negb (c =? SLASH)) n = true ->
  split_slash (n ++ SLASH :: s) = n :: split_slash s.
Proof.
  intros n s H. unfold split_slash. rewrite split_acc_nosep by exact H. simpl.
  rewrite app_nil_r, rev_involutive. reflexivity.
Qed.

(* the name TarFile.extract is handed for the node at rel: [arc_of rel] without "content/" *)
Fixpoint relstr (rel : list name) : str :=
  match rel with
  | [] => []
  | [n] => n
  | n :: r => n ++ SLASH :: relstr r
  end.

Lemma relstr_cons : forall n r, r <> [] -> relstr (n :: r) = n ++ SLASH :: relstr r.
Proof. intros n r H. destruct r; [contradiction|reflexivity]. Qed.

Lemma split_relstr : forall rel, rel <> [] -> Forall good_name rel -> split_slash (relstr rel) = rel.
Proof.
  induction rel as [|n r IH]; intros Hne Hg; [contradiction|].
  apply Forall_cons_iff in Hg as [[_ [_ Hn]] Hr].
  destruct r as [|n2 r2].
  - simpl. apply split_slash_single. exact Hn.
  - rewrite relstr_cons by discriminate.
    rewrite split_slash_cons by exact Hn. f_equal. apply IH; [discriminate|exact Hr].
Qed.

Lemma good_plain : forall rel, Forall good_name rel -> plain rel.
Proof.
  induction rel as [|n r IH]; intros H; [reflexivity|].
  apply Forall_cons_iff in H as [[H1 [H2 _]] Hr]. unfold plain. simpl. rewrite H1, H2. simpl. apply IH. exact Hr.
Qed.

Lemma relstr_not_abs : forall rel, rel <> [] -> Forall good_name rel -> is_abs (relstr rel) = false.
Proof.
  intros rel Hne Hg. destruct rel as [|n r]; [contradiction|]. apply Forall_inv in Hg as [Hk [_ Hs]]. destruct n as [|c n']; [discriminate Hk|].
  simpl in Hs. apply andb_true_iff in Hs as [Hc _]. apply negb_true_iff in Hc.
  destruct r; simpl; exact Hc.
Qed.

Lemma join_dest_rel : forall dest rel, rel <> [] -> Forall good_name rel -> join_dest dest (relstr rel) = dest ++ rel.
Proof.
  intros dest rel Hr Hg. unfold join_dest, comps_of. rewrite (relstr_not_abs rel Hr Hg), (split_relstr rel Hr Hg). reflexivity.
Qed.

Record ready (fs : fsys) (dest : path) (rel : list name) : Prop := mkReady {
  r_rel : rel <> [];
  r_good : Forall good_name rel;
  r_straight : straight fs (dest ++ rel);
  r_missing : stat fs (dest ++ rel) = None
}.

(* the premise of a hard link member in [tar_extract_new]; [seen_ok] keeps it for the first name of every inode
   packed so far *)
Record linked (fs : fsys) (dest : path) (lrel : list name) (li : N) : Prop := mkLinked {
  lk_rel : lrel <> [];
  lk_good : Forall good_name lrel;
  lk_straight : straight fs (dest ++ lrel);
  lk_stat : stat fs (dest ++ lrel) = Some (SLeaf li)
}.

Lemma ready_put : forall fs dest rel v, ready fs dest rel ->
  stat (put fs (dest ++ rel) (Some v)) (dest ++ rel) = Some v.
Proof. intros fs dest rel v [_ _ Hs Hf]. apply stat_put_same; [exact (st_dirs _ _ Hs)|exact (missing_not_root _ _ Hf)]. Qed.

Lemma tar_filter_ready : forall fuel fs dest rel m,
  ready fs dest rel -> m_name m = relstr rel ->
  (m_kind m = MLnk -> inside dest (realpath (S fuel) fs (join_dest dest (m_link m))) = true) ->
  tar_filter (S fuel) fs dest m = Some (relstr rel).
Proof.
  intros fuel fs dest rel m [Hr Hg Hs Hf] Hn Hl. unfold tar_filter. rewrite Hn.
  rewrite (relstr_not_abs rel Hr Hg), (join_dest_rel dest rel Hr Hg), (inside_straight fuel fs dest rel Hs).
  unfold has_dotdot. rewrite (split_relstr rel Hr Hg), (plain_nodd rel (good_plain rel Hg)). cbn [negb].
  destruct (m_kind m); cbn [is_lnk andb]; try reflexivity.
  rewrite (Hl eq_refl). reflexivity.
Qed.

(* the two stages a new inode goes through in [effect]: as sys_write or sys_mknode makes it, then as chmod leaves it *)
Definition made (m : member) : inode :=
  match m_kind m with MReg => mkInode KReg (m_data m) DEFAULT_FILE_MODE | _ => mknode_of m end.
Definition with_mode (v : inode) (mode : N) : inode := mkInode (i_kind v) (i_data v) mode.

(* what [extract_member_new] proves TarFile.extract to be at a fresh straight location; a directory is made with
   0o700 and then re-moded (tarfile's makedir, chmod), and li is read for MLnk only ([effect_leaf] passes 0) *)
Definition effect (fs : fsys) (t : path) (m : member) (li : N) : fsys :=
  match m_kind m with
  | MDir => put (put fs t (Some (SDir 448))) t (Some (SDir (m_mode m)))
  | MSym => create fs t (made m)
  | MLnk => put fs t (Some (SLeaf li))
  | _ => set_inode (create fs t (made m)) (f_next fs) (with_mode (made m) (m_mode m))
  end.

Lemma finish_chmod : forall fuel t m fs1 fs2,
  is_sym (m_kind m) = false -> sys_chmod fuel fs1 t (m_mode m) = (fs2, None) ->
  finish fuel t m true (mkX fs1 MOk false false) = mkX fs2 MOk false false.
Proof. intros fuel t m fs1 fs2 Hs Hc. unfold finish, apply_attrs. cbn [x_st x_fs andb]. rewrite Hs, Hc. reflexivity. Qed.

Lemma finish_created : forall fuel fs t m v,
  straight fs t -> t <> [] -> i_kind v <> KSym -> is_sym (m_kind m) = false ->
  finish (S fuel) t m true (mkX (create fs t v) MOk false false) =
  mkX (set_inode (create fs t v) (f_next fs) (with_mode v (m_mode m))) MOk false false.
Proof.
  intros fuel fs t m [k d m0] Hs Hne Hk Hm. apply finish_chmod; [exact Hm|].
  apply (eff_chmod_leaf fuel _ _ (f_next fs) k d m0).
  - apply straight_create; assumption.
  - apply stat_create_same; [exact (st_dirs _ _ Hs)|exact Hne].
  - apply inode_create_same.
Qed.

(* the parent directory is there and the fall-back of makelink is never entered; attributes are set
   except on symbolic links and through hard links *)
Lemma extract_member_new : forall depth fuel fs t s m before whole li,
  straight fs t -> stat fs t = None ->
  (m_kind m = MLnk -> exists src, s = Some src /\ straight fs src /\ stat fs src = Some (SLeaf li)) ->
  extract_member (S depth) (S fuel) fs t s m (negb (is_lnk (m_kind m))) false before whole =
  mkX (effect fs t m li) MOk false false.
Proof.
  intros depth fuel fs t s m before whole li Hs Hf Hl. pose proof (missing_not_root fs t Hf) as Hne.
  enough (E : forall rec, member_body rec (S fuel) fs t s m (negb (is_lnk (m_kind m))) false before whole =
                         mkX (effect fs t m li) MOk false false).
  { cbn [extract_member]. rewrite (parent_exists fuel fs t Hs Hne). cbn [negb]. rewrite E. reflexivity. }
  intros rec. unfold member_body, effect, made.
  destruct (m_kind m) eqn:Ek; cbn [is_lnk negb].
  5-7: rewrite (eff_mknode fuel fs _ _ Hs Hf); apply finish_created; auto;
    [unfold mknode_of; rewrite Ek; discriminate|rewrite Ek; reflexivity].
  - rewrite (eff_write_new fuel fs _ _ Hs Hf). apply finish_created; auto; [discriminate|rewrite Ek; reflexivity].
  - rewrite (eff_mkdir fuel fs _ 448 Hs Hf). apply finish_chmod; [rewrite Ek; reflexivity|].
    apply (eff_chmod_dir fuel _ _ 448); [apply straight_put_dir; assumption|].
    apply stat_put_same; [exact (st_dirs _ _ Hs)|exact Hne].
  - rewrite (eff_lexists fuel fs _ Hs), Hf, (eff_mknode fuel fs _ _ Hs Hf).
    apply finish_noattrs. left. rewrite Ek. reflexivity.
  - destruct (Hl eq_refl) as [src [-> [Hss Hsl]]].
    rewrite (eff_exists fuel fs _ Hss), Hsl, (eff_link fuel fs _ _ li Hss Hs Hsl Hf).
    apply finish_noattrs. right. reflexivity.
Qed.

Lemma tar_extract_new : forall fuel fs dest rel m before whole lrel li,
  ready fs dest rel -> m_name m = relstr rel ->
  (m_kind m = MLnk -> m_link m = relstr lrel /\ linked fs dest lrel li) ->
  tar_extract (S fuel) fs dest m (negb (is_lnk (m_kind m))) before whole =
  mkX (effect fs (dest ++ rel) m li) MOk false false.
Proof.
  intros fuel fs dest rel m before whole lrel li HR Hn Hl.
  assert (Hlg : m_kind m = MLnk -> join_dest dest (m_link m) = dest ++ lrel).
  { intros E. destruct (Hl E) as [-> [E3 E4 _ _]]. apply join_dest_rel; assumption. }
  unfold tar_extract. rewrite (tar_filter_ready fuel fs dest rel m HR Hn).
  2:{ intros E. rewrite (Hlg E). apply inside_straight, (proj2 (Hl E)). }
  cbv beta iota zeta. unfold comps_of. rewrite (split_relstr rel (r_rel _ _ _ HR) (r_good _ _ _ HR)).
  pose proof (r_straight _ _ _ HR) as Hs. pose proof (r_missing _ _ _ HR) as Hf.
  rewrite (plain_rstrip _ (st_plain _ _ Hs)).
  set (m' := mkMember (relstr rel) (m_kind m) (m_link m) (m_mode m) (m_data m)).
  change (negb (is_lnk (m_kind m))) with (negb (is_lnk (m_kind m'))).
  rewrite (extract_member_new _ fuel fs _ _ m' before whole li Hs Hf); [reflexivity|].
  intros Ek. cbn [m' m_kind] in Ek. destruct (Hl Ek) as [_ [_ _ E5 E6]].
  exists (dest ++ lrel). cbn [m_kind m_link]. rewrite Ek, (Hlg Ek). auto.
Qed.

Record frame (fs fs' : fsys) (loc : path) : Prop := mkFrame {
  fr_stat : forall q, is_prefix loc q = false -> stat fs' q = stat fs q;
  fr_ino : forall j, j < f_next fs -> inode_of fs' j = inode_of fs j;
  fr_next : f_next fs <= f_next fs';
  fr_fresh : fresh_ok fs'
}.

Lemma frame_refl : forall fs loc, fresh_ok fs -> frame fs fs loc.
Proof. intros. constructor; auto. apply N.le_refl. Qed.

Lemma frame_trans : forall a b c l1 l2 l,
  frame a b l1 -> frame b c l2 -> is_prefix l l1 = true -> is_prefix l l2 = true -> frame a c l.
Proof.
  intros a b c l1 l2 l [A1 A2 A3 A4] [B1 B2 B3 B4] H1 H2. constructor.
  - intros q Hq. rewrite B1 by exact (not_below_sub l l2 q H2 Hq). apply A1. exact (not_below_sub l l1 q H1 Hq).
  - intros j Hj. rewrite B2 by exact (N.lt_le_trans _ _ _ Hj A3). apply A2. exact Hj.
  - exact (N.le_trans _ _ _ A3 B3).
  - exact B4.
Qed.

Lemma frame_put : forall fs l v, fresh_ok fs -> (forall i, v = Some (SLeaf i) -> i < f_next fs) -> frame fs (put fs l v) l.
Proof.
  intros fs l v Hf Hv. constructor.
  - intros q Hq. apply stat_put_other. exact Hq.
  - reflexivity.
  - apply N.le_refl.
  - exact (fresh_put fs l v Hf Hv).
Qed.

Lemma frame_create : forall fs l v, fresh_ok fs -> frame fs (create fs l v) l.
Proof.
  intros fs l v Hf. constructor.
  - intros q Hq. apply stat_create_other. exact Hq.
  - intros j Hj. apply inode_create_other. exact Hj.
  - apply N.le_succ_diag_r.
  - exact (fresh_create fs l v Hf).
Qed.

Lemma straight_frame : forall fs fs' loc p,
  fresh_ok fs -> frame fs fs' loc -> stat fs loc = None -> straight fs p -> stat fs p <> None -> straight fs' p.
Proof.
  intros fs fs' loc p Hf HF Hn [S1 S2 S3] Hp. constructor; auto.
  - intros a b E Hb. specialize (S2 a b E Hb). unfold is_dir.
    rewrite (fr_stat _ _ _ HF a); [exact S2|].
    exact (not_below_missing fs loc a Hn (is_dir_exists _ _ S2)).
  - rewrite <- S3. apply sym_at_eq; [apply (fr_stat _ _ _ HF), (not_below_missing fs loc p Hn Hp)|].
    intros i E. exact (fr_ino _ _ _ HF i (Hf p i E)).
Qed.

(* what [effect_leaf] and [effect_link_leaf] establish and [leaf_installed] turns into the conclusion of [installs] *)
Definition leaf_at (fs fs' : fsys) (t : path) (j : N) : Prop :=
  frame fs fs' t /\ stat fs' t = Some (SLeaf j) /\ (forall r, r <> [] -> stat fs' (t ++ r) = None).

Lemma leaf_at_create : forall fs t v,
  straight fs t -> stat fs t = None -> fresh_ok fs -> leaf_at fs (create fs t v) t (f_next fs).
Proof.
  intros fs t v Hs Hn Hf.
  pose proof (stat_create_same fs t v (st_dirs _ _ Hs) (missing_not_root _ _ Hn)) as Hst.
  split; [apply frame_create; exact Hf|split; [exact Hst|]].
  intros r Hr. eapply stat_leaf_below; eauto.
Qed.

(* the inode the source must have had for a member that makes one ([new_leaf_installs]); not meant for MDir, MLnk *)
Definition final (m : member) : inode :=
  match m_kind m with MSym => made m | _ => with_mode (made m) (m_mode m) end.

Lemma leaf_at_set_inode : forall fs fs' t j v,
  leaf_at fs fs' t j -> f_next fs <= j -> leaf_at fs (set_inode fs' j v) t j.
Proof.
  intros fs fs' t j v [[F1 F2 F3 F4] SB] Hj. split; [|exact SB]. constructor; auto.
  intros k Hk. rewrite inode_set_other by lia. exact (F2 k Hk).
Qed.

Lemma effect_leaf : forall fs dest rel m,
  ready fs dest rel -> fresh_ok fs -> m_kind m <> MDir -> m_kind m <> MLnk ->
  let fs' := effect fs (dest ++ rel) m 0 in
  leaf_at fs fs' (dest ++ rel) (f_next fs) /\ inode_of fs' (f_next fs) = Some (final m).
Proof.
  intros fs dest rel m HR Hf Hd Hl. cbv zeta.
  pose proof (leaf_at_create fs _ (made m) (r_straight _ _ _ HR) (r_missing _ _ _ HR) Hf) as HC.
  unfold effect, final. destruct (m_kind m); try contradiction;
    try (split; [apply leaf_at_set_inode; [exact HC|apply N.le_refl]|apply inode_set_same]).
  split; [exact HC|apply inode_create_same].
Qed.

Lemma effect_link_leaf : forall fs dest rel li,
  ready fs dest rel -> fresh_ok fs -> li < f_next fs ->
  leaf_at fs (put fs (dest ++ rel) (Some (SLeaf li))) (dest ++ rel) li.
Proof.
  intros fs dest rel li HR Hf Hli. pose proof (ready_put fs dest rel (SLeaf li) HR) as Hst.
  split; [|split; [exact Hst|]].
  - apply frame_put; [exact Hf|]. intros i [= <-]. exact Hli.
  - intros r Hr. eapply stat_leaf_below; eauto.
Qed.

Lemma effect_dir : forall fs dest rel m0 m,
  ready fs dest rel -> fresh_ok fs ->
  let t := dest ++ rel in
  let fs' := put (put fs t (Some (SDir m0))) t (Some (SDir m)) in
  frame fs fs' t /\ stat fs' t = Some (SDir m) /\ (forall r, r <> [] -> stat fs' (t ++ r) = None) /\
  straight fs' t.
Proof.
  intros fs dest rel m0 m HR Hf. cbv zeta.
  pose proof (r_straight _ _ _ HR) as Hs. pose proof (r_missing _ _ _ HR) as Hn.
  pose proof (missing_not_root _ _ Hn) as Hne.
  set (fs1 := put fs (dest ++ rel) (Some (SDir m0))).
  pose proof (ready_put fs dest rel (SDir m0) HR : stat fs1 _ = _) as Hst1.
  pose proof (straight_put_dir fs _ m0 Hs Hne : straight fs1 _) as Hs1.
  pose proof (stat_put_same fs1 _ (SDir m) (st_dirs _ _ Hs1) Hne) as Hst.
  assert (Hf1 : frame fs fs1 (dest ++ rel)) by (apply frame_put; [exact Hf|discriminate]).
  split; [|split; [exact Hst|split]].
  - eapply frame_trans; [exact Hf1|apply frame_put; [exact (fr_fresh _ _ _ Hf1)|discriminate]|apply is_prefix_refl..].
  - intros r Hr. rewrite stat_put_chmod by exact (is_dir_stat _ _ _ Hst1).
    destruct r; [contradiction|]. apply stat_put_below; [assumption|discriminate].
  - exact (straight_put_dir fs1 _ m Hs1 Hne).
Qed.

Section TreeInd.
  Variable P : tree -> Prop.
  Hypothesis Hleaf : forall i, P (TLeaf i).
  Hypothesis Hdir : forall m es, Forall (fun e => P (snd e)) es -> P (TDir m es).
  Fixpoint tree_ind2 (t : tree) : P t :=
    match t with
    | TLeaf i => Hleaf i
    | TDir m es =>
      Hdir m es ((fix go (es : list (name * tree)) : Forall (fun e => P (snd e)) es :=
                    match es with
                    | [] => Forall_nil _
                    | e :: r => Forall_cons e (tree_ind2 (snd e)) (go r)
                    end) es)
    end.
End TreeInd.

Definition seen_t := list (N * str).

(* the inner fixpoint of [pack_tree]: the entries of a directory *)
Fixpoint pack_list (pk : tree -> str -> seen_t -> list member * seen_t) (arc : str)
                   (es : list (name * tree)) (seen : seen_t) : list member * seen_t :=
  match es with
  | [] => ([], seen)
  | (n, c) :: r =>
    let '(m1, s1) := pk c (join_name arc n) seen in
    let '(m2, s2) := pack_list pk arc r s1 in
    (m1 ++ m2, s2)
  end.

Lemma pack_tree_dir : forall sfs m es arc seen,
  pack_tree sfs (TDir m es) arc seen =
  let '(ms, seen') := pack_list (pack_tree sfs) arc es seen in (mkMember arc MDir [] m [] :: ms, seen').
Proof.
  intros. simpl.
  apply (f_equal (fun p : list member * seen_t => let '(ms, seen') := p in (mkMember arc MDir [] m [] :: ms, seen'))).
  revert seen. induction es as [|[n c] r IH]; intros seen; simpl; [reflexivity|].
  destruct (pack_tree sfs c (join_name arc n) seen) as [m1 s1]. rewrite IH. reflexivity.
Qed.

(* the member name [pack_tree] gives the node at rel ([join_arc]) *)
Definition arc_of (rel : list name) : str := CONTENT_PREFIX ++ relstr rel.

Lemma prefix_is_content : CONTENT_PREFIX = PACK_CONTENT_NAME ++ [SLASH].
Proof. reflexivity. Qed.

Lemma join_arc : forall rel n, rel <> [] -> join_name (arc_of rel) n = arc_of (rel ++ [n]).
Proof.
  intros rel n Hr. unfold join_name, arc_of. rewrite <- app_assoc. f_equal.
  induction rel as [|a r IH]; [contradiction|].
  destruct r as [|b r'].
  - reflexivity.
  - cbn [app]. rewrite (relstr_cons a (b :: r')), (relstr_cons a (b :: r' ++ [n])) by discriminate.
    rewrite <- app_assoc. simpl. f_equal. f_equal. apply IH. discriminate.
Qed.

Lemma ino_seen_in : forall i seen a, ino_seen i seen = Some a -> In (i, a) seen.
Proof.
  induction seen as [|[k v] r IH]; intros a H; simpl in *; [discriminate|].
  destruct (k =? i) eqn:E; [apply N.eqb_eq in E; injection H as <-; subst k; left; reflexivity|right; apply IH; exact H].
Qed.

Section Source.
  Variable sfs : fsys.
  Variable fuel : nat.
  Variables audit dest : path.

  Definition steps (fs : fsys) (ms : list member) (fs' : fsys) : Prop :=
    forall done rest, exists done',
      extract_loop (S fuel) fs audit dest done (ms ++ rest) = extract_loop (S fuel) fs' audit dest done' rest.

  Lemma steps_nil : forall fs, steps fs [] fs.
  Proof. intros fs done rest. exists done. reflexivity. Qed.

  Lemma steps_app : forall fs fs1 fs2 a b, steps fs a fs1 -> steps fs1 b fs2 -> steps fs (a ++ b) fs2.
  Proof.
    intros fs fs1 fs2 a b H1 H2 done rest.
    destruct (H1 done (b ++ rest)) as [d1 E1]. destruct (H2 d1 rest) as [d2 E2].
    exists d2. rewrite <- app_assoc, E1. exact E2.
  Qed.

  Lemma loop_step : forall fs rel k link mode data lrel li,
    ready fs dest rel ->
    (k = MLnk -> link = arc_of lrel /\ linked fs dest lrel li) ->
    steps fs [mkMember (arc_of rel) k link mode data]
          (effect fs (dest ++ rel) (mkMember (relstr rel) k (if is_lnk k then drop8 link else link) mode data) li).
  Proof.
    intros fs rel k link mode data lrel li HR Hl done rest.
    set (f := mkMember (arc_of rel) k link mode data).
    assert (Hlk : is_lnk (m_kind f) && negb (starts_with CONTENT_PREFIX (m_link f)) = false).
    { simpl. destruct k; try reflexivity. destruct (Hl eq_refl) as [-> _]. reflexivity. }
    change (mkMember (relstr rel) k (if is_lnk k then drop8 link else link) mode data) with (stripped f).
    exists (stripped f :: done). cbn [app].
    rewrite (extract_loop_content (S fuel) fs audit dest done f rest eq_refl Hlk).
    change (negb (is_lnk (m_kind f))) with (negb (is_lnk (m_kind (stripped f)))).
    rewrite (tar_extract_new fuel fs dest rel (stripped f) done _ lrel li HR eq_refl).
    - cbv zeta. unfold stops. cbn [x_st x_consumed x_fs x_nmk].
      destruct (extract_loop (S fuel) (effect fs (dest ++ rel) (stripped f) li) audit dest (stripped f :: done) rest) as [[a b] c].
      reflexivity.
    - intros E. simpl in E. subst k. destruct (Hl eq_refl) as [E1 HL].
      split; [|exact HL]. simpl. rewrite E1. reflexivity.
  Qed.

  Fixpoint all_ok (es : list (name * tree)) : Prop :=
    match es with [] => True | (n, c) :: r => src_ok sfs c /\ all_ok r end.

  Lemma src_ok_dir : forall m es, src_ok sfs (TDir m es) <->
    NoDup (map fst es) /\ Forall good_name (map fst es) /\ all_ok es.
  Proof.
    intros. simpl. do 2 apply and_iff_compat_l.
    induction es as [|[n c] r IH]; simpl; [reflexivity|apply and_iff_compat_l, IH].
  Qed.

  (* TarFile.inodes during packing: every inode seen was a regular file, and in the
     target [fs] its first name is a straight path to a file with the same content *)
  Definition seen_entry (fs : fsys) (e : N * str) : Prop :=
    exists lrel j d m, snd e = arc_of lrel /\ linked fs dest lrel j /\
      inode_of sfs (fst e) = Some (mkInode KReg d m) /\ inode_of fs j = Some (mkInode KReg d m).

  Definition seen_ok (fs : fsys) (seen : seen_t) : Prop := Forall (seen_entry fs) seen.

  Lemma seen_ok_frame : forall fs fs' loc seen,
    fresh_ok fs -> frame fs fs' loc -> stat fs loc = None -> seen_ok fs seen -> seen_ok fs' seen.
  Proof.
    intros fs fs' loc seen Hf HF Hn. apply Forall_impl.
    intros e [lrel [j [d [m [E1 [[E2 E3 E4 E5] [E6 E7]]]]]]].
    assert (Hex : stat fs (dest ++ lrel) <> None) by (rewrite E5; discriminate).
    exists lrel, j, d, m. split; [exact E1|split; [constructor; auto|split; [exact E6|]]].
    - exact (straight_frame fs fs' loc _ Hf HF Hn E4 Hex).
    - rewrite (fr_stat _ _ _ HF); [exact E5|exact (not_below_missing fs loc _ Hn Hex)].
    - rewrite (fr_ino _ _ _ HF); [exact E7|exact (Hf _ _ E5)].
  Qed.

  Definition installs (t : tree) : Prop :=
    src_ok sfs t -> forall fs rel seen,
      ready fs dest rel -> fresh_ok fs -> seen_ok fs seen ->
      exists fs',
        steps fs (fst (pack_tree sfs t (arc_of rel) seen)) fs'
        /\ frame fs fs' (dest ++ rel)
        /\ seen_ok fs' (snd (pack_tree sfs t (arc_of rel) seen))
        /\ (forall r, node_match sfs (t_stat t r) fs' (stat fs' (dest ++ rel ++ r))).

  Lemma leaf_installed : forall fs fs' rel seen i j,
    ready fs dest rel -> fresh_ok fs -> seen_ok fs seen ->
    leaf_at fs fs' (dest ++ rel) j -> inode_of fs' j = inode_of sfs i -> inode_of sfs i <> None ->
    frame fs fs' (dest ++ rel) /\ seen_ok fs' seen /\
    (forall r, node_match sfs (t_stat (TLeaf i) r) fs' (stat fs' (dest ++ rel ++ r))).
  Proof.
    intros fs fs' rel seen i j HR Hf Hseen [HF [Hs Hb]] Hi Hn.
    split; [exact HF|split].
    - exact (seen_ok_frame _ _ _ _ Hf HF (r_missing _ _ _ HR) Hseen).
    - intros r. rewrite app_assoc. destruct r as [|c r].
      + rewrite app_nil_r, Hs. simpl. auto.
      + rewrite Hb by discriminate. exact I.
  Qed.

  Lemma new_leaf_installs : forall fs rel seen i k link mode data,
    ready fs dest rel -> fresh_ok fs -> seen_ok fs seen ->
    k <> MDir -> k <> MLnk ->
    inode_of sfs i = Some (final (mkMember (relstr rel) k link mode data)) ->
    exists fs',
      steps fs [mkMember (arc_of rel) k link mode data] fs'
      /\ frame fs fs' (dest ++ rel)
      /\ seen_ok fs' (match k with MReg => (i, arc_of rel) :: seen | _ => seen end)
      /\ (forall r, node_match sfs (t_stat (TLeaf i) r) fs' (stat fs' (dest ++ rel ++ r))).
  Proof.
    intros fs rel seen i k link mode data HR Hf Hseen Hd Hk Hi.
    pose proof (loop_step fs rel k link mode data [] 0 HR ltac:(intros E; contradiction)) as Hstep.
    replace (if is_lnk k then drop8 link else link) with link in Hstep by (destruct k; try reflexivity; contradiction).
    destruct (effect_leaf fs dest rel (mkMember (relstr rel) k link mode data) HR Hf Hd Hk) as [HL Hino].
    rewrite <- Hi in Hino.
    destruct (leaf_installed fs _ rel seen i (f_next fs) HR Hf Hseen HL Hino ltac:(rewrite Hi; discriminate))
      as [HF [Hseen' HM]].
    eexists. split; [exact Hstep|]. split; [exact HF|]. split; [|exact HM].
    destruct k; try exact Hseen'. constructor; [|exact Hseen'].
    destruct HL as [_ [Hs _]]. destruct HR as [Hr Hg Hst _].
    exists rel, (f_next fs), data, mode. cbn [fst snd]. rewrite Hino.
    split; [reflexivity|split; [constructor; auto|split; exact Hi]].
    eapply straight_after; [exact Hst|exact (fr_stat _ _ _ HF)|].
    unfold sym_at. rewrite Hs, Hino, Hi. reflexivity.
  Qed.

  Lemma installs_leaf : forall i, installs (TLeaf i).
  Proof.
    intros i [v [Hi Hok]] fs rel seen HR Hf Hseen.
    destruct v as [k d m]. unfold inode_ok in Hok. cbn [i_kind i_mode i_data] in Hok.
    cbn [pack_tree]. rewrite Hi. destruct k; cbn [fst snd].
    - (* regular file *)
      destruct (ino_seen i seen) as [first|] eqn:Eseen; cbn [fst snd].
      + destruct (proj1 (Forall_forall _ _) Hseen _ (ino_seen_in _ _ _ Eseen)) as [lrel [j [d' [m' [E1 [HL [E6 E7]]]]]]]. simpl in E1, E6.
        rewrite Hi in E6. injection E6 as <- <-.
        pose proof (loop_step fs rel MLnk first m [] lrel j HR (fun _ => conj E1 HL)) as Hstep.
        cbn [effect m_kind] in Hstep.
        eexists. split; [exact Hstep|].
        apply (leaf_installed fs _ rel seen i j HR Hf Hseen (effect_link_leaf fs dest rel j HR Hf (Hf _ _ (lk_stat _ _ _ _ HL))));
          rewrite Hi; [exact E7|discriminate].
      + apply (new_leaf_installs fs rel seen i MReg [] m d HR Hf Hseen); [discriminate..|exact Hi].
    - subst m. apply (new_leaf_installs fs rel seen i MSym d 511 [] HR Hf Hseen); [discriminate..|exact Hi].
    - subst d. apply (new_leaf_installs fs rel seen i MFifo [] m [] HR Hf Hseen); [discriminate..|exact Hi].
    - apply (new_leaf_installs fs rel seen i MChr [] m d HR Hf Hseen); [discriminate..|exact Hi].
    - apply (new_leaf_installs fs rel seen i MBlk [] m d HR Hf Hseen); [discriminate..|exact Hi].
  Qed.

  Lemma node_match_transfer : forall fs1 fs' sn q,
    fresh_ok fs1 -> stat fs' q = stat fs1 q -> (forall j, j < f_next fs1 -> inode_of fs' j = inode_of fs1 j) ->
    node_match sfs sn fs1 (stat fs1 q) -> node_match sfs sn fs' (stat fs' q).
  Proof.
    intros fs1 fs' sn q Hf Hs Hi H. rewrite Hs. unfold node_match in *.
    destruct sn as [[m|i]|]; destruct (stat fs1 q) as [[m'|j]|] eqn:E; auto.
    rewrite (Hi j (Hf q j E)). exact H.
  Qed.

  Lemma installs_list : forall es,
    Forall (fun e => installs (snd e)) es ->
    NoDup (map fst es) -> Forall good_name (map fst es) -> all_ok es ->
    forall fs rel arc seen,
      Forall good_name rel ->
      (forall n : name, join_name arc n = arc_of (rel ++ [n])) ->
      straight fs (dest ++ rel) -> is_dir fs (dest ++ rel) = true ->
      (forall n, In n (map fst es) -> stat fs ((dest ++ rel) ++ [n]) = None) ->
      fresh_ok fs -> seen_ok fs seen ->
      exists fs',
        steps fs (fst (pack_list (pack_tree sfs) arc es seen)) fs'
        /\ frame fs fs' (dest ++ rel)
        /\ (forall q, (forall n, In n (map fst es) -> is_prefix ((dest ++ rel) ++ [n]) q = false) -> stat fs' q = stat fs q)
        /\ seen_ok fs' (snd (pack_list (pack_tree sfs) arc es seen))
        /\ (forall n c, In (n, c) es -> forall r, node_match sfs (t_stat c r) fs' (stat fs' ((dest ++ rel) ++ n :: r))).
  Proof.
    induction es as [|[n c] es IH]; intros HI Hnd Hgn Hok fs rel arc seen Hgr Harc Hst Hdir Hfr Hf Hseen.
    - exists fs. split; [apply steps_nil|]. split; [apply frame_refl; exact Hf|]. split; [reflexivity|].
      split; [exact Hseen|intros n c []].
    - apply Forall_cons_iff in HI as [Hic HIes]. apply NoDup_cons_iff in Hnd as [Hnin Hnd'].
      apply Forall_cons_iff in Hgn as [Hgood Hgn']. destruct Hok as [Hokc Hokes]. cbn [fst snd] in *.
      cbn [pack_list]. rewrite Harc.
      assert (Hmiss_n : stat fs ((dest ++ rel) ++ [n]) = None) by (apply Hfr; left; reflexivity).
      assert (HR : ready fs dest (rel ++ [n])).
      { constructor; auto.
        - destruct rel; discriminate.
        - apply Forall_app. split; [exact Hgr|constructor; [exact Hgood|constructor]].
        - rewrite app_assoc. apply straight_child; auto.
        - rewrite app_assoc. exact Hmiss_n. }
      destruct (Hic Hokc fs (rel ++ [n]) seen HR Hf Hseen) as [fs1 [E1 [F1 [S1 M1]]]].
      destruct (pack_tree sfs c (arc_of (rel ++ [n])) seen) as [m1 s1]. cbn [fst snd] in E1, S1.
      rewrite (app_assoc dest rel [n]) in F1.
      assert (Hst1 : straight fs1 (dest ++ rel)).
      { eapply straight_frame; [exact Hf|exact F1|exact Hmiss_n|exact Hst|exact (is_dir_exists _ _ Hdir)]. }
      assert (Hdir1 : is_dir fs1 (dest ++ rel) = true).
      { unfold is_dir. rewrite (fr_stat _ _ _ F1); [exact Hdir|apply is_prefix_child_parent]. }
      assert (Hsib : forall n' r, In n' (map fst es) -> is_prefix ((dest ++ rel) ++ [n]) ((dest ++ rel) ++ n' :: r) = false).
      { intros n' r Hin. apply is_prefix_sibling. intros E. subst n'. contradiction. }
      assert (Hfr1 : forall n', In n' (map fst es) -> stat fs1 ((dest ++ rel) ++ [n']) = None).
      { intros n' Hin. rewrite (fr_stat _ _ _ F1); [apply Hfr; right; exact Hin|apply Hsib; exact Hin]. }
      destruct (IH HIes Hnd' Hgn' Hokes fs1 rel arc s1 Hgr Harc Hst1 Hdir1 Hfr1
                   (fr_fresh _ _ _ F1) S1) as [fs' [E2 [F2 [L2 [S2 M2]]]]].
      destruct (pack_list (pack_tree sfs) arc es s1) as [m2 s2]. cbn [fst snd] in *.
      exists fs'. split; [exact (steps_app _ _ _ _ _ E1 E2)|]. split; [|split; [|split; [exact S2|]]].
      + eapply frame_trans; [exact F1|exact F2|apply is_prefix_app_r, is_prefix_refl|apply is_prefix_refl].
      + intros q Hq. rewrite L2 by (intros n' Hin; apply Hq; right; exact Hin).
        apply (fr_stat _ _ _ F1). apply Hq. left. reflexivity.
      + intros n' c' [Hin|Hin] r; [|apply M2; exact Hin].
        injection Hin as <- <-.
        apply (node_match_transfer fs1 fs' _ _ (fr_fresh _ _ _ F1)).
        * apply L2. intros n' Hn'. apply is_prefix_sibling. intros E. subst n'. contradiction.
        * apply (fr_ino _ _ _ F2).
        * specialize (M1 r). rewrite <- app_assoc in M1. simpl in M1. rewrite app_assoc in M1. exact M1.
  Qed.

  Lemma installs_entries : forall m m' es fs rel arc seen,
    Forall (fun e => installs (snd e)) es -> src_ok sfs (TDir m es) ->
    Forall good_name rel -> (forall n : name, join_name arc n = arc_of (rel ++ [n])) ->
    straight fs (dest ++ rel) -> stat fs (dest ++ rel) = Some (SDir m') ->
    (forall r, r <> [] -> stat fs ((dest ++ rel) ++ r) = None) ->
    fresh_ok fs -> seen_ok fs seen ->
    exists fs',
      steps fs (fst (pack_list (pack_tree sfs) arc es seen)) fs'
      /\ frame fs fs' (dest ++ rel)
      /\ stat fs' (dest ++ rel) = Some (SDir m')
      /\ seen_ok fs' (snd (pack_list (pack_tree sfs) arc es seen))
      /\ (forall n r, node_match sfs (t_stat (TDir m es) (n :: r)) fs' (stat fs' ((dest ++ rel) ++ n :: r))).
  Proof.
    intros m m' es fs rel arc seen Hall Hok Hgr Harc Hst Hs B0 Hf Hseen.
    apply src_ok_dir in Hok as [Hnd [Hgn Hall_ok]].
    destruct (installs_list es Hall Hnd Hgn Hall_ok fs rel arc seen Hgr Harc Hst)
      as [fs' [E1 [F1 [L1 [S1 M1]]]]]; auto.
    { exact (is_dir_stat _ _ _ Hs). }
    { intros n _. apply B0. discriminate. }
    exists fs'. split; [exact E1|]. split; [exact F1|]. split; [|split; [exact S1|]].
    - rewrite L1 by (intros n _; apply is_prefix_child_parent). exact Hs.
    - intros n r. rewrite t_stat_dir_cons. destruct (assoc n es) as [c|] eqn:Ea.
      + apply M1. apply assoc_in. exact Ea.
      + rewrite L1; [rewrite B0 by discriminate; exact I|].
        intros n' Hin. apply is_prefix_sibling. intros E. subst n'. exact (assoc_none_notin _ _ _ Ea Hin).
  Qed.

  Lemma installs_dir : forall m es, Forall (fun e => installs (snd e)) es -> installs (TDir m es).
  Proof.
    intros m es Hall Hok fs rel seen HR Hf Hseen.
    rewrite pack_tree_dir.
    pose proof (loop_step fs rel MDir [] m [] [] 0 HR ltac:(discriminate)) as E0.
    cbn [effect m_kind m_mode is_lnk] in E0.
    destruct (effect_dir fs dest rel 448 m HR Hf) as [F0 [S0 [B0 St0]]].
    set (fs0 := put (put fs (dest ++ rel) (Some (SDir 448))) (dest ++ rel) (Some (SDir m))) in *.
    destruct (installs_entries m m es fs0 rel (arc_of rel) seen Hall Hok (r_good _ _ _ HR)
                (fun n => join_arc rel n (r_rel _ _ _ HR)) St0 S0 B0 (fr_fresh _ _ _ F0))
      as [fs' [E1 [F1 [S1 [K1 M1]]]]].
    { eapply seen_ok_frame; eauto. exact (r_missing _ _ _ HR). }
    destruct (pack_list (pack_tree sfs) (arc_of rel) es seen) as [ms seen']. cbn [fst snd] in *.
    exists fs'. split; [exact (steps_app _ _ _ [_] _ E0 E1)|]. split; [|split; [exact K1|]].
    - eapply frame_trans; [exact F0|exact F1|apply is_prefix_refl..].
    - intros r. rewrite app_assoc. destruct r as [|n r0]; [rewrite app_nil_r, S1; reflexivity|apply M1].
  Qed.

  Theorem installs_all : forall t, installs t.
  Proof. apply tree_ind2; [apply installs_leaf|apply installs_dir]. Qed.
End Source.

Theorem pack_extract_roundtrip : forall fuel sfs saudit scontent fs audit dest art m es ab,
  t_get (f_root sfs) scontent = Some (TDir m es) -> src_ok sfs (TDir m es) ->
  audit_bytes sfs saudit = Some ab ->
  pack sfs saudit scontent = Some art ->
  target_ok fs audit dest ->
  exists fs',
    bob_extract (S fuel) fs audit dest art = (fs', Extracted, false) /\
    audit_bytes fs' audit = Some ab /\
    (forall n r0, node_match sfs (t_stat (TDir m es) (n :: r0)) fs' (stat fs' (dest ++ n :: r0))).
Proof.
  intros fuel sfs saudit scontent fs audit dest art m es ab Hget Hok Hab Hpack [Hdp Hap Hda Had Hf Hdanc Haanc].
  unfold pack in Hpack. rewrite Hab, Hget in Hpack.
  apply (f_equal (fun o => match o with Some a => a | None => art end)) in Hpack. cbv beta iota in Hpack. subst art.
  unfold bob_extract. cbn [a_pax a_members a_tail_ok].
  destruct (prologue_prepared dest audit Hdp Hda Had fuel (S fuel) fs Hdanc) as [Em HP]. rewrite Em.
  set (fs3 := prologue dest audit fs) in *.
  change (if str_eqb PACK_VSN_KEY VSN_KEY then Some PACK_VSN else None) with (Some VSN_ONE).
  cbv iota. rewrite str_eqb_refl.
  pose proof (p_fresh _ _ _ _ HP Hf) as Hf3.
  assert (Na3 : stat fs3 audit = None) by (apply (p_audit _ _ _ _ HP), is_prefix_refl).
  assert (Sa3 : straight fs3 audit).
  { constructor; [exact Hap| |apply sym_at_none; exact Na3].
    intros x b E Hb. destruct (ancestor_outside dest audit Hda Had audit x b (or_intror eq_refl) E Hb) as [H1 H2].
    unfold is_dir. rewrite (p_other _ _ _ _ HP x H1 H2). exact (Haanc x b E Hb). }
  cbn [extract_loop m_name m_kind m_data].
  change (starts_with CONTENT_PREFIX PACK_AUDIT_NAME) with false.
  change (str_eqb PACK_AUDIT_NAME AUDIT_NAME) with true. cbv iota.
  rewrite (eff_write_new fuel fs3 audit ab Sa3 Na3).
  set (fs4 := create fs3 audit (mkInode KReg ab DEFAULT_FILE_MODE)).
  destruct (leaf_at_create fs3 audit (mkInode KReg ab DEFAULT_FILE_MODE) Sa3 Na3 Hf3 : leaf_at fs3 fs4 _ _) as [F34 [Sa4 _]].
  (* the root directory member is skipped *)
  rewrite pack_tree_dir.
  destruct (pack_list (pack_tree sfs) PACK_CONTENT_NAME es []) as [ms seen'] eqn:El. cbn [fst].
  cbn [extract_loop m_name m_kind].
  change (starts_with CONTENT_PREFIX PACK_CONTENT_NAME) with false.
  change (str_eqb PACK_CONTENT_NAME AUDIT_NAME) with false.
  change (str_eqb PACK_CONTENT_NAME CONTENT_NAME) with true. cbn [orb]. cbv iota.
  assert (Sd4 : straight fs4 dest).
  { apply (straight_frame fs3 fs4 audit dest Hf3 F34 Na3 (p_straight _ _ _ _ HP)). rewrite (p_dest _ _ _ _ HP). discriminate. }
  assert (S4 : stat fs4 dest = Some (SDir DEFAULT_DIR_MODE)).
  { rewrite (fr_stat _ _ _ F34); [exact (p_dest _ _ _ _ HP)|]. apply (below_dest_not_audit dest audit Hda Had), is_prefix_refl. }
  assert (B4 : forall r, r <> [] -> stat fs4 (dest ++ r) = None).
  { intros r Hr. assert (Hb : is_prefix dest (dest ++ r) = true) by apply is_prefix_app_r, is_prefix_refl.
    rewrite (fr_stat _ _ _ F34) by (apply (below_dest_not_audit dest audit Hda Had); exact Hb).
    exact (p_below _ _ _ _ HP r Hr). }
  assert (Hlist := installs_entries sfs fuel audit dest m DEFAULT_DIR_MODE es fs4 [] PACK_CONTENT_NAME []
                     (proj2 (Forall_forall _ _) (fun e _ => installs_all sfs fuel audit dest (snd e))) Hok
                     (Forall_nil _) (fun n => eq_refl)).
  rewrite !app_nil_r in Hlist.
  destruct (Hlist Sd4 S4 B4 (fr_fresh _ _ _ F34) (Forall_nil _)) as [fs' [EL [FL [_ [_ M1]]]]].
  rewrite El in EL. cbn [fst] in EL.
  destruct (EL [mkMember PACK_CONTENT_NAME MDir [] m []; mkMember PACK_AUDIT_NAME MReg [] DEFAULT_FILE_MODE ab] [])
    as [done' EL'].
  rewrite app_nil_r in EL'. rewrite EL'. cbn [extract_loop].
  exists fs'. split; [reflexivity|]. split.
  - unfold audit_bytes. rewrite (fr_stat _ _ _ FL audit Hda), Sa4, (fr_ino _ _ _ FL) by (simpl; lia).
    unfold fs4. rewrite inode_create_same. reflexivity.
  - exact M1.
Qed.
