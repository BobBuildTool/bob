(* C08 — extraction is confined.

   [inv ok fs0 fs]: outside [ok] nothing differs from fs0, no inode has a name
   inside and a name outside, no symbolic link lies outside (and the inode
   numbers in use are below the next one to be handed out).  A system call on a
   path the filter accepted in the same state ([guard]) acts at a location
   inside: realpath agrees with the kernel where the last component is followed,
   and where it is not, the location is no link unless it is inside already
   ([loc_follow], [loc_nofollow]).  So every call keeps [inv], and one member
   keeps it through TarFile._extract_member ([extract_member_safe]) as long as
   the fall-back of makelink does not have to make directories again: the flag
   x_nmk, which is raised on rejected extractions only ([bob_extract_extracted]).
   The loop of TarHelper.__extractPackage takes [ok] = below the workspace and
   the state before each member as its fs0 ([linv]): the audit file lies
   outside, so content members leave it alone.  Within one member a state is
   [guarded] ([inv], the workspace a directory, and the filter's verdict about
   the member's path still true) or, after makelink's unlink, [unresolved];
   what a step leaves is [confined]: safe unless the step raised the flag. *)
From Coq Require Import List NArith Bool.
Require Import BobV.Gen.ConstsC08 BobV.C08.Model.
Require Export BobV.C08.Fs.
Import ListNotations.
Open Scope N_scope.

Lemma t_stat_ancestor_dir : forall p t r, r <> [] -> t_stat t (p ++ r) <> None ->
  exists m, t_stat t p = Some (SDir m).
Proof.
  unfold t_stat. intros p t r Hr Hs. rewrite t_get_app in Hs.
  destruct (t_get t p) as [[m es|i]|]; [eexists; reflexivity|destruct r|]; contradiction.
Qed.

Lemma kres_nofollow_none : forall fuel fs st cur cs,
  kres fuel fs st false cur cs = None -> kres fuel fs st true cur cs = None.
Proof.
  destruct fuel; simpl; intros fs st cur cs Hk; [reflexivity|].
  apply (kgo_follow _ _ _ _ _ _ Hk). discriminate.
Qed.

(* what the filter's refusal of ".." leaves of a member path; [mkdir_loc_ok] says why it is needed *)
Definition nodd (cs : list name) : Prop := existsb is_dotdot cs = false.

Lemma nodd_app : forall a b, nodd (a ++ b) <-> nodd a /\ nodd b.
Proof. unfold nodd. intros a b. rewrite existsb_app. apply orb_false_iff. Qed.

Lemma plain_nodd : forall cs, plain cs -> nodd cs.
Proof.
  induction cs as [|c cs IH]; intros H; [reflexivity|].
  apply plain_cons in H as [_ [H2 H3]]. unfold nodd. simpl. rewrite H2. apply IH. exact H3.
Qed.

Section Confine.
  Variable ok : path -> bool.
  Hypothesis ok_ext : forall p r, ok p = true -> ok (p ++ r) = true.

  Lemma ok_not_below : forall l q, ok l = true -> ok q = false -> is_prefix l q = false.
  Proof.
    intros l q Hl Hq. destruct (is_prefix l q) eqn:E; auto.
    apply is_prefix_app in E as [r ->]. rewrite (ok_ext _ r Hl) in Hq. discriminate.
  Qed.

  Record inv (fs0 fs : fsys) : Prop := mkInv {
    inv_out : same_outside ok fs0 fs;
    inv_fresh : forall p i, stat fs p = Some (SLeaf i) -> i < f_next fs;
    inv_sep : forall p q i, ok p = true -> ok q = false ->
              stat fs p = Some (SLeaf i) -> stat fs q = Some (SLeaf i) -> False;
    inv_nosym : forall q, ok q = false -> sym_at fs q = None
  }.

  Lemma inv_step : forall fs0 fs fs',
    inv fs0 fs ->
    (forall q, ok q = false -> stat fs' q = stat fs q) ->
    (forall q i, ok q = false -> stat fs q = Some (SLeaf i) -> inode_of fs' i = inode_of fs i) ->
    fresh_ok fs' ->
    (forall p q i, ok p = true -> ok q = false ->
       stat fs' p = Some (SLeaf i) -> stat fs q = Some (SLeaf i) -> False) ->
    inv fs0 fs'.
  Proof.
    intros fs0 fs fs' [Ho Hf Hs Hn] H1 H2 H3 H4. constructor.
    - intros q Hq. destruct (Ho q Hq) as [Ha Hb]. split.
      + rewrite H1 by exact Hq. exact Ha.
      + intros i Hi. rewrite <- Ha in Hi. rewrite (H2 q i Hq Hi). apply Hb. rewrite <- Ha. exact Hi.
    - exact H3.
    - intros p q i Hp Hq Sp Sq. rewrite H1 in Sq by exact Hq. eapply H4; eauto.
    - intros q Hq. rewrite <- (Hn q Hq). apply sym_at_eq; [apply H1; exact Hq|].
      intros i Hi. eapply H2; eauto.
  Qed.

  Lemma inv_put : forall fs0 fs l v,
    inv fs0 fs -> ok l = true ->
    (forall i, v = Some (SLeaf i) -> exists ls, ok ls = true /\ stat fs ls = Some (SLeaf i)) ->
    inv fs0 (put fs l v).
  Proof.
    intros fs0 fs l v Hi Hl Hv. apply (inv_step fs0 fs); auto.
    - intros q Hq. apply stat_put_other, ok_not_below; assumption.
    - intros p j Hp. apply stat_put_leaf in Hp as [Hp|Hp]; [exact (inv_fresh _ _ Hi p j Hp)|].
      destruct (Hv j Hp) as [ls [_ Hs]]. exact (inv_fresh _ _ Hi ls j Hs).
    - intros p q j Hp Hq Sp Sq. apply stat_put_leaf in Sp as [Sp|Sp]; [eapply inv_sep; eauto|].
      destruct (Hv j Sp) as [ls [Hls Hs]]. exact (inv_sep _ _ Hi ls q j Hls Hq Hs Sq).
  Qed.

  Lemma inv_create : forall fs0 fs l v,
    inv fs0 fs -> ok l = true -> inv fs0 (create fs l v).
  Proof.
    intros fs0 fs l v Hi Hl. apply (inv_step fs0 fs); auto.
    - intros q Hq. apply stat_create_other, ok_not_below; assumption.
    - intros q i Hq Sq. apply inode_create_other. exact (inv_fresh _ _ Hi q i Sq).
    - exact (fresh_create fs l v (inv_fresh _ _ Hi)).
    - intros p q i Hp Hq Sp Sq. apply stat_create_leaf in Sp as [Sp| ->].
      + eapply inv_sep; eauto.
      + exact (N.lt_irrefl _ (inv_fresh _ _ Hi q _ Sq)).
  Qed.

  Lemma inv_set_inode : forall fs0 fs l i v,
    inv fs0 fs -> ok l = true -> stat fs l = Some (SLeaf i) -> inv fs0 (set_inode fs i v).
  Proof.
    intros fs0 fs l i v Hi Hl Hs. apply (inv_step fs0 fs); auto.
    - intros q j Hq Sq. apply inode_set_other.
      intros E. subst j. eapply (inv_sep _ _ Hi l q); eauto.
    - exact (inv_fresh _ _ Hi).
    - exact (inv_sep _ _ Hi).
  Qed.
End Confine.

Lemma same_outside_refl : forall ok fs, same_outside ok fs fs.
Proof. intros ok fs p Hp. split; auto. Qed.

Lemma same_outside_trans : forall ok a b c, same_outside ok a b -> same_outside ok b c -> same_outside ok a c.
Proof.
  intros ok a b c H1 H2 p Hp. destruct (H1 p Hp) as [A1 A2]. destruct (H2 p Hp) as [B1 B2]. split.
  - rewrite B1. exact A1.
  - intros i Hi. rewrite B2 by (rewrite A1; exact Hi). apply A2. exact Hi.
Qed.

Lemma same_outside_weaken : forall (ok ok' : path -> bool) a b,
  (forall p, ok' p = false -> ok p = false) -> same_outside ok a b -> same_outside ok' a b.
Proof. intros ok ok' a b H H1 p Hp. apply H1. apply H. exact Hp. Qed.

(* the puts the system calls make (a leaf removed, a leaf put at a free location, a directory made or
   re-moded) leave a directory a directory *)
Lemma is_dir_put : forall fs l v d,
  is_dir fs d = true ->
  match v with
  | None => exists i, stat fs l = Some (SLeaf i)
  | Some (SLeaf _) => stat fs l = None
  | Some (SDir _) => stat fs l = None \/ is_dir fs l = true
  end ->
  is_dir (put fs l v) d = true.
Proof.
  intros fs l v d Hd Hv. unfold is_dir in *.
  destruct (is_prefix l d) eqn:Ep; [|rewrite stat_put_other by exact Ep; exact Hd].
  assert (Hne : stat fs l <> None).
  { intros E. rewrite (stat_none_below fs l d E Ep) in Hd. discriminate. }
  apply is_prefix_app in Ep as [r ->].
  destruct v as [[m'|i]|].
  - destruct Hv as [Hv|Hv]; [contradiction|]. fold (is_dir fs l) in Hv.
    rewrite stat_put_chmod by exact Hv. destruct r; [reflexivity|exact Hd].
  - contradiction.
  - destruct Hv as [i Hv]. destruct r.
    + rewrite app_nil_r, Hv in Hd. discriminate.
    + rewrite (stat_leaf_below fs l i (n :: r) Hv) in Hd by discriminate. discriminate.
Qed.

Lemma is_dir_create : forall fs l v d, is_dir fs d = true -> stat fs l = None -> is_dir (create fs l v) d = true.
Proof.
  intros fs l v d Hd Hn. unfold is_dir. rewrite stat_create.
  exact (is_dir_put fs l (Some (SLeaf (f_next fs))) d Hd Hn).
Qed.

Lemma is_dir_set_inode : forall fs i v d, is_dir (set_inode fs i v) d = is_dir fs d.
Proof. reflexivity. Qed.

Lemma sys_unlink_dir : forall fuel fs cs d, is_dir fs d = true -> is_dir (fst (sys_unlink fuel fs cs)) d = true.
Proof.
  intros. unfold sys_unlink. destruct (kres fuel fs [] false [] cs) as [l|]; auto.
  destruct (stat fs l) as [[m|i]|] eqn:E; auto. simpl. apply is_dir_put; eauto.
Qed.

(* no attributes are applied through links: tarfile itself applies none through a symlink member, and for hard link
   members __extractPackage passes set_attrs=not f.islnk() (07fa59b) *)
Lemma finish_noattrs : forall fuel t m sa r,
  (is_sym (m_kind m) = true \/ sa = false) -> finish fuel t m sa r = r.
Proof.
  intros fuel t m sa [fs st c k] H. unfold finish, apply_attrs.
  assert (E : sa && negb (is_sym (m_kind m)) = false).
  { destruct H as [H|H]; rewrite H; [apply andb_false_r|reflexivity]. }
  rewrite E. destruct st; reflexivity.
Qed.

Lemma finish_nmk : forall fuel t m sa r, x_nmk (finish fuel t m sa r) = x_nmk r.
Proof.
  intros. unfold finish. destruct (x_st r); auto.
  destruct (apply_attrs fuel (x_fs r) t m sa) as [fs2 [|]]; auto.
Qed.

Lemma finish_consumed : forall fuel t m sa r, x_consumed (finish fuel t m sa r) = x_consumed r.
Proof.
  intros. unfold finish. destruct (x_st r); auto.
  destruct (apply_attrs fuel (x_fs r) t m sa) as [fs2 [|]]; auto.
Qed.

Lemma tar_filter_some : forall fuel fs dest m nm,
  tar_filter fuel fs dest m = Some nm ->
  is_abs nm = false /\
  has_dotdot nm = false /\
  inside dest (realpath fuel fs (join_dest dest nm)) = true /\
  (is_lnk (m_kind m) = true -> inside dest (realpath fuel fs (join_dest dest (m_link m))) = true).
Proof.
  intros fuel fs dest m nm. unfold tar_filter.
  set (n0 := if is_abs (m_name m) then lstrip_slash (m_name m) else m_name m).
  assert (Ha : is_abs n0 = false) by (unfold n0; destruct (is_abs (m_name m)) eqn:E; [apply is_abs_lstrip|exact E]).
  destruct (has_dotdot n0) eqn:E1; [discriminate|].
  destruct (inside dest (realpath fuel fs (join_dest dest n0))) eqn:E2; [|discriminate].
  destruct (is_lnk (m_kind m)); cbn [andb negb].
  - destruct (inside dest (realpath fuel fs (join_dest dest (m_link m)))); intros [= <-]; auto.
  - intros [= <-]. repeat apply conj; auto. discriminate.
Qed.

Section Ops.
  Variable ok : path -> bool.
  Hypothesis ok_ext : forall p r, ok p = true -> ok (p ++ r) = true.
  Variable dest : path.
  Hypothesis ok_dest : forall q, is_prefix dest q = true -> ok q = true.
  Variable fuel : nat.

  (* the verdict of _tarExtractFilter about the path cs in state fs *)
  Definition guard (fs : fsys) (cs : list name) : Prop := inside dest (realpath fuel fs cs) = true.

  Lemma guard_ext : forall fs fs' cs, sym_ext fs fs' -> guard fs cs -> guard fs' cs.
  Proof. intros fs fs' cs He Hg. unfold guard in *. rewrite (realpath_ext fuel fs fs' cs He). exact Hg. Qed.

  Lemma loc_follow : forall fs cs l, guard fs cs -> kres fuel fs [] true [] cs = Some l -> ok l = true.
  Proof.
    intros fs cs l Hg Hk. unfold guard in Hg. rewrite (realpath_kres_follow _ _ _ _ Hk) in Hg.
    simpl in Hg. apply ok_dest. exact Hg.
  Qed.

  Lemma loc_nofollow : forall fs0 fs cs l,
    inv ok fs0 fs -> guard fs cs -> kres fuel fs [] false [] cs = Some l -> ok l = true.
  Proof.
    intros fs0 fs cs l Hi Hg Hk. destruct (sym_at fs l) eqn:Es.
    - destruct (ok l) eqn:Eo; auto. rewrite (inv_nosym _ _ _ Hi l Eo) in Es. discriminate.
    - eapply loc_follow; eauto. apply kres_nofollow; assumption.
  Qed.

  Lemma sys_unlink_inv : forall fs0 fs cs,
    inv ok fs0 fs -> guard fs cs -> inv ok fs0 (fst (sys_unlink fuel fs cs)).
  Proof.
    intros fs0 fs cs Hi Hg. unfold sys_unlink.
    destruct (kres fuel fs [] false [] cs) as [l|] eqn:Ek; [|exact Hi].
    pose proof (loc_nofollow _ _ _ _ Hi Hg Ek) as Hl.
    destruct (stat fs l) as [[m|i]|]; simpl; auto. apply inv_put; auto. intros j E. discriminate E.
  Qed.

  (* Why the filter refuses "..": realpath is lexical below a missing location ([pygo_below_missing]), so if nm
     resolves to a missing n and rest has no "..", the realpath the filter accepted for nm ++ rest is
     n ++ nonskip rest; n is then comparable with dest and, dest being there and n not, lies below it.  With ".."
     in rest the realpath may lead back inside while os.makedirs makes n outside (F24, 35e923d). *)
  Lemma mkdir_loc_ok : forall fs nm rest n,
    guard fs (nm ++ rest) -> is_dir fs dest = true -> nodd rest ->
    kres fuel fs [] false [] nm = Some n -> stat fs n = None -> ok n = true.
  Proof.
    intros fs nm rest n Hg Hd Hr Hk Hn.
    pose proof (kres_pyreal _ _ _ _ _ _ (kres_nofollow _ _ _ _ _ _ Hk (sym_at_none fs n Hn))) as Hp.
    unfold guard, realpath in Hg. destruct fuel as [|f]; [discriminate|].
    simpl in Hg, Hp. rewrite pygo_app in Hg. rewrite Hp in Hg.
    rewrite (pygo_below_missing _ _ _ _ _ Hn Hr) in Hg. simpl in Hg.
    apply ok_dest.
    destruct (is_prefix_comparable dest n (n ++ nonskip rest) Hg) as [H|H]; auto.
    { apply is_prefix_app. eexists; reflexivity. }
    unfold is_dir in Hd. rewrite (stat_none_below fs n dest Hn H) in Hd. discriminate.
  Qed.

  Section Member.
    Variable fs0 : fsys.
    Variable t : list name.
    Hypothesis t_nodd : nodd t.

    Definition safe (fs : fsys) : Prop := inv ok fs0 fs /\ is_dir fs dest = true.
    Definition guarded (fs : fsys) : Prop := safe fs /\ guard fs t.
    (* t does not resolve at all: every call on it fails *)
    Definition unresolved (fs : fsys) : Prop := safe fs /\ kres fuel fs [] false [] t = None.
    (* the conclusion of the lemmas about _extract_member from [finish_fallback_safe] to [tar_extract_safe]; the flag
       is discharged for extractions that are not rejected ([bob_extract_extracted]) *)
    Definition confined (r : xres) : Prop := x_nmk r = false -> safe (x_fs r).

    Lemma safe_fresh : forall fs, safe fs -> fresh_ok fs.
    Proof. intros fs [Hi _]. exact (inv_fresh _ _ _ Hi). Qed.

    Lemma safe_put : forall fs l v, safe fs -> ok l = true ->
      match v with
      | None => exists i, stat fs l = Some (SLeaf i)
      | Some (SLeaf i) => stat fs l = None /\ exists ls, ok ls = true /\ stat fs ls = Some (SLeaf i)
      | Some (SDir _) => stat fs l = None \/ is_dir fs l = true
      end -> safe (put fs l v).
    Proof.
      intros fs l v [Hi Hd] Hl Hv. split.
      - apply inv_put; auto. intros i E. subst v. exact (proj2 Hv).
      - apply is_dir_put; [exact Hd|]. destruct v as [[m|i]|]; [exact Hv|exact (proj1 Hv)|exact Hv].
    Qed.

    Lemma safe_create : forall fs l v, safe fs -> ok l = true -> stat fs l = None -> safe (create fs l v).
    Proof. intros fs l v [Hi Hd] Hl Hn. split; [apply inv_create; auto|apply is_dir_create; auto]. Qed.

    Lemma safe_set_inode : forall fs l i v,
      safe fs -> ok l = true -> stat fs l = Some (SLeaf i) -> safe (set_inode fs i v).
    Proof. intros fs l i v [Hi Hd] Hl Hs. split; [eapply inv_set_inode; eauto|exact Hd]. Qed.

    Lemma sys_write_safe : forall fs cs d, safe fs -> guard fs cs -> safe (fst (sys_write fuel fs cs d)).
    Proof.
      intros fs cs d Hs Hg. unfold sys_write.
      destruct (kres fuel fs [] true [] cs) as [l|] eqn:Ek; [|exact Hs].
      pose proof (loc_follow _ _ _ Hg Ek) as Hl.
      destruct (stat fs l) as [[m|i]|] eqn:Es; [exact Hs| |apply safe_create; assumption].
      destruct (inode_of fs i) as [[[] dd mm]|]; try exact Hs. exact (safe_set_inode fs l i _ Hs Hl Es).
    Qed.

    Lemma sys_chmod_safe : forall fs cs m, safe fs -> guard fs cs -> safe (fst (sys_chmod fuel fs cs m)).
    Proof.
      intros fs cs m Hs Hg. unfold sys_chmod.
      destruct (kres fuel fs [] true [] cs) as [l|] eqn:Ek; [|exact Hs].
      pose proof (loc_follow _ _ _ Hg Ek) as Hl.
      destruct (stat fs l) as [[m0|i]|] eqn:Es; [| |exact Hs].
      - apply safe_put; [exact Hs|exact Hl|]. right. exact (is_dir_stat _ _ _ Es).
      - destruct (inode_of fs i) as [[k dd mm]|]; [|exact Hs]. exact (safe_set_inode fs l i _ Hs Hl Es).
    Qed.

    Lemma sys_mknode_safe : forall fs cs v, safe fs -> guard fs cs -> safe (fst (sys_mknode fuel fs cs v)).
    Proof.
      intros fs cs v Hs Hg. unfold sys_mknode.
      destruct (kres fuel fs [] false [] cs) as [l|] eqn:Ek; [|exact Hs].
      pose proof (loc_nofollow _ _ _ _ (proj1 Hs) Hg Ek) as Hl.
      destruct (stat fs l) eqn:Es; [exact Hs|apply safe_create; assumption].
    Qed.

    Lemma sys_link_safe : forall fs src dst,
      safe fs -> guard fs src -> guard fs dst -> safe (fst (sys_link fuel fs src dst)).
    Proof.
      intros fs src dst Hs Hgs Hgd. unfold sys_link.
      destruct (kres fuel fs [] false [] src) as [ls|] eqn:Eks; [|exact Hs].
      pose proof (loc_nofollow _ _ _ _ (proj1 Hs) Hgs Eks) as Hls.
      destruct (stat fs ls) as [[m|i]|] eqn:Ess; try exact Hs.
      destruct (kres fuel fs [] false [] dst) as [ld|] eqn:Ekd; [|exact Hs].
      pose proof (loc_nofollow _ _ _ _ (proj1 Hs) Hgd Ekd) as Hld.
      destruct (stat fs ld) eqn:Esd; [exact Hs|]. apply safe_put; [exact Hs|exact Hld|]. split; [exact Esd|eauto].
    Qed.

    Lemma guarded_ext : forall fs fs', guard fs t -> sym_ext fs fs' -> safe fs' -> guarded fs'.
    Proof. intros fs fs' Hg He Hs. split; [exact Hs|exact (guard_ext fs fs' t He Hg)]. Qed.

    Lemma mkdir_prefix_guarded : forall fs nm rest m,
      guarded fs -> t = nm ++ rest -> nodd rest -> guarded (fst (sys_mkdir fuel fs nm m)).
    Proof.
      intros fs nm rest m [Hs Hg] Ht Hr.
      apply (guarded_ext fs); [exact Hg|apply sys_mkdir_sym_ext|].
      unfold sys_mkdir. destruct (kres fuel fs [] false [] nm) as [l|] eqn:Ek; [|exact Hs].
      destruct (stat fs l) eqn:Es; [exact Hs|]. apply safe_put; [exact Hs| |left; exact Es].
      rewrite Ht in Hg. exact (mkdir_loc_ok fs nm rest l Hg (proj2 Hs) Hr Ek Es).
    Qed.

    Lemma makedirs_rev_guarded : forall r fs,
      guarded fs -> (exists rest, t = rev r ++ rest) -> guarded (fst (makedirs_rev fuel fs r)).
    Proof.
      intros r fs Hg [rest0 Ht]. apply (makedirs_rev_ind guarded); [|exact Hg].
      intros fs1 nm rest m H E. apply (mkdir_prefix_guarded fs1 nm (rest ++ rest0) m H).
      - rewrite Ht, E, <- app_assoc. reflexivity.
      - pose proof t_nodd as Hn. rewrite Ht, E, <- app_assoc in Hn.
        apply nodd_app in Hn as [_ Hn]. exact Hn.
    Qed.

    Lemma finish_safe : forall m sa fs st c k,
      guarded fs -> safe (x_fs (finish fuel t m sa (mkX fs st c k))).
    Proof.
      intros m sa fs st c k [Hs Hg]. unfold finish, apply_attrs. cbn [x_st x_fs].
      destruct st; try exact Hs.
      destruct (sa && negb (is_sym (m_kind m))); [|exact Hs].
      pose proof (sys_chmod_safe fs t (m_mode m) Hs Hg) as H1.
      destruct (sys_chmod fuel fs t (m_mode m)) as [fs1 [e|]]; exact H1.
    Qed.

    Lemma sys_write_guarded : forall fs d, guarded fs -> guarded (fst (sys_write fuel fs t d)).
    Proof.
      intros fs d [Hs Hg].
      apply (guarded_ext fs); [exact Hg|apply sys_write_sym_ext, safe_fresh, Hs|apply sys_write_safe; assumption].
    Qed.

    Lemma sys_mknode_guarded : forall fs v, i_kind v <> KSym -> guarded fs -> guarded (fst (sys_mknode fuel fs t v)).
    Proof.
      intros fs v Hk [Hs Hg].
      apply (guarded_ext fs); [exact Hg| |apply sys_mknode_safe; assumption].
      apply sys_mknode_sym_ext; [exact (safe_fresh fs Hs)|exact Hk].
    Qed.

    (* makelink() of a symlink member: unlink the existing name, then create the
       link at the same path.  Either the path still leads to the freed location
       and the link is made there, or it does not resolve any more (it ran through
       the unlinked link itself). *)
    Lemma unlink_then_mknode : forall fs fs1 v,
      guarded fs -> sys_unlink fuel fs t = (fs1, None) ->
      safe (fst (sys_mknode fuel fs1 t v)) /\
      (forall fs2 e, sys_mknode fuel fs1 t v = (fs2, Some e) -> unresolved fs2).
    Proof.
      intros fs fs1 v [[Hi Hd] Hg] Hu. unfold sys_unlink in Hu.
      destruct (kres fuel fs [] false [] t) as [l|] eqn:Ek; [|discriminate].
      destruct (stat fs l) as [[m|i]|] eqn:Es; try discriminate. injection Hu as <-.
      pose proof (loc_nofollow _ _ _ _ Hi Hg Ek) as Hl.
      assert (Hne : l <> []).
      { intros E. subst l. rewrite (root_leaf_no_dir _ _ dest Es) in Hd. discriminate. }
      assert (Hs1 : safe (put fs l None)) by (apply safe_put; [split; assumption|exact Hl|eauto]).
      unfold sys_mknode.
      destruct (kres fuel (put fs l None) [] false [] t) as [x|] eqn:Ek1.
      - assert (Ex : x = l).
        { destruct (kres_removed fs l Hne fuel [] false [] t x) as [E|E]; [|exact Ek1|exact E|congruence].
          destruct l; [contradiction|reflexivity]. }
        subst x. pose proof (stat_put_gone fs l l Hne (is_prefix_refl l)) as Hgone. rewrite Hgone. simpl.
        split; [apply safe_create; assumption|intros fs2 e H; discriminate].
      - simpl. split; [exact Hs1|].
        intros fs2 e [= <- _]. split; assumption.
    Qed.

    Lemma direct_safe : forall (r : fsys * option oserr) m sa, guarded (fst r) ->
      safe (x_fs (match r with
                  | (fs1, None) => finish fuel t m sa (mkX fs1 MOk false false)
                  | (fs1, Some _) => mkX fs1 MFatal false false
                  end)).
    Proof. intros [fs1 [e|]] m sa H; [exact (proj1 H)|apply finish_safe; exact H]. Qed.

    (* what [tar_extract_safe] has from the filter and the loop for a hard link member: the source passed the filter
       too, and no attributes are asked for; a member found by the fall-back comes with s = None *)
    Definition lnk_cond (fs : fsys) (s : option (list name)) (m : member) (sa : bool) : Prop :=
      m_kind m = MLnk -> match s with None => True | Some src => sa = false /\ guard fs src end.

    Section Body.
      Variable rec : fsys -> member -> xres.
      Hypothesis rec_safe : forall fsx fm, (guarded fsx \/ unresolved fsx) -> confined (rec fsx fm).

      (* the local function of this name in [member_body] *)
      Definition fallback (fsx : fsys) (found : option member) (caught : bool) : xres :=
        match found with
        | None => mkX fsx (if caught then MNonfatal else MFatal) true false
        | Some fm => let r := rec fsx fm in mkX (x_fs r) (x_st r) true (x_nmk r)
        end.

      Lemma finish_fallback_safe : forall m sa fsx found caught,
        (is_sym (m_kind m) = true \/ sa = false) ->
        (guarded fsx \/ unresolved fsx) ->
        confined (finish fuel t m sa (fallback fsx found caught)).
      Proof.
        intros m sa fsx found caught Hm Hg Hk. rewrite finish_noattrs in Hk |- * by exact Hm.
        destruct found as [fm|]; simpl in *; [apply rec_safe; assumption|].
        destruct Hg as [Hg|Hg]; exact (proj1 Hg).
      Qed.

      Lemma body_guarded : forall fs s m sa nested before whole,
        guarded fs -> lnk_cond fs s m sa ->
        confined (member_body rec fuel fs t s m sa nested before whole).
      Proof.
        intros fs s m sa nested before whole HA Hl Hk. unfold member_body in *.
        destruct (m_kind m) eqn:Ekind.
        5-7: (* MFifo, MChr, MBlk *)
          apply direct_safe, sys_mknode_guarded; [unfold mknode_of; rewrite Ekind; discriminate|exact HA].
        - (* MReg *)
          destruct nested; [exact (proj1 HA)|]. apply direct_safe, sys_write_guarded, HA.
        - (* MDir *)
          pose proof (mkdir_prefix_guarded fs t [] 448 HA (eq_sym (app_nil_r t)) eq_refl) as Hw.
          destruct (sys_mkdir fuel fs t 448) as [fs1 [[|]|]];
            [apply finish_safe|exact (proj1 Hw)|apply finish_safe]; exact Hw.
        - (* MSym *)
          assert (Hm : is_sym (m_kind m) = true \/ sa = false) by (left; rewrite Ekind; reflexivity).
          destruct (sys_lexists fuel fs t).
          + destruct (sys_unlink fuel fs t) as [fs1 [e|]] eqn:Eu.
            * apply sys_unlink_fail_same in Eu. subst fs1.
              apply (finish_fallback_safe m sa fs _ true); auto.
            * destruct (unlink_then_mknode fs fs1 (mknode_of m) HA Eu) as [H1 H2].
              destruct (sys_mknode fuel fs1 t (mknode_of m)) as [fs2 [e|]] eqn:Em; simpl in H1.
              { pose proof (H2 fs2 e eq_refl) as HB.
                apply (finish_fallback_safe m sa fs2 _ true); auto. }
              { rewrite finish_noattrs by exact Hm. exact H1. }
          + pose proof (sys_mknode_safe fs t (mknode_of m) (proj1 HA) (proj2 HA)) as H1.
            destruct (sys_mknode fuel fs t (mknode_of m)) as [fs2 [e|]] eqn:Em; simpl in H1.
            * apply sys_mknode_fail_same in Em. subst fs2.
              apply (finish_fallback_safe m sa fs _ true); auto.
            * rewrite finish_noattrs by exact Hm. exact H1.
        - (* MLnk *)
          specialize (Hl Ekind).
          destruct s as [src|]; [|exact (proj1 HA)].
          destruct Hl as [Hsa Hgs]. subst sa.
          assert (Hm : is_sym (m_kind m) = true \/ false = false) by (right; reflexivity).
          destruct (sys_exists fuel fs src).
          + pose proof (sys_link_safe fs src t (proj1 HA) Hgs (proj2 HA)) as H1.
            destruct (sys_link fuel fs src t) as [fs1 [e|]] eqn:El; simpl in H1.
            * apply sys_link_fail_same in El. subst fs1.
              apply (finish_fallback_safe m false fs _ true); auto.
            * rewrite finish_noattrs by exact Hm. exact H1.
          + apply (finish_fallback_safe m false fs _ false); auto.
      Qed.

      Lemma body_unresolved : forall fs m sa before whole,
        unresolved fs ->
        confined (member_body rec fuel fs t None m sa true before whole).
      Proof.
        intros fs m sa before whole HB Hk. pose proof HB as [Hs Hn].
        unfold member_body in *.
        destruct (m_kind m) eqn:Ekind; try exact Hs.
        3-5: unfold sys_mknode; rewrite Hn; simpl; exact Hs.
        - unfold sys_mkdir. rewrite Hn. simpl. exact Hs.
        - assert (Hm : is_sym (m_kind m) = true \/ sa = false) by (left; rewrite Ekind; reflexivity).
          unfold sys_lexists, sys_mknode in Hk |- *. rewrite Hn in Hk |- *. cbv iota beta in Hk |- *.
          rewrite Hn in Hk |- *. cbv iota beta in Hk |- *.
          apply (finish_fallback_safe m sa fs _ true); auto.
      Qed.
    End Body.

    Lemma extract_member_safe : forall depth fs s m sa nested before whole,
      ((guarded fs /\ lnk_cond fs s m sa) \/ (nested = true /\ s = None /\ unresolved fs)) ->
      confined (extract_member depth fuel fs t s m sa nested before whole).
    Proof.
      induction depth as [|d IH]; intros fs s m sa nested before whole Hg Hk.
      - simpl. destruct Hg as [[HA _]|[_ [_ HB]]]; [exact (proj1 HA)|exact (proj1 HB)].
      - cbn [extract_member] in *.
        set (upper := rstrip_empty (removelast t)) in *.
        assert (Hrec : forall fsx fm, guarded fsx \/ unresolved fsx ->
                  confined (extract_member d fuel fsx t None fm true true [] whole)).
        { intros fsx fm [HA|HB] Hx; apply IH; auto. left. split; [exact HA|]. intros _. exact I. }
        destruct (sys_exists fuel fs upper); simpl in Hk |- *.
        + rewrite andb_false_r in Hk. simpl in Hk.
          destruct Hg as [[HA Hl]|[Hn [Hs HB]]].
          * apply body_guarded; auto.
          * subst nested s. apply body_unresolved; auto.
        + rewrite andb_true_r in Hk.
          destruct Hg as [[HA Hl]|[Hn [Hs HB]]].
          2:{ subst nested. exfalso.
              destruct (makedirs fuel fs upper) as [fsm [e|]]; simpl in Hk; discriminate. }
          assert (HAm : guarded (fst (makedirs fuel fs upper))).
          { unfold makedirs. apply makedirs_rev_guarded; [exact HA|].
            rewrite rev_involutive. apply upper_prefix. }
          assert (Hlm : lnk_cond (fst (makedirs fuel fs upper)) s m sa).
          { intros E. specialize (Hl E). destruct s as [src|]; auto. destruct Hl as [H1 H2]. split; auto.
            eapply guard_ext; [|exact H2]. unfold makedirs. apply makedirs_rev_sym_ext. }
          destruct (makedirs fuel fs upper) as [fsm [e|]]; simpl in *.
          * exact (proj1 HAm).
          * apply orb_false_iff in Hk as [_ Hk]. apply body_guarded; auto.
    Qed.
  End Member.

  Section Extract.
    Hypothesis dest_nodd : nodd dest.
    Variable fs0 : fsys.

    Lemma tar_extract_safe : forall fs m sa before whole,
      safe fs0 fs ->
      (m_kind m = MLnk -> sa = false) ->
      confined fs0 (tar_extract fuel fs dest m sa before whole).
    Proof.
      intros fs m sa before whole Hs Hsa Hk. unfold tar_extract in *.
      destruct (tar_filter fuel fs dest m) as [nm|] eqn:Ef; [|exact Hs].
      apply tar_filter_some in Ef as [Hna [Edd [Ein Hlnk]]].
      unfold join_dest in Ein. rewrite Hna in Ein.
      set (t := rstrip_empty (dest ++ comps_of nm)) in *.
      assert (Hnodd : nodd t).
      { assert (H : nodd (dest ++ comps_of nm)).
        { apply nodd_app. split; [exact dest_nodd|exact Edd]. }
        destruct (rstrip_empty_split (dest ++ comps_of nm)) as [e [He _]]. fold t in He. rewrite He in H.
        apply nodd_app in H. exact (proj1 H). }
      apply extract_member_safe; auto.
      left. split.
      - split; [exact Hs|]. unfold guard, t. rewrite realpath_rstrip. exact Ein.
      - intros Ek. simpl in Ek. rewrite Ek. simpl. split; [apply Hsa; exact Ek|].
        apply Hlnk. rewrite Ek. reflexivity.
    Qed.
  End Extract.
End Ops.

(* the member as handed to TarFile.extract: "content/" taken off its name and hard link target *)
Definition stripped (f : member) : member :=
  mkMember (drop8 (m_name f)) (m_kind f) (if is_lnk (m_kind f) then drop8 (m_link f) else m_link f)
           (m_mode f) (m_data f).

(* the loop ends when the extraction was fatal or had to search the archive (the next tar.next() raises) *)
Definition stops (r : xres) : bool := match x_st r with MFatal => true | _ => x_consumed r end.

Lemma extract_loop_content : forall fuel fs audit dest done f rest,
  starts_with CONTENT_PREFIX (m_name f) = true ->
  is_lnk (m_kind f) && negb (starts_with CONTENT_PREFIX (m_link f)) = false ->
  extract_loop fuel fs audit dest done (f :: rest) =
  let r := tar_extract fuel fs dest (stripped f) (negb (is_lnk (m_kind f))) done (rev rest ++ stripped f :: done) in
  if stops r then (x_fs r, Rejected, x_nmk r)
  else let '(fs2, o, k) := extract_loop fuel (x_fs r) audit dest (stripped f :: done) rest in (fs2, o, x_nmk r || k).
Proof.
  (* unfolded without zeta, here and below: the rewrites then meet the member's extraction once, not once per use *)
  intros fuel fs audit dest done f rest H1 H2. cbn iota delta [extract_loop]. rewrite H1, H2. fold (stripped f).
  cbv zeta. set (r := tar_extract fuel fs dest (stripped f) (negb (is_lnk (m_kind f))) done (rev rest ++ stripped f :: done)).
  unfold stops. destruct (x_st r); destruct (x_consumed r); reflexivity.
Qed.

Section TarHelper.
  Variable dest audit : path.
  Hypothesis dest_plain : plain dest.
  Hypothesis audit_plain : plain audit.
  Hypothesis Hda : is_prefix dest audit = false.
  Hypothesis Had : is_prefix audit dest = false.

  Lemma allowed_ext : forall p r, allowed dest audit p = true -> allowed dest audit (p ++ r) = true.
  Proof.
    unfold allowed. intros p r H. apply orb_true_iff in H as [H|H];
      rewrite (is_prefix_app_r _ _ r H); [reflexivity|apply orb_true_r].
  Qed.

  Lemma below_dest_not_audit : forall p, is_prefix dest p = true -> is_prefix audit p = false.
  Proof. exact (fun p => is_prefix_disjoint dest audit p Hda Had). Qed.

  Lemma below_audit_not_dest : forall p, is_prefix audit p = true -> is_prefix dest p = false.
  Proof. exact (fun p => is_prefix_disjoint audit dest p Had Hda). Qed.

  Lemma dest_nonempty : dest <> [].
  Proof. exact (not_prefix_nonempty dest audit Hda). Qed.
  Lemma audit_nonempty : audit <> [].
  Proof. exact (not_prefix_nonempty audit dest Had). Qed.

  Lemma ancestor_outside : forall d x b, d = dest \/ d = audit -> d = x ++ b -> b <> [] ->
    is_prefix dest x = false /\ is_prefix audit x = false.
  Proof.
    intros d x b Hd E Hb.
    assert (Hx : is_prefix x d = true) by (apply is_prefix_app; exists b; exact E).
    assert (Hn : is_prefix d x = false) by (eapply proper_prefix_not_below; eauto).
    (* what x is below, d is below: d itself is excluded by Hn, the other of the two by Hda, Had *)
    split; [destruct (is_prefix dest x) eqn:H|destruct (is_prefix audit x) eqn:H]; auto;
      pose proof (is_prefix_trans _ _ _ H Hx); destruct Hd; subst d; congruence.
  Qed.

  Lemma remove_path_gone : forall fuel fs p q, p <> [] -> is_prefix p q = true -> stat (remove_path fuel fs p) q = None.
  Proof.
    intros fuel fs p q Hp Hq. unfold remove_path. destruct (stat fs p) eqn:Es.
    - apply stat_put_gone; assumption.
    - exact (stat_none_below fs p q Es Hq).
  Qed.

  Lemma remove_path_other : forall fuel fs p q, is_prefix p q = false -> stat (remove_path fuel fs p) q = stat fs q.
  Proof. intros fuel fs p q Hq. unfold remove_path. destruct (stat fs p); [apply stat_put_other; exact Hq|reflexivity]. Qed.

  Lemma remove_path_ino : forall fuel fs p i, inode_of (remove_path fuel fs p) i = inode_of fs i.
  Proof. intros. unfold remove_path. destruct (stat fs p); reflexivity. Qed.

  Lemma remove_path_fresh : forall fuel fs p, fresh_ok fs -> fresh_ok (remove_path fuel fs p).
  Proof.
    intros fuel fs p Hf. unfold remove_path. destruct (stat fs p); [|exact Hf].
    apply fresh_put; [exact Hf|discriminate].
  Qed.

  Lemma remove_path_outside : forall fuel fs p, allowed dest audit p = true ->
    same_outside (allowed dest audit) fs (remove_path fuel fs p).
  Proof.
    intros fuel fs p Hp q Hq. split; [|intros; apply remove_path_ino].
    apply remove_path_other. apply (ok_not_below (allowed dest audit) allowed_ext); assumption.
  Qed.

  (* the state after the old audit file and workspace are removed and the
     workspace is made again ([remove_path] does not use its fuel) *)
  Definition prologue (fs : fsys) : fsys :=
    put (remove_path 0 (remove_path 0 fs audit) dest) dest (Some (SDir DEFAULT_DIR_MODE)).

  Record prepared (fs fs3 : fsys) : Prop := mkPrepared {
    p_dest : stat fs3 dest = Some (SDir DEFAULT_DIR_MODE);
    p_straight : straight fs3 dest;
    p_below : forall r, r <> [] -> stat fs3 (dest ++ r) = None;
    p_audit : forall q, is_prefix audit q = true -> stat fs3 q = None;
    p_other : forall q, is_prefix dest q = false -> is_prefix audit q = false -> stat fs3 q = stat fs q;
    p_ino : forall i, inode_of fs3 i = inode_of fs i;
    p_fresh : fresh_ok fs -> fresh_ok fs3
  }.

  Lemma prologue_prepared : forall fuel fuel' fs,
    dirs_to fs dest ->
    makedirs (S fuel) (remove_path fuel' (remove_path fuel' fs audit) dest) dest = (prologue fs, None) /\
    prepared fs (prologue fs).
  Proof.
    intros fuel fuel' fs Hanc. unfold prologue.
    change (remove_path fuel' (remove_path fuel' fs audit) dest) with (remove_path 0 (remove_path 0 fs audit) dest).
    set (fs2 := remove_path 0 (remove_path 0 fs audit) dest).
    assert (G2 : forall q, is_prefix dest q = true \/ is_prefix audit q = true -> stat fs2 q = None).
    { intros q [Hq|Hq]; [apply remove_path_gone; [exact dest_nonempty|exact Hq]|].
      unfold fs2. rewrite remove_path_other by (apply below_audit_not_dest; exact Hq).
      apply remove_path_gone; [exact audit_nonempty|exact Hq]. }
    assert (O2 : forall q, is_prefix dest q = false -> is_prefix audit q = false -> stat fs2 q = stat fs q).
    { intros q H1 H2. unfold fs2. rewrite !remove_path_other by assumption. reflexivity. }
    assert (D2 : dirs_to fs2 dest).
    { intros x b E Hb. destruct (ancestor_outside dest x b (or_introl eq_refl) E Hb) as [H1 H2].
      unfold is_dir. rewrite (O2 x H1 H2). exact (Hanc x b E Hb). }
    assert (Nd : stat fs2 dest = None) by (apply G2; left; apply is_prefix_refl).
    assert (S2 : straight fs2 dest) by (constructor; auto using sym_at_none).
    split; [apply eff_makedirs; assumption|].
    constructor.
    - apply stat_put_same; [exact D2|exact dest_nonempty].
    - exact (straight_put_dir fs2 dest _ S2 dest_nonempty).
    - intros r Hr. apply stat_put_below; auto using is_prefix_refl.
    - intros q Hq. rewrite stat_put_other by (apply below_audit_not_dest; exact Hq). auto.
    - intros q H1 H2. rewrite stat_put_other by exact H1. auto.
    - intros i. exact (eq_trans (remove_path_ino 0 _ dest i) (remove_path_ino 0 fs audit i)).
    - intros Hf. apply fresh_put; [do 2 apply remove_path_fresh; exact Hf|discriminate].
  Qed.

  Lemma prepared_outside : forall fs fs3, prepared fs fs3 -> same_outside (allowed dest audit) fs fs3.
  Proof.
    intros fs fs3 HP q Hq. unfold allowed in Hq. apply orb_false_iff in Hq as [H1 H2].
    split; [apply (p_other _ _ HP); assumption|intros; apply (p_ino _ _ HP)].
  Qed.

  Variable fuel : nat.

  (* l_audit is for a repeated audit member: it writes into the file the first one made, which must not be a name
     of an inode that has others ([audit_step]) *)
  Record linv (fs : fsys) : Prop := mkLinv {
    l_inv : inv (is_prefix dest) fs fs;
    l_dir : is_dir fs dest = true;
    l_audit : forall i, stat fs audit = Some (SLeaf i) ->
              (exists d m, inode_of fs i = Some (mkInode KReg d m)) /\
              (forall q, stat fs q = Some (SLeaf i) -> q = audit)
  }.

  Lemma prepared_linv : forall fs fs3, prepared fs fs3 -> fresh_ok fs ->
    (forall q, allowed dest audit q = false -> sym_at fs q = None) -> linv fs3.
  Proof.
    intros fs fs3 HP Hf Hsym.
    assert (Hin : forall p i, is_prefix dest p = true -> stat fs3 p <> Some (SLeaf i)).
    { intros p i Hp H. apply is_prefix_app in Hp as [r ->]. destruct r.
      - rewrite app_nil_r, (p_dest _ _ HP) in H. discriminate.
      - rewrite (p_below _ _ HP) in H; discriminate. }
    constructor.
    - constructor.
      + apply same_outside_refl.
      + exact (p_fresh _ _ HP Hf).
      + intros p q i Hp Hq Sp Sq. exact (Hin p i Hp Sp).
      + intros q Hq. destruct (is_prefix audit q) eqn:Ea; [apply sym_at_none, (p_audit _ _ HP); exact Ea|].
        rewrite <- (Hsym q) by (unfold allowed; rewrite Hq, Ea; reflexivity).
        apply sym_at_eq; [apply (p_other _ _ HP); assumption|intros; apply (p_ino _ _ HP)].
    - exact (is_dir_stat _ _ _ (p_dest _ _ HP)).
    - intros i H. rewrite (p_audit _ _ HP audit (is_prefix_refl _)) in H. discriminate.
  Qed.

  Lemma member_step : forall fs m sa before whole,
    linv fs -> (m_kind m = MLnk -> sa = false) ->
    x_nmk (tar_extract fuel fs dest m sa before whole) = false ->
    linv (x_fs (tar_extract fuel fs dest m sa before whole)) /\
    same_outside (allowed dest audit) fs (x_fs (tar_extract fuel fs dest m sa before whole)).
  Proof.
    intros fs m sa before whole [Hi Hd Ha] Hsa Hk.
    destruct (tar_extract_safe (is_prefix dest) (fun p r => is_prefix_app_r dest p r) dest (fun q H => H)
                fuel (plain_nodd _ dest_plain) fs fs m sa before whole (conj Hi Hd) Hsa Hk) as [Hi' Hd'].
    set (fs' := x_fs (tar_extract fuel fs dest m sa before whole)) in *.
    destruct (inv_out _ _ _ Hi' audit Hda) as [Ea Eb].
    split.
    2:{ apply (same_outside_weaken (is_prefix dest)); [|exact (inv_out _ _ _ Hi')].
        unfold allowed. intros p H. apply orb_false_iff in H. exact (proj1 H). }
    constructor.
    - destruct Hi' as [H1 H2 H3 H4]. constructor; auto. apply same_outside_refl.
    - exact Hd'.
    - intros i Sa. rewrite Ea in Sa. destruct (Ha i Sa) as [[d [mm Hreg]] Hown]. split.
      + exists d, mm. rewrite (Eb i Sa). exact Hreg.
      + intros q Sq. destruct (is_prefix dest q) eqn:Eq.
        * exfalso. apply (inv_sep _ _ _ Hi' q audit i Eq Hda Sq). rewrite Ea. exact Sa.
        * destruct (inv_out _ _ _ Hi' q Eq) as [Eq1 _]. rewrite Eq1 in Sq. exact (Hown q Sq).
  Qed.

  Lemma audit_walk : forall fs x, linv fs -> kres fuel fs [] true [] audit = Some x -> x = audit.
  Proof.
    intros fs x [Hi Hd Hau] Hk. apply kres_nolink in Hk; auto.
    intros a b E Ha. destruct b as [|c b].
    - rewrite app_nil_r in E. subst a. unfold sym_at.
      destruct (stat fs audit) as [[m|i]|]; auto. destruct (Hau i eq_refl) as [[d [m Hreg]] _]. rewrite Hreg. reflexivity.
    - apply (inv_nosym _ _ _ Hi). apply (ancestor_outside audit a (c :: b)); auto. discriminate.
  Qed.

  Lemma audit_step : forall fs d,
    linv fs ->
    linv (fst (sys_write fuel fs audit d)) /\ same_outside (allowed dest audit) fs (fst (sys_write fuel fs audit d)).
  Proof.
    intros fs d HL. pose proof HL as [Hi Hd _].
    assert (Hsame : linv fs /\ same_outside (allowed dest audit) fs fs) by (split; [exact HL|apply same_outside_refl]).
    unfold sys_write. destruct (kres fuel fs [] true [] audit) as [l|] eqn:Ek; [|exact Hsame].
    apply (audit_walk fs l HL) in Ek. subst l.
    destruct (stat fs audit) as [[m|i]|] eqn:Es; [exact Hsame| |].
    - destruct (inode_of fs i) as [[[] dd mm]|] eqn:Ei; try exact Hsame.
      destruct (l_audit fs HL i Es) as [_ Hown].
      cbn [fst]. split.
      + constructor; [|exact Hd|].
        * destruct Hi as [H1 H2 H3 H4]. constructor; auto; [apply same_outside_refl|].
          intros q Hq. rewrite <- (H4 q Hq).
          apply (sym_ext_set_inode fs i (mkInode KReg d mm) (mkInode KReg dd mm) Ei); simpl; discriminate.
        * intros j Sj. change (stat fs audit = Some (SLeaf j)) in Sj. rewrite Es in Sj. injection Sj as <-.
          split; [exists d, mm; apply inode_set_same|exact Hown].
      + intros q Hq. split; [reflexivity|]. intros j Sj. apply inode_set_other. intros E. subst j.
        rewrite (Hown q Sj) in Hq. unfold allowed in Hq. rewrite is_prefix_refl, orb_true_r in Hq. discriminate.
    - cbn [fst]. set (v := mkInode KReg d DEFAULT_FILE_MODE).
      pose proof (inv_fresh _ _ _ Hi) as Hf.
      pose proof (stat_create_leaf fs audit v) as Hleaf.
      split.
      + constructor.
        * constructor.
          { apply same_outside_refl. }
          { exact (fresh_create fs audit v Hf). }
          { intros p q j Hp Hq Sp Sq. rewrite stat_create_other in Sp by (apply below_dest_not_audit; exact Hp).
            destruct (Hleaf q j Sq) as [H| ->]; [exact (inv_sep _ _ _ Hi p q j Hp Hq Sp H)|].
            exact (N.lt_irrefl _ (Hf p _ Sp)). }
          { intros q Hq. rewrite (sym_ext_create fs audit v Hf Es ltac:(discriminate) q).
            exact (inv_nosym _ _ _ Hi q Hq). }
        * apply is_dir_create; assumption.
        * intros j Sa. destruct (Hleaf audit j Sa) as [H|H]; [congruence|]. subst j.
          split; [exists d, DEFAULT_FILE_MODE; apply inode_create_same|].
          intros q Sq. eapply create_leaf_unique; eauto.
      + intros q Hq. unfold allowed in Hq. apply orb_false_iff in Hq as [_ Hq]. split.
        * apply stat_create_other. exact Hq.
        * intros j Sj. apply inode_create_other. exact (Hf q j Sj).
  Qed.

  Lemma loop_confined : forall todo fs done,
    linv fs -> snd (extract_loop fuel fs audit dest done todo) = false ->
    same_outside (allowed dest audit) fs (fst (fst (extract_loop fuel fs audit dest done todo))).
  Proof.
    induction todo as [|f rest IH]; intros fs done HL Hk; [apply same_outside_refl|].
    destruct (starts_with CONTENT_PREFIX (m_name f)) eqn:E1.
    - destruct (is_lnk (m_kind f) && negb (starts_with CONTENT_PREFIX (m_link f))) eqn:E2.
      { cbn iota delta [extract_loop]. rewrite E1, E2. apply same_outside_refl. }
      rewrite (extract_loop_content fuel fs audit dest done f rest E1 E2) in *.
      set (r := tar_extract fuel fs dest (stripped f) (negb (is_lnk (m_kind f))) done (rev rest ++ stripped f :: done)) in *.
      assert (Hsa : m_kind (stripped f) = MLnk -> negb (is_lnk (m_kind f)) = false).
      { simpl. intros E. rewrite E. reflexivity. }
      pose proof (member_step fs (stripped f) _ done (rev rest ++ stripped f :: done) HL Hsa : x_nmk r = false -> _) as Hstep.
      cbv zeta in *. destruct (stops r); [apply Hstep; exact Hk|].
      destruct (extract_loop fuel (x_fs r) audit dest (stripped f :: done) rest) as [[fs2 o] k] eqn:El. cbn [fst snd] in *.
      apply orb_false_iff in Hk as [Hk1 Hk2]. destruct (Hstep Hk1) as [H1 H2].
      eapply same_outside_trans; [exact H2|].
      specialize (IH (x_fs r) (stripped f :: done) H1). rewrite El in IH. apply IH. exact Hk2.
    - cbn iota delta [extract_loop] in *. rewrite E1 in *.
      destruct (str_eqb (m_name f) AUDIT_NAME).
      + destruct (m_kind f); try apply same_outside_refl.
        destruct (audit_step fs (m_data f) HL) as [H1 H2].
        destruct (sys_write fuel fs audit (m_data f)) as [fs1 [e|]]; simpl in *; [exact H2|].
        eapply same_outside_trans; [exact H2|]. apply IH; assumption.
      + destruct (str_eqb (m_name f) CONTENT_NAME || str_eqb (m_name f) META_NAME); [|apply same_outside_refl].
        apply IH; assumption.
  Qed.
End TarHelper.

(* only the fall-back of makelink raises the flag, and it consumes the stream *)
Definition flag_consumes (r : xres) : Prop := x_nmk r = true -> x_consumed r = true.

Lemma member_body_flag : forall rec fuel fs t s m sa nested before whole,
  flag_consumes (member_body rec fuel fs t s m sa nested before whole).
Proof.
  intros rec fuel fs t s m sa nested before whole. unfold flag_consumes, member_body. cbv beta zeta.
  assert (Hfb : forall fsx found caught, x_consumed (finish fuel t m sa (fallback rec fsx found caught)) = true).
  { intros fsx found caught. rewrite finish_consumed. destruct found; reflexivity. }
  destruct (m_kind m).
  5-7: destruct (sys_mknode fuel fs t (mknode_of m)) as [fs1 [e|]]; [|rewrite finish_nmk]; discriminate.
  - destruct nested; [discriminate|].
    destruct (sys_write fuel fs t (m_data m)) as [fs1 [e|]]; [|rewrite finish_nmk]; discriminate.
  - destruct (sys_mkdir fuel fs t 448) as [fs1 [[|]|]]; try rewrite finish_nmk; discriminate.
  - destruct (if sys_lexists fuel fs t then sys_unlink fuel fs t else (fs, None)) as [fs1 [e1|]]; [intros _; apply (Hfb _ _ true)|].
    destruct (sys_mknode fuel fs1 t (mknode_of m)) as [fs2 [e|]]; [intros _; apply (Hfb _ _ true)|].
    rewrite finish_nmk. discriminate.
  - destruct s as [src|]; [|discriminate].
    destruct (sys_exists fuel fs src); [|intros _; apply (Hfb _ _ false)].
    destruct (sys_link fuel fs src t) as [fs1 [e|]]; [intros _; apply (Hfb _ _ true)|].
    rewrite finish_nmk. discriminate.
Qed.

Lemma extract_member_flag : forall depth fuel fs t s m sa before whole,
  flag_consumes (extract_member depth fuel fs t s m sa false before whole).
Proof.
  intros depth fuel fs t s m sa before whole. unfold flag_consumes. destruct depth; [discriminate|].
  cbn [extract_member]. rewrite andb_false_l.
  destruct (if negb (sys_exists fuel fs (rstrip_empty (removelast t)))
            then makedirs fuel fs (rstrip_empty (removelast t)) else (fs, None)) as [fsm [e|]]; [discriminate|].
  apply member_body_flag.
Qed.

Lemma tar_extract_flag : forall fuel fs dest m sa before whole,
  flag_consumes (tar_extract fuel fs dest m sa before whole).
Proof.
  intros fuel fs dest m sa before whole. unfold flag_consumes, tar_extract.
  destruct (tar_filter fuel fs dest m) as [nm|]; [apply extract_member_flag|discriminate].
Qed.

Lemma extract_loop_extracted : forall fuel todo fs audit dest done,
  snd (fst (extract_loop fuel fs audit dest done todo)) = Extracted ->
  snd (extract_loop fuel fs audit dest done todo) = false /\ forallb classified todo = true.
Proof.
  intros fuel. induction todo as [|f rest IH]; intros fs audit dest done; [split; reflexivity|].
  cbn [forallb]. unfold classified at 1.
  destruct (starts_with CONTENT_PREFIX (m_name f)) eqn:E1.
  - destruct (is_lnk (m_kind f) && negb (starts_with CONTENT_PREFIX (m_link f))) eqn:E2.
    { cbn iota delta [extract_loop]. rewrite E1, E2. discriminate. }
    rewrite (extract_loop_content fuel fs audit dest done f rest E1 E2). cbv zeta.
    set (r := tar_extract fuel fs dest (stripped f) (negb (is_lnk (m_kind f))) done (rev rest ++ stripped f :: done)).
    destruct (stops r) eqn:Es; [discriminate|].
    assert (Hn : x_nmk r = false).
    { destruct (x_nmk r) eqn:En; [|reflexivity]. apply tar_extract_flag in En. fold r in En.
      unfold stops in Es. rewrite En in Es. destruct (x_st r); discriminate. }
    specialize (IH (x_fs r) audit dest (stripped f :: done)).
    destruct (extract_loop fuel (x_fs r) audit dest (stripped f :: done) rest) as [[fs2 o] k].
    rewrite Hn. exact IH.
  - cbn iota delta [extract_loop]. rewrite E1. cbn [orb]. destruct (str_eqb (m_name f) AUDIT_NAME); cbn [orb].
    + destruct (m_kind f); try discriminate.
      destruct (sys_write fuel fs audit (m_data f)) as [fs1 [e|]]; [discriminate|]. apply IH.
    + destruct (str_eqb (m_name f) CONTENT_NAME || str_eqb (m_name f) META_NAME); [apply IH|discriminate].
Qed.

Lemma bob_extract_extracted : forall fuel fs audit dest a,
  snd (fst (bob_extract fuel fs audit dest a)) = Extracted ->
  snd (bob_extract fuel fs audit dest a) = false /\
  a_pax a = Some VSN_ONE /\ forallb classified (a_members a) = true /\ a_tail_ok a = true.
Proof.
  intros fuel fs audit dest a. unfold bob_extract.
  destruct (makedirs fuel (remove_path fuel (remove_path fuel fs audit) dest) dest) as [fs3 [e|]]; [discriminate|].
  destruct (a_pax a) as [v|]; [|discriminate].
  destruct (str_eqb v VSN_ONE) eqn:Ev; [|discriminate].
  apply str_eqb_eq in Ev. subst v.
  pose proof (extract_loop_extracted fuel (a_members a) fs3 audit dest []) as H.
  destruct (extract_loop fuel fs3 audit dest [] (a_members a)) as [[fs4 o] k].
  destruct o; [|discriminate]. destruct (a_tail_ok a); [|discriminate].
  intros _. destruct (H eq_refl) as [H1 H2]. auto.
Qed.
