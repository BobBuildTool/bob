(* C08 — the file system of the model and path resolution in it.

   A change made by [put], [create] or [set_inode] is described by what [stat]
   and [inode_of] show at, below and away from the changed location (for
   [put]: [stat_put_at] and [stat_put_other]; [create] is the [put] of a leaf
   with a new inode).  The kernel's walk [kres] is related to os.path.realpath
   [pyreal] once ([kres_pyreal]); realpath looks only at which locations are
   symbolic links, so it cannot tell apart states related by [sym_ext].  On a
   [straight] path (canonical, through directories only, the root among them)
   both walks are the identity and the system calls are equations
   ([eff_mkdir] ...). *)
From Coq Require Import List NArith Bool.
Require BobV.Common.ListFacts.
Require Import BobV.C08.Model.
Import ListNotations.
Open Scope N_scope.

Lemma str_eqb_refl : forall a, str_eqb a a = true.
Proof. exact (ListFacts.list_eqb_refl _ _ N.eqb_spec). Qed.

Lemma str_eqb_eq : forall a b, str_eqb a b = true <-> a = b.
Proof. exact (ListFacts.list_eqb_eq _ _ N.eqb_spec). Qed.

Lemma str_eqb_neq : forall a b, str_eqb a b = false <-> a <> b.
Proof. intros a b. rewrite <- str_eqb_eq. symmetry. apply not_true_iff_false. Qed.

Lemma path_eqb_eq : forall a b, path_eqb a b = true <-> a = b.
Proof. exact (ListFacts.list_eqb_eq _ _ (ListFacts.list_eqb_spec _ _ N.eqb_spec)). Qed.

Lemma is_prefix_refl : forall p, is_prefix p p = true.
Proof. induction p; simpl; auto. rewrite str_eqb_refl; auto. Qed.

Lemma is_prefix_app : forall d p, is_prefix d p = true <-> exists r, p = d ++ r.
Proof.
  induction d; simpl; intros p.
  - split; eauto.
  - destruct p; split; intros Hh; try discriminate.
    + destruct Hh as [r Hr]. discriminate.
    + apply andb_true_iff in Hh as [H1 H2]. apply str_eqb_eq in H1. apply IHd in H2 as [r ->]. subst. eauto.
    + destruct Hh as [r Hr]. injection Hr as <- ->. rewrite str_eqb_refl. simpl. apply IHd. eauto.
Qed.

Lemma is_prefix_trans : forall a b c, is_prefix a b = true -> is_prefix b c = true -> is_prefix a c = true.
Proof.
  intros a b c H1 H2. apply is_prefix_app in H1 as [r1 ->]. apply is_prefix_app in H2 as [r2 ->].
  apply is_prefix_app. exists (r1 ++ r2). rewrite app_assoc. reflexivity.
Qed.

Lemma is_prefix_app_r : forall d p r, is_prefix d p = true -> is_prefix d (p ++ r) = true.
Proof. intros d p r Hh. apply is_prefix_app in Hh as [x ->]. apply is_prefix_app. exists (x ++ r). rewrite app_assoc; auto. Qed.

Lemma proper_prefix_not_below : forall (p a b : path), p = a ++ b -> b <> [] -> is_prefix p a = false.
Proof.
  intros p a b E Hb. destruct (is_prefix p a) eqn:H; auto. apply is_prefix_app in H as [r ->]. elim Hb.
  rewrite <- app_assoc in E. apply (app_eq_nil r), (app_inv_head p). rewrite app_nil_r. symmetry. exact E.
Qed.

Lemma is_prefix_comparable : forall a b p, is_prefix a p = true -> is_prefix b p = true ->
  is_prefix a b = true \/ is_prefix b a = true.
Proof.
  induction a; simpl; intros b p Ha Hb; auto.
  destruct b; simpl; auto. destruct p; try discriminate. simpl in Hb.
  apply andb_true_iff in Ha as [A1 A2]. apply andb_true_iff in Hb as [B1 B2].
  apply str_eqb_eq in A1. apply str_eqb_eq in B1. subst. rewrite str_eqb_refl. simpl. exact (IHa b p A2 B2).
Qed.

Lemma is_prefix_disjoint : forall a b p,
  is_prefix a b = false -> is_prefix b a = false -> is_prefix a p = true -> is_prefix b p = false.
Proof.
  intros a b p Hab Hba Ha. destruct (is_prefix b p) eqn:Hb; auto.
  destruct (is_prefix_comparable a b p Ha Hb); congruence.
Qed.

Lemma not_prefix_nonempty : forall a b : path, is_prefix a b = false -> a <> [].
Proof. intros a b H ->. discriminate. Qed.

Lemma is_prefix_snoc : forall l cur c,
  is_prefix l (cur ++ [c]) = true -> is_prefix l cur = false -> l = cur ++ [c].
Proof.
  induction l as [|x l IH]; intros cur c H1 H2; simpl in *; [discriminate|].
  destruct cur as [|y cur]; simpl in *.
  - apply andb_true_iff in H1 as [E H1]. apply str_eqb_eq in E. subst.
    destruct l; [reflexivity|discriminate].
  - apply andb_true_iff in H1 as [E H1]. rewrite E in H2. simpl in H2.
    apply str_eqb_eq in E. subst. f_equal. apply IH; assumption.
Qed.

Lemma is_prefix_removelast : forall l cur, is_prefix l cur = false -> is_prefix l (removelast cur) = false.
Proof.
  intros l cur H. destruct (is_prefix l (removelast cur)) eqn:E; auto.
  destruct cur as [|x cur']; [simpl in E; congruence|].
  rewrite (app_removelast_last x (l:=x :: cur')) in H by discriminate.
  rewrite (is_prefix_app_r _ _ _ E) in H. discriminate.
Qed.

Lemma is_prefix_sibling : forall (t : path) n n' r, n <> n' -> is_prefix (t ++ [n]) (t ++ n' :: r) = false.
Proof.
  induction t as [|c t IH]; intros n n' r H; simpl.
  - rewrite (proj2 (str_eqb_neq n n') H). reflexivity.
  - rewrite str_eqb_refl. simpl. apply IH. exact H.
Qed.

Lemma is_prefix_child_parent : forall (t : path) n, is_prefix (t ++ [n]) t = false.
Proof. intros. apply (proper_prefix_not_below (t ++ [n]) t [n]); [reflexivity|discriminate]. Qed.

Lemma not_below_sub : forall (l l' q : path), is_prefix l l' = true -> is_prefix l q = false -> is_prefix l' q = false.
Proof.
  intros l l' q Hl Hq. destruct (is_prefix l' q) eqn:E; auto.
  rewrite (is_prefix_trans _ _ _ Hl E) in Hq. discriminate.
Qed.

Lemma plain_cons : forall c cs, plain (c :: cs) -> skip_comp c = false /\ is_dotdot c = false /\ plain cs.
Proof.
  unfold plain. intros c cs H. simpl in H. apply andb_true_iff in H as [H1 H2].
  apply andb_true_iff in H1 as [H3 H4]. apply negb_true_iff in H3. apply negb_true_iff in H4. auto.
Qed.

Lemma not_skipped : forall c, skip_comp c = false -> is_nil c = false /\ str_eqb c n_dot = false.
Proof.
  intros c H. unfold skip_comp in H. apply orb_false_iff in H as [H1 H2]. split; [|exact H2].
  destruct c; [discriminate|reflexivity].
Qed.

Lemma is_nil_skip : forall c : name, is_nil c = true -> skip_comp c = true.
Proof. intros c H. destruct c; [reflexivity|discriminate]. Qed.

Lemma plain_app : forall a b, plain (a ++ b) <-> plain a /\ plain b.
Proof. unfold plain. intros a b. rewrite forallb_app. apply andb_true_iff. Qed.

Lemma drop_empty_front_plain : forall r, plain (rev r) -> drop_empty_front r = r.
Proof.
  intros r H. destruct r as [|c r]; [reflexivity|]. simpl in *. apply plain_app in H as [_ H].
  apply plain_cons in H as [H _]. apply not_skipped in H as [H _]. rewrite H. reflexivity.
Qed.

Lemma plain_rstrip : forall cs, plain cs -> rstrip_empty cs = cs.
Proof.
  intros cs H. unfold rstrip_empty. rewrite drop_empty_front_plain by (rewrite rev_involutive; exact H).
  apply rev_involutive.
Qed.

(* the components [rstrip_empty] drops ([rstrip_empty_split]); realpath passes over them ([realpath_rstrip]) *)
Definition all_empty (e : list name) : Prop := forallb (@is_nil N) e = true.

Lemma drop_empty_front_split : forall r, exists e, r = e ++ drop_empty_front r /\ all_empty e.
Proof.
  induction r as [|c r IH]; simpl; [exists []; split; reflexivity|].
  destruct (is_nil c) eqn:E; [|exists []; split; reflexivity].
  destruct IH as [e [He Ha]]. exists (c :: e). split; [simpl; f_equal; exact He|].
  unfold all_empty in *. simpl. rewrite E, Ha. reflexivity.
Qed.

Lemma all_empty_rev : forall e, all_empty e -> all_empty (rev e).
Proof.
  unfold all_empty. intros e H. rewrite forallb_forall in *. intros x Hx. apply H. apply in_rev. exact Hx.
Qed.

Lemma rstrip_empty_split : forall cs, exists e, cs = rstrip_empty cs ++ e /\ all_empty e.
Proof.
  intros cs. unfold rstrip_empty. destruct (drop_empty_front_split (rev cs)) as [e [He Ha]].
  exists (rev e). split; [|apply all_empty_rev; exact Ha].
  rewrite <- rev_app_distr. rewrite <- He. rewrite rev_involutive. reflexivity.
Qed.

Lemma upper_prefix : forall t, exists rest, t = rstrip_empty (removelast t) ++ rest.
Proof.
  intros t. destruct (rstrip_empty_split (removelast t)) as [e [He _]].
  destruct t as [|x t']; [exists []; reflexivity|].
  exists (e ++ [last (x :: t') x]). rewrite app_assoc. rewrite <- He.
  apply app_removelast_last. discriminate.
Qed.

Lemma is_abs_lstrip : forall s, is_abs (lstrip_slash s) = false.
Proof.
  induction s as [|c r IH]; simpl; auto.
  destruct (c =? SLASH) eqn:E; [exact IH|]. simpl. exact E.
Qed.

Lemma lexnorm_acc_app : forall a b acc, lexnorm_acc (a ++ b) acc = lexnorm_acc b (lexnorm_acc a acc).
Proof.
  induction a as [|c a IH]; intros b acc; simpl; [reflexivity|].
  destruct (skip_comp c); [apply IH|]. destruct (is_dotdot c); apply IH.
Qed.

Lemma lexnorm_acc_empty : forall e acc, all_empty e -> lexnorm_acc e acc = acc.
Proof.
  induction e as [|c e IH]; intros acc H; simpl; [reflexivity|].
  unfold all_empty in H. simpl in H. apply andb_true_iff in H as [H1 H2].
  rewrite (is_nil_skip c H1). apply IH. exact H2.
Qed.

Lemma assoc_del_other : forall A n n' (es : list (name * A)),
  str_eqb n' n = false -> assoc n' (assoc_del n es) = assoc n' es.
Proof.
  induction es as [|[k w] r IH]; simpl; intros Hne; auto.
  destruct (str_eqb n k) eqn:E.
  - apply str_eqb_eq in E. subst k. rewrite Hne. auto.
  - simpl. destruct (str_eqb n' k); auto.
Qed.

Lemma assoc_del_same : forall A n (es : list (name * A)), assoc n (assoc_del n es) = None.
Proof.
  induction es as [|[k w] r IH]; simpl; auto.
  destruct (str_eqb n k) eqn:E; auto. simpl. rewrite E. auto.
Qed.

Lemma assoc_set_other : forall A n n' (v : option A) es,
  str_eqb n' n = false -> assoc n' (assoc_set n v es) = assoc n' es.
Proof.
  induction es as [|[k w] r IH]; simpl; intros Hne.
  - destruct v; simpl; auto. rewrite Hne; auto.
  - destruct (str_eqb n k) eqn:E.
    + apply str_eqb_eq in E. subst k. rewrite Hne.
      destruct v; simpl; [rewrite Hne|]; apply assoc_del_other; exact Hne.
    + simpl. destruct (str_eqb n' k); auto.
Qed.

Lemma assoc_set_same : forall A n (v : option A) es, assoc n (assoc_set n v es) = v.
Proof.
  induction es as [|[k w] r IH]; simpl.
  - destruct v; simpl; auto. rewrite str_eqb_refl; auto.
  - destruct (str_eqb n k) eqn:E.
    + destruct v; simpl; [rewrite E; auto|apply assoc_del_same].
    + simpl. rewrite E. auto.
Qed.

Lemma assoc_in : forall A n (es : list (name * A)) v, assoc n es = Some v -> In (n, v) es.
Proof.
  induction es as [|[k w] r IH]; intros v H; simpl in *; [discriminate|].
  destruct (str_eqb n k) eqn:E.
  - apply str_eqb_eq in E. subst k. injection H as <-. left. reflexivity.
  - right. apply IH. exact H.
Qed.

Lemma assoc_none_notin : forall A n (es : list (name * A)), assoc n es = None -> ~ In n (map fst es).
Proof.
  induction es as [|[k w] r IH]; intros H; simpl in *; [tauto|].
  destruct (str_eqb n k) eqn:E; [discriminate|]. intros [H1|H1].
  - subst k. rewrite str_eqb_refl in E. discriminate.
  - apply IH; assumption.
Qed.

Lemma t_stat_dir_cons : forall m es n r,
  t_stat (TDir m es) (n :: r) = match assoc n es with Some c => t_stat c r | None => None end.
Proof. intros. unfold t_stat. simpl. destruct (assoc n es); reflexivity. Qed.

Lemma t_get_app : forall p t r,
  t_get t (p ++ r) = match t_get t p with Some c => t_get c r | None => None end.
Proof.
  induction p as [|n p IH]; intros t r; simpl; [reflexivity|].
  destruct t as [m es|i]; [|reflexivity]. destruct (assoc n es); [apply IH|reflexivity].
Qed.

Lemma t_get_put_cons : forall m es n r v n' q,
  t_get (t_put (TDir m es) (n :: r) v) (n' :: q) =
  if str_eqb n' n then
    match r with
    | [] => match node_put (assoc n es) v with Some c => t_get c q | None => None end
    | _ :: _ => match assoc n es with Some c => t_get (t_put c r v) q | None => None end
    end
  else t_get (TDir m es) (n' :: q).
Proof.
  intros m es n r v n' q. destruct (str_eqb n' n) eqn:E.
  - apply str_eqb_eq in E. subst n'. destruct r as [|n2 r2]; cbn [t_put].
    + cbn [t_get]. rewrite assoc_set_same. reflexivity.
    + destruct (assoc n es) as [c|] eqn:Ea; cbn [t_get]; [rewrite assoc_set_same|rewrite Ea]; reflexivity.
  - destruct r as [|n2 r2]; cbn [t_put]; [|destruct (assoc n es) as [c|]; [|reflexivity]];
      cbn [t_get]; rewrite assoc_set_other by exact E; reflexivity.
Qed.

Lemma t_stat_put_other : forall p t v q,
  is_prefix p q = false -> t_stat (t_put t p v) q = t_stat t q.
Proof.
  unfold t_stat. induction p as [|n r IH]; intros t v q Hq; [discriminate|].
  destruct t as [m es|i]; [|reflexivity].
  destruct q as [|n' q']; [simpl; destruct r; [reflexivity|destruct (assoc n es); reflexivity]|].
  rewrite t_get_put_cons. destruct (str_eqb n' n) eqn:En; [|reflexivity].
  apply str_eqb_eq in En. subst n'. simpl in Hq. rewrite str_eqb_refl in Hq.
  destruct r as [|n2 r2]; [discriminate|]. cbn [t_get]. destruct (assoc n es); [apply IH; exact Hq|reflexivity].
Qed.

Lemma t_get_put_below : forall p n t v r,
  t_get (t_put t (p ++ [n]) v) ((p ++ [n]) ++ r) =
  match t_get t p with
  | Some (TDir _ es) => match node_put (assoc n es) v with Some c => t_get c r | None => None end
  | _ => None
  end.
Proof.
  induction p as [|c p IH]; intros n t v r; (destruct t as [m es|i]; [|reflexivity]); cbn [app].
  - rewrite t_get_put_cons, str_eqb_refl. reflexivity.
  - rewrite t_get_put_cons, str_eqb_refl. cbn [t_get].
    destruct (p ++ [n]) eqn:E; [destruct p; discriminate|]. rewrite <- E.
    destruct (assoc c es); [apply IH|reflexivity].
Qed.

Lemma stat_create : forall fs l v q, stat (create fs l v) q = stat (put fs l (Some (SLeaf (f_next fs)))) q.
Proof. reflexivity. Qed.

Lemma missing_not_root : forall fs t, stat fs t = None -> t <> [].
Proof. intros fs t H ->. discriminate. Qed.

Lemma root_leaf_no_dir : forall fs i d, stat fs [] = Some (SLeaf i) -> is_dir fs d = false.
Proof.
  intros fs i d H. unfold is_dir, stat, t_stat in *. simpl in H.
  destruct (f_root fs) as [m es|j]; [discriminate|]. destruct d; reflexivity.
Qed.

Lemma stat_none_below : forall fs p q, stat fs p = None -> is_prefix p q = true -> stat fs q = None.
Proof.
  intros fs p q Hn Hq. apply is_prefix_app in Hq as [r ->]. unfold stat, t_stat in *. rewrite t_get_app.
  destruct (t_get (f_root fs) p); [discriminate|reflexivity].
Qed.

Lemma not_below_missing : forall fs loc q, stat fs loc = None -> stat fs q <> None -> is_prefix loc q = false.
Proof.
  intros fs loc q Hn Hq. destruct (is_prefix loc q) eqn:E; auto.
  elim Hq. exact (stat_none_below fs loc q Hn E).
Qed.

Lemma stat_leaf_below : forall fs p i r, stat fs p = Some (SLeaf i) -> r <> [] -> stat fs (p ++ r) = None.
Proof.
  intros fs p i r H Hr. unfold stat, t_stat in *. rewrite t_get_app.
  destruct (t_get (f_root fs) p) as [[m es|j]|]; try discriminate. destruct r; [contradiction|reflexivity].
Qed.

Lemma parent_is_dir : forall fs p n, stat fs (p ++ [n]) <> None -> is_dir fs p = true.
Proof.
  intros fs p n H. unfold is_dir, stat, t_stat in *. rewrite t_get_app in H.
  destruct (t_get (f_root fs) p) as [[m es|i]|]; [reflexivity|elim H; reflexivity..].
Qed.

Lemma sym_at_eq : forall fs fs' q,
  stat fs' q = stat fs q ->
  (forall i, stat fs q = Some (SLeaf i) -> inode_of fs' i = inode_of fs i) ->
  sym_at fs' q = sym_at fs q.
Proof.
  intros fs fs' q Hs Hi. unfold sym_at. rewrite Hs.
  destruct (stat fs q) as [[m|i]|]; auto. rewrite (Hi i eq_refl). reflexivity.
Qed.

Lemma sym_at_none : forall fs q, stat fs q = None -> sym_at fs q = None.
Proof. intros fs q H. unfold sym_at. rewrite H. reflexivity. Qed.

Lemma is_dir_stat : forall fs p m, stat fs p = Some (SDir m) -> is_dir fs p = true.
Proof. intros fs p m H. unfold is_dir. rewrite H. reflexivity. Qed.

Lemma is_dir_exists : forall fs p, is_dir fs p = true -> stat fs p <> None.
Proof. intros fs p H. unfold is_dir in H. destruct (stat fs p); discriminate. Qed.

Lemma is_dir_not_sym : forall fs p, is_dir fs p = true -> sym_at fs p = None.
Proof. intros fs p H. unfold is_dir in H. unfold sym_at. destruct (stat fs p) as [[m|i]|]; try discriminate. reflexivity. Qed.

Lemma stat_put_other : forall fs l v q, is_prefix l q = false -> stat (put fs l v) q = stat fs q.
Proof. intros. apply t_stat_put_other. assumption. Qed.

Lemma stat_create_other : forall fs l v q, is_prefix l q = false -> stat (create fs l v) q = stat fs q.
Proof. intros. rewrite stat_create. apply stat_put_other. assumption. Qed.

Lemma stat_put_at : forall fs p n v r,
  stat (put fs (p ++ [n]) v) ((p ++ [n]) ++ r) =
  if is_dir fs p then
    match v, r with
    | None, _ => None
    | Some x, [] => Some x
    | Some (SLeaf _), _ :: _ => None
    | Some (SDir _), _ :: _ => if is_dir fs (p ++ [n]) then stat fs ((p ++ [n]) ++ r) else None
    end
  else None.
Proof.
  intros fs p n v r. unfold is_dir, stat, t_stat. cbn [put f_root].
  rewrite t_get_put_below, !t_get_app.
  destruct (t_get (f_root fs) p) as [[m es|i]|]; try reflexivity. cbn [t_get option_map shallow].
  destruct v as [[m'|i]|]; [|destruct r; reflexivity|reflexivity].
  destruct (assoc n es) as [[m0 ces|j]|]; destruct r; reflexivity.
Qed.

Lemma stat_put_leaf : forall fs l v q i,
  stat (put fs l v) q = Some (SLeaf i) -> stat fs q = Some (SLeaf i) \/ v = Some (SLeaf i).
Proof.
  intros fs l v q i Hq. destruct (is_prefix l q) eqn:Ep; [|rewrite stat_put_other in Hq by exact Ep; auto].
  destruct l as [|n p _] using rev_ind.
  - left. revert Hq. unfold stat, t_stat. cbn [put f_root]. destruct (f_root fs) as [m es|j]; [|auto].
    destruct v as [[m'|j]|]; auto. destruct q; [discriminate|auto].
  - apply is_prefix_app in Ep as [r ->]. rewrite stat_put_at in Hq. destruct (is_dir fs p); [|discriminate].
    destruct v as [[m'|j]|]; [|destruct r; [right; exact Hq|]|]; try discriminate.
    destruct r; [discriminate|]. destruct (is_dir fs (p ++ [n])); [auto|discriminate].
Qed.

Lemma stat_create_leaf : forall fs l v p j,
  stat (create fs l v) p = Some (SLeaf j) -> stat fs p = Some (SLeaf j) \/ j = f_next fs.
Proof.
  intros fs l v p j H. rewrite stat_create in H. apply stat_put_leaf in H as [H|H]; [auto|injection H as <-; auto].
Qed.

Lemma fresh_put : forall fs l v,
  fresh_ok fs -> (forall i, v = Some (SLeaf i) -> i < f_next fs) -> fresh_ok (put fs l v).
Proof. intros fs l v Hf Hv p i H. apply stat_put_leaf in H as [H|H]; [exact (Hf p i H)|exact (Hv i H)]. Qed.

Lemma fresh_create : forall fs l v, fresh_ok fs -> fresh_ok (create fs l v).
Proof.
  intros fs l v Hf p j H. apply stat_create_leaf in H as [H| ->]; [apply N.lt_lt_succ_r, (Hf p j H)|apply N.lt_succ_diag_r].
Qed.

Lemma stat_put_new : forall fs l v q, stat fs l = None -> is_prefix l q = true ->
  stat (put fs l v) q = None \/ (q = l /\ stat (put fs l v) q = v).
Proof.
  intros fs l v q Hn Hq. destruct (exists_last (missing_not_root fs l Hn)) as [p [n ->]].
  apply is_prefix_app in Hq as [r ->]. rewrite stat_put_at. unfold is_dir at 2. rewrite Hn.
  destruct (is_dir fs p); [|auto]. destruct v as [[m|i]|]; [| |auto]; (destruct r; [right; rewrite app_nil_r|]; auto).
Qed.

Lemma stat_put_below : forall fs l v r, stat fs l = None -> r <> [] -> stat (put fs l v) (l ++ r) = None.
Proof.
  intros fs l v r Hn Hr.
  destruct (stat_put_new fs l v (l ++ r) Hn) as [H|[H _]]; [apply is_prefix_app_r, is_prefix_refl|exact H|].
  elim Hr. apply (app_inv_head l). rewrite app_nil_r. exact H.
Qed.

Lemma stat_put_gone : forall fs l q, l <> [] -> is_prefix l q = true -> stat (put fs l None) q = None.
Proof.
  intros fs l q Hl Hq. destruct (exists_last Hl) as [p [n ->]]. apply is_prefix_app in Hq as [r ->].
  rewrite stat_put_at. destruct (is_dir fs p); reflexivity.
Qed.

Lemma create_leaf_unique : forall fs l v q,
  fresh_ok fs -> stat fs l = None -> stat (create fs l v) q = Some (SLeaf (f_next fs)) -> q = l.
Proof.
  intros fs l v q Hf Hn Hq. rewrite stat_create in Hq. destruct (is_prefix l q) eqn:Ep.
  - destruct (stat_put_new fs l (Some (SLeaf (f_next fs))) q Hn Ep) as [H|[E _]]; [rewrite H in Hq; discriminate|exact E].
  - rewrite stat_put_other in Hq by exact Ep. elim (N.lt_irrefl _ (Hf q _ Hq)).
Qed.

Lemma stat_put_chmod : forall fs l m r, is_dir fs l = true ->
  stat (put fs l (Some (SDir m))) (l ++ r) = match r with [] => Some (SDir m) | _ :: _ => stat fs (l ++ r) end.
Proof.
  intros fs l m r Hd. destruct l as [|c l' _] using rev_ind.
  - unfold is_dir, stat, t_stat in *. cbn [put f_root app].
    destruct (f_root fs) as [m0 es|]; [|discriminate]. destruct r; reflexivity.
  - rewrite stat_put_at, Hd, (parent_is_dir fs l' c); [destruct r; reflexivity|exact (is_dir_exists _ _ Hd)].
Qed.

(* the middle field of [straight]; for the workspace it is a premise of the property theorems, spelled out there *)
Definition dirs_to (fs : fsys) (p : path) : Prop :=
  forall a b, p = a ++ b -> b <> [] -> is_dir fs a = true.

Lemma stat_put_same : forall fs t v, dirs_to fs t -> t <> [] -> stat (put fs t (Some v)) t = Some v.
Proof.
  intros fs t v Hd Hne. destruct (exists_last Hne) as [p [n ->]].
  pose proof (stat_put_at fs p n (Some v) []) as E. rewrite app_nil_r, (Hd p [n] eq_refl) in E by discriminate.
  rewrite E. destruct v; reflexivity.
Qed.

Lemma stat_create_same : forall fs t v, dirs_to fs t -> t <> [] -> stat (create fs t v) t = Some (SLeaf (f_next fs)).
Proof. intros fs t v. rewrite stat_create. apply stat_put_same. Qed.

Lemma ino_get_set_same : forall tab i v, ino_get (ino_set tab i v) i = Some v.
Proof.
  induction tab as [|[k w] r IH]; intros i v; simpl.
  - rewrite N.eqb_refl. reflexivity.
  - destruct (k =? i) eqn:E; simpl; rewrite E; auto.
Qed.

Lemma ino_get_set_other : forall tab i j v, i <> j -> ino_get (ino_set tab i v) j = ino_get tab j.
Proof.
  induction tab as [|[k w] r IH]; intros i j v Hne; simpl.
  - rewrite (proj2 (N.eqb_neq i j) Hne). reflexivity.
  - destruct (k =? i) eqn:E; simpl.
    + apply N.eqb_eq in E. subst k. rewrite (proj2 (N.eqb_neq i j) Hne). reflexivity.
    + destruct (k =? j); auto.
Qed.

Lemma inode_create_same : forall fs l v, inode_of (create fs l v) (f_next fs) = Some v.
Proof. intros. apply ino_get_set_same. Qed.

Lemma inode_create_other : forall fs l v j, j < f_next fs -> inode_of (create fs l v) j = inode_of fs j.
Proof. intros fs l v j Hj. apply ino_get_set_other, N.neq_sym, N.lt_neq, Hj. Qed.

Lemma inode_set_same : forall fs i v, inode_of (set_inode fs i v) i = Some v.
Proof. intros. apply ino_get_set_same. Qed.

Lemma inode_set_other : forall fs i j v, i <> j -> inode_of (set_inode fs i v) j = inode_of fs j.
Proof. intros. apply ino_get_set_other. assumption. Qed.

Definition sym_ext (fs fs' : fsys) : Prop := forall q, sym_at fs' q = sym_at fs q.

Lemma sym_ext_refl : forall fs, sym_ext fs fs.
Proof. intros fs q. reflexivity. Qed.

Lemma sym_ext_trans : forall a b c, sym_ext a b -> sym_ext b c -> sym_ext a c.
Proof. intros a b c H1 H2 q. rewrite H2. apply H1. Qed.

Lemma sym_ext_put_dir : forall fs l m, stat fs l = None -> sym_ext fs (put fs l (Some (SDir m))).
Proof.
  intros fs l m Hn q. destruct (is_prefix l q) eqn:Ep.
  - rewrite (sym_at_none fs q (stat_none_below fs l q Hn Ep)). unfold sym_at.
    destruct (stat_put_new fs l (Some (SDir m)) q Hn Ep) as [H|[_ H]]; rewrite H; reflexivity.
  - unfold sym_at. rewrite stat_put_other by exact Ep. reflexivity.
Qed.

Lemma sym_ext_create : forall fs l v,
  fresh_ok fs -> stat fs l = None -> i_kind v <> KSym -> sym_ext fs (create fs l v).
Proof.
  intros fs l v Hf Hn Hk q. unfold sym_at at 1. rewrite stat_create. destruct (is_prefix l q) eqn:Ep.
  - rewrite (sym_at_none fs q (stat_none_below fs l q Hn Ep)).
    destruct (stat_put_new fs l (Some (SLeaf (f_next fs))) q Hn Ep) as [H|[_ H]]; rewrite H; [reflexivity|].
    rewrite inode_create_same. destruct v as [[] d m]; simpl in *; congruence.
  - rewrite stat_put_other by exact Ep. unfold sym_at.
    destruct (stat fs q) as [[m|i]|] eqn:Es; auto. rewrite inode_create_other; [reflexivity|exact (Hf q i Es)].
Qed.

Lemma sym_ext_set_inode : forall fs i v w,
  inode_of fs i = Some w -> i_kind w <> KSym -> i_kind v <> KSym -> sym_ext fs (set_inode fs i v).
Proof.
  intros fs i v w Hw Hkw Hkv q. unfold sym_at. change (stat (set_inode fs i v) q) with (stat fs q).
  destruct (stat fs q) as [[m|j]|]; auto. destruct (N.eq_dec i j) as [E|E].
  - subst j. rewrite inode_set_same, Hw.
    transitivity (@None str); [destruct v as [[] d m]|destruct w as [[] d' m']]; simpl in *; congruence.
  - rewrite inode_set_other by exact E. reflexivity.
Qed.

Lemma kgo_pygo : forall (kr : kres_t) (pr : pyres_t) fs,
  (forall st c cs q, kr st c cs = Some q -> pr st c cs = Some (q, true)) ->
  forall cs st cur L, kgo kr fs st true cs cur = Some L -> pygo pr fs st cs cur = Some (L, true).
Proof.
  intros kr pr fs Hrec. induction cs as [|c rest IH]; intros st cur L Hk; simpl in *.
  - injection Hk as <-. reflexivity.
  - destruct (skip_comp c); [apply IH; exact Hk|].
    destruct (is_dotdot c); [apply IH; exact Hk|].
    destruct (sym_at fs (cur ++ [c])) as [tgt|].
    + rewrite andb_false_r in Hk.
      destruct (mem_path (cur ++ [c]) st); [discriminate|].
      destruct (kr ((cur ++ [c]) :: st) (link_base tgt cur) (comps_of tgt)) as [q|] eqn:Er; [|discriminate].
      rewrite (Hrec _ _ _ _ Er).
      destruct rest as [|c2 r2].
      * injection Hk as <-. reflexivity.
      * destruct (is_dir fs q); [|discriminate]. apply IH; exact Hk.
    + destruct (stat fs (cur ++ [c])) as [[m|i]|].
      * apply IH; exact Hk.
      * destruct rest; [|discriminate]. injection Hk as <-. reflexivity.
      * destruct rest; [|discriminate]. injection Hk as <-. reflexivity.
Qed.

Lemma kres_pyreal : forall fuel fs st cur cs L,
  kres fuel fs st true cur cs = Some L -> pyreal fuel fs st cur cs = Some (L, true).
Proof.
  induction fuel as [|f IH]; intros fs st cur cs L Hk; simpl in *; [discriminate|].
  eapply kgo_pygo; [|exact Hk]. intros st' c cs' q Hq. apply IH. exact Hq.
Qed.

Lemma realpath_kres_follow : forall fuel fs cs L,
  kres fuel fs [] true [] cs = Some L -> realpath fuel fs cs = Some L.
Proof. intros. unfold realpath. rewrite (kres_pyreal _ _ _ _ _ _ H). reflexivity. Qed.

(* stated for any result r: r = Some L gives [kres_nofollow], r = None gives [kres_nofollow_none] in Proofs.v *)
Lemma kgo_follow : forall kr fs cs st cur r,
  kgo kr fs st false cs cur = r -> (forall L, r = Some L -> sym_at fs L = None) ->
  kgo kr fs st true cs cur = r.
Proof.
  intros kr fs. induction cs as [|c rest IH]; intros st cur r; simpl; [auto|].
  destruct (skip_comp c); [apply IH|].
  destruct (is_dotdot c); [apply IH|].
  destruct (sym_at fs (cur ++ [c])) as [tgt|] eqn:Es.
  - destruct rest as [|c2 r2]; simpl.
    + intros <- H. rewrite (H _ eq_refl) in Es. discriminate.
    + destruct (mem_path (cur ++ [c]) st); [auto|].
      destruct (kr ((cur ++ [c]) :: st) (link_base tgt cur) (comps_of tgt)) as [q|]; [|auto].
      destruct (is_dir fs q); [apply IH|auto].
  - destruct (stat fs (cur ++ [c])) as [[m|i]|]; [apply IH|auto..].
Qed.

Lemma kres_nofollow : forall fuel fs st cur cs L,
  kres fuel fs st false cur cs = Some L -> sym_at fs L = None -> kres fuel fs st true cur cs = Some L.
Proof.
  destruct fuel; simpl; intros fs st cur cs L Hk Hs; [discriminate|].
  apply (kgo_follow _ _ _ _ _ _ Hk). intros L' [= <-]. exact Hs.
Qed.

Lemma pygo_ext : forall (pr pr' : pyres_t) fs fs',
  sym_ext fs fs' ->
  (forall st c cs, pr' st c cs = pr st c cs) ->
  forall cs st cur, pygo pr' fs' st cs cur = pygo pr fs st cs cur.
Proof.
  intros pr pr' fs fs' Hs Hr. induction cs as [|c rest IH]; intros st cur; simpl; [reflexivity|].
  destruct (skip_comp c); [apply IH|].
  destruct (is_dotdot c); [apply IH|].
  rewrite Hs. destruct (sym_at fs (cur ++ [c])) as [tgt|]; [|apply IH].
  destruct (mem_path (cur ++ [c]) st); [reflexivity|].
  rewrite Hr. destruct (pr ((cur ++ [c]) :: st) (link_base tgt cur) (comps_of tgt)) as [[q [|]]|]; auto.
Qed.

Lemma pyreal_ext : forall fuel fs fs',
  sym_ext fs fs' ->
  forall st cur cs, pyreal fuel fs' st cur cs = pyreal fuel fs st cur cs.
Proof.
  induction fuel as [|f IH]; intros fs fs' Hs st cur cs; simpl; [reflexivity|].
  apply pygo_ext; [exact Hs|]. intros. apply IH. exact Hs.
Qed.

Lemma realpath_ext : forall fuel fs fs' cs, sym_ext fs fs' -> realpath fuel fs' cs = realpath fuel fs cs.
Proof. intros. unfold realpath. rewrite (pyreal_ext fuel fs fs') by assumption. reflexivity. Qed.

Lemma pygo_app : forall (rec : pyres_t) fs st a b cur,
  pygo rec fs st (a ++ b) cur =
  match pygo rec fs st a cur with
  | Some (q, true) => pygo rec fs st b q
  | Some (q, false) => Some (q ++ b, false)
  | None => None
  end.
Proof.
  intros rec fs st. induction a as [|c a IH]; intros b cur; simpl; [reflexivity|].
  destruct (skip_comp c); [apply IH|].
  destruct (is_dotdot c); [apply IH|].
  destruct (sym_at fs (cur ++ [c])) as [tgt|]; [|apply IH].
  destruct (mem_path (cur ++ [c]) st).
  - rewrite app_assoc. reflexivity.
  - destruct (rec ((cur ++ [c]) :: st) (link_base tgt cur) (comps_of tgt)) as [[q [|]]|]; auto.
    rewrite app_assoc. reflexivity.
Qed.

(* what realpath appends below a missing location ([pygo_below_missing]) *)
Definition nonskip (cs : list name) : list name := filter (fun c => negb (skip_comp c)) cs.

(* realpath goes on lexically below a missing location: the reason the filter has to refuse "..", see [mkdir_loc_ok]
   in Proofs.v *)
Lemma pygo_below_missing : forall (rec : pyres_t) fs st b n,
  stat fs n = None -> existsb is_dotdot b = false -> pygo rec fs st b n = Some (n ++ nonskip b, true).
Proof.
  intros rec fs st. induction b as [|c b IH]; intros n Hn Hd; simpl.
  - rewrite app_nil_r. reflexivity.
  - simpl in Hd. apply orb_false_iff in Hd as [Hc Hb].
    destruct (skip_comp c); simpl; [apply IH; assumption|].
    rewrite Hc.
    assert (Hp : stat fs (n ++ [c]) = None).
    { apply (stat_none_below fs n); [exact Hn|apply is_prefix_app_r, is_prefix_refl]. }
    unfold sym_at. rewrite Hp. rewrite IH by assumption. rewrite <- app_assoc. reflexivity.
Qed.

Lemma pygo_all_empty : forall (rec : pyres_t) fs st e cur, all_empty e -> pygo rec fs st e cur = Some (cur, true).
Proof.
  intros rec fs st. induction e as [|c e IH]; intros cur H; simpl; [reflexivity|].
  unfold all_empty in H. simpl in H. apply andb_true_iff in H as [H1 H2].
  rewrite (is_nil_skip c H1). apply IH. exact H2.
Qed.

Lemma realpath_rstrip : forall fuel fs cs, realpath fuel fs (rstrip_empty cs) = realpath fuel fs cs.
Proof.
  intros fuel fs cs. destruct (rstrip_empty_split cs) as [e [He Ha]]. revert He. generalize (rstrip_empty cs). intros s ->.
  unfold realpath. destruct fuel as [|f]; [reflexivity|]. simpl. rewrite pygo_app.
  destruct (pygo (fun st c cs0 => pyreal f fs st c cs0) fs [] s []) as [[q [|]]|]; auto.
  - rewrite pygo_all_empty by exact Ha. reflexivity.
  - unfold lexnorm. rewrite (lexnorm_acc_app q e []). rewrite (lexnorm_acc_empty e _ Ha). reflexivity.
Qed.

Lemma pygo_nolink : forall (rec : pyres_t) fs st cs cur,
  plain cs ->
  (forall a b, cs = a ++ b -> a <> [] -> sym_at fs (cur ++ a) = None) ->
  pygo rec fs st cs cur = Some (cur ++ cs, true).
Proof.
  intros rec fs st. induction cs as [|c rest IH]; intros cur Hp Hs; simpl.
  - rewrite app_nil_r. reflexivity.
  - apply plain_cons in Hp as [H1 [H2 H3]]. rewrite H1, H2.
    rewrite (Hs [c] rest eq_refl ltac:(discriminate)).
    rewrite IH; auto.
    + rewrite <- app_assoc. reflexivity.
    + intros a b E Ha. rewrite <- app_assoc. simpl. apply (Hs (c :: a) b); [rewrite E; reflexivity|discriminate].
Qed.

Lemma kres_nolink : forall fuel fs cs x,
  plain cs -> (forall a b, cs = a ++ b -> a <> [] -> sym_at fs a = None) ->
  kres fuel fs [] true [] cs = Some x -> x = cs.
Proof.
  intros fuel fs cs x Hp Hs Hk. apply kres_pyreal in Hk. destruct fuel; [discriminate|].
  simpl in Hk. rewrite pygo_nolink in Hk by assumption. injection Hk as <-. reflexivity.
Qed.

Lemma kgo_dirs : forall (rec : kres_t) fs st fw cs cur,
  plain cs ->
  (forall a b, cs = a ++ b -> a <> [] -> b <> [] -> is_dir fs (cur ++ a) = true) ->
  sym_at fs (cur ++ cs) = None ->
  kgo rec fs st fw cs cur = Some (cur ++ cs).
Proof.
  intros rec fs st fw. induction cs as [|c rest IH]; intros cur Hp Hd Hs; simpl.
  - rewrite app_nil_r. reflexivity.
  - apply plain_cons in Hp as [H1 [H2 H3]]. rewrite H1, H2.
    destruct rest as [|c2 r2].
    + rewrite Hs. destruct (stat fs (cur ++ [c])) as [[m|i]|]; reflexivity.
    + assert (Hdc : is_dir fs (cur ++ [c]) = true) by (apply (Hd [c] (c2 :: r2)); [reflexivity|discriminate|discriminate]).
      rewrite (is_dir_not_sym _ _ Hdc). unfold is_dir in Hdc.
      destruct (stat fs (cur ++ [c])) as [[m|i]|]; try discriminate.
      rewrite IH; auto.
      * rewrite <- app_assoc. reflexivity.
      * intros a b E Ha Hb. rewrite <- app_assoc. simpl. apply (Hd (c :: a) b); [rewrite E; reflexivity|discriminate|exact Hb].
      * rewrite <- app_assoc. exact Hs.
Qed.

(* the paths of the round trip: every member of a packed tree arrives on one ([ready] in Roundtrip.v), and the
   prologue leaves the workspace on one ([p_straight] in Proofs.v) *)
Record straight (fs : fsys) (p : path) : Prop := mkStraight {
  st_plain : plain p;
  st_dirs : dirs_to fs p;
  st_nosym : sym_at fs p = None
}.

Lemma kres_straight : forall fuel fs fw p, straight fs p -> kres (S fuel) fs [] fw [] p = Some p.
Proof. intros fuel fs fw p [H1 H2 H3]. simpl. apply kgo_dirs; auto. intros a b E _. exact (H2 a b E). Qed.

Lemma realpath_straight : forall fuel fs p, straight fs p -> realpath (S fuel) fs p = Some p.
Proof. intros fuel fs p H. exact (realpath_kres_follow _ _ _ _ (kres_straight fuel fs true p H)). Qed.

Lemma eff_exists : forall fuel fs p, straight fs p ->
  sys_exists (S fuel) fs p = match stat fs p with Some _ => true | None => false end.
Proof. intros. unfold sys_exists. rewrite kres_straight by assumption. reflexivity. Qed.

Lemma eff_lexists : forall fuel fs p, straight fs p ->
  sys_lexists (S fuel) fs p = match stat fs p with Some _ => true | None => false end.
Proof. intros. unfold sys_lexists. rewrite kres_straight by assumption. reflexivity. Qed.

Lemma eff_mkdir : forall fuel fs p m, straight fs p -> stat fs p = None ->
  sys_mkdir (S fuel) fs p m = (put fs p (Some (SDir m)), None).
Proof. intros fuel fs p m H Hn. unfold sys_mkdir. rewrite kres_straight by assumption. rewrite Hn. reflexivity. Qed.

Lemma eff_mknode : forall fuel fs p v, straight fs p -> stat fs p = None ->
  sys_mknode (S fuel) fs p v = (create fs p v, None).
Proof. intros fuel fs p v H Hn. unfold sys_mknode. rewrite kres_straight by assumption. rewrite Hn. reflexivity. Qed.

Lemma eff_write_new : forall fuel fs p d, straight fs p -> stat fs p = None ->
  sys_write (S fuel) fs p d = (create fs p (mkInode KReg d DEFAULT_FILE_MODE), None).
Proof. intros fuel fs p d H Hn. unfold sys_write. rewrite kres_straight by assumption. rewrite Hn. reflexivity. Qed.

Lemma eff_chmod_dir : forall fuel fs p m0 m, straight fs p -> stat fs p = Some (SDir m0) ->
  sys_chmod (S fuel) fs p m = (put fs p (Some (SDir m)), None).
Proof. intros fuel fs p m0 m H Hn. unfold sys_chmod. rewrite kres_straight by assumption. rewrite Hn. reflexivity. Qed.

Lemma eff_chmod_leaf : forall fuel fs p i k d m0 m, straight fs p -> stat fs p = Some (SLeaf i) ->
  inode_of fs i = Some (mkInode k d m0) ->
  sys_chmod (S fuel) fs p m = (set_inode fs i (mkInode k d m), None).
Proof. intros fuel fs p i k d m0 m H Hn Hi. unfold sys_chmod. rewrite kres_straight by assumption. rewrite Hn, Hi. reflexivity. Qed.

Lemma eff_link : forall fuel fs src dst i, straight fs src -> straight fs dst ->
  stat fs src = Some (SLeaf i) -> stat fs dst = None ->
  sys_link (S fuel) fs src dst = (put fs dst (Some (SLeaf i)), None).
Proof.
  intros fuel fs src dst i Hs Hd H1 H2. unfold sys_link.
  rewrite (kres_straight fuel fs false src Hs). rewrite H1.
  rewrite (kres_straight fuel fs false dst Hd). rewrite H2. reflexivity.
Qed.

Lemma straight_upper : forall fs p n, straight fs (p ++ [n]) -> straight fs p /\ is_dir fs p = true.
Proof.
  intros fs p n H. pose proof (st_dirs _ _ H p [n] eq_refl ltac:(discriminate)) as Hd.
  split; [|exact Hd]. constructor.
  - pose proof (st_plain _ _ H) as Hpl. apply plain_app in Hpl as [Hpl _]. exact Hpl.
  - intros a b E Hb. apply (st_dirs _ _ H a (b ++ [n])); [rewrite E, app_assoc; reflexivity|destruct b; discriminate].
  - apply is_dir_not_sym. exact Hd.
Qed.

Lemma straight_child : forall fs t n, straight fs t -> is_dir fs t = true -> good_name n ->
  stat fs (t ++ [n]) = None -> straight fs (t ++ [n]).
Proof.
  intros fs t n [S1 S2 _] Hd [G1 [G2 _]] Hn. constructor.
  - unfold plain in *. rewrite forallb_app. rewrite S1. simpl. rewrite G1, G2. reflexivity.
  - intros a b E Hb. destruct (exists_last Hb) as [b' [x ->]].
    rewrite app_assoc in E. apply app_inj_tail in E as [Et _].
    destruct b' as [|c b'']; [rewrite app_nil_r in Et; subst a; exact Hd|].
    apply (S2 a (c :: b'') Et). discriminate.
  - apply sym_at_none. exact Hn.
Qed.

Lemma straight_after : forall fs fs' p,
  straight fs p ->
  (forall q, is_prefix p q = false -> stat fs' q = stat fs q) ->
  sym_at fs' p = None ->
  straight fs' p.
Proof.
  intros fs fs' p [H1 H2 H3] Ho Hs. constructor; auto.
  intros a b E Hb. unfold is_dir. rewrite Ho; [apply (H2 a b E Hb)|].
  eapply proper_prefix_not_below; eauto.
Qed.

Lemma straight_create : forall fs t v, straight fs t -> t <> [] -> i_kind v <> KSym ->
  straight (create fs t v) t.
Proof.
  intros fs t v H Hne Hk. eapply straight_after; [exact H| |].
  - intros q Hq. apply stat_create_other. exact Hq.
  - unfold sym_at. rewrite (stat_create_same fs t v (st_dirs _ _ H) Hne), inode_create_same.
    destruct v as [[] d m]; simpl in *; congruence.
Qed.

Lemma straight_put_dir : forall fs t m, straight fs t -> t <> [] ->
  straight (put fs t (Some (SDir m))) t.
Proof.
  intros fs t m H Hne. eapply straight_after; [exact H|intros q Hq; apply stat_put_other; exact Hq|].
  unfold sym_at. rewrite (stat_put_same fs t _ (st_dirs _ _ H) Hne). reflexivity.
Qed.

Lemma inside_straight : forall fuel fs dest rel, straight fs (dest ++ rel) ->
  inside dest (realpath (S fuel) fs (dest ++ rel)) = true.
Proof. intros fuel fs dest rel H. rewrite (realpath_straight fuel fs _ H). apply is_prefix_app_r, is_prefix_refl. Qed.

Lemma parent_exists : forall fuel fs t, straight fs t -> t <> [] ->
  sys_exists (S fuel) fs (rstrip_empty (removelast t)) = true.
Proof.
  intros fuel fs t H Hne. destruct (exists_last Hne) as [p [n ->]]. destruct (straight_upper fs p n H) as [Hup Hd].
  rewrite removelast_last, (plain_rstrip p (st_plain _ _ Hup)), (eff_exists fuel fs p Hup).
  unfold is_dir in Hd. destruct (stat fs p); [reflexivity|discriminate].
Qed.

Lemma eff_makedirs : forall fuel fs t, straight fs t -> stat fs t = None ->
  makedirs (S fuel) fs t = (put fs t (Some (SDir DEFAULT_DIR_MODE)), None).
Proof.
  intros fuel fs t Hs Hn. pose proof (missing_not_root _ _ Hn) as Hne.
  pose proof (parent_exists fuel fs t Hs Hne) as Hex. unfold makedirs.
  destruct (exists_last Hne) as [par [n ->]]. rewrite removelast_last in Hex. rewrite rev_app_distr. simpl.
  pose proof (proj1 (plain_app _ _) (st_plain _ _ Hs)) as [_ Hn1]. apply plain_cons in Hn1 as [Hn1 _].
  apply not_skipped in Hn1 as [Hnil _]. rewrite Hnil.
  change (rev (drop_empty_front (rev par))) with (rstrip_empty par). rewrite Hex. simpl negb. cbv iota.
  rewrite rev_involutive. apply eff_mkdir; assumption.
Qed.

Lemma makedirs_rev_nofuel : forall r fs, plain (rev r) -> r <> [] -> makedirs_rev 0 fs r = (fs, Some EOTHER).
Proof.
  induction r as [|tail rh IH]; intros fs Hp Hne; [contradiction|]. cbn [makedirs_rev].
  simpl in Hp. apply plain_app in Hp as [Hrh Ht]. apply plain_cons in Ht as [Ht _].
  destruct (not_skipped tail Ht) as [Hn Hdot]. rewrite Hn, Hdot.
  change (sys_exists 0 fs (rev (drop_empty_front rh))) with false. cbn [negb].
  destruct rh as [|c rh']; [reflexivity|]. rewrite IH by (auto; discriminate). reflexivity.
Qed.

Lemma makedirs_nofuel : forall fs dest, plain dest -> dest <> [] -> makedirs 0 fs dest = (fs, Some EOTHER).
Proof.
  intros fs dest Hp Hne. apply makedirs_rev_nofuel; [rewrite rev_involutive; exact Hp|].
  intros E. apply Hne. rewrite <- (rev_involutive dest), E. reflexivity.
Qed.

Lemma sys_mkdir_sym_ext : forall fuel fs cs m, sym_ext fs (fst (sys_mkdir fuel fs cs m)).
Proof.
  intros. unfold sys_mkdir. destruct (kres fuel fs [] false [] cs) as [l|]; [|apply sym_ext_refl].
  destruct (stat fs l) eqn:E; [apply sym_ext_refl|]. simpl. apply sym_ext_put_dir. exact E.
Qed.

Lemma sys_write_sym_ext : forall fuel fs cs d, fresh_ok fs -> sym_ext fs (fst (sys_write fuel fs cs d)).
Proof.
  intros fuel fs cs d Hf. unfold sys_write. destruct (kres fuel fs [] true [] cs) as [l|]; [|apply sym_ext_refl].
  destruct (stat fs l) as [[m|i]|] eqn:E; simpl.
  - apply sym_ext_refl.
  - destruct (inode_of fs i) as [[[] dd mm]|] eqn:Ei; simpl; try apply sym_ext_refl.
    eapply sym_ext_set_inode; eauto; simpl; discriminate.
  - apply sym_ext_create; auto. simpl. discriminate.
Qed.

Lemma sys_mknode_sym_ext : forall fuel fs cs v,
  fresh_ok fs -> i_kind v <> KSym -> sym_ext fs (fst (sys_mknode fuel fs cs v)).
Proof.
  intros fuel fs cs v Hf Hk. unfold sys_mknode. destruct (kres fuel fs [] false [] cs) as [l|]; [|apply sym_ext_refl].
  destruct (stat fs l) eqn:E; [apply sym_ext_refl|]. simpl. apply sym_ext_create; auto.
Qed.

(* os.makedirs is a sequence of mkdir calls on prefixes of its argument *)
Lemma makedirs_rev_ind : forall (P : fsys -> Prop) fuel r,
  (forall fs nm rest m, P fs -> rev r = nm ++ rest -> P (fst (sys_mkdir fuel fs nm m))) ->
  forall fs, P fs -> P (fst (makedirs_rev fuel fs r)).
Proof.
  intros P fuel. induction r as [|tail rh IH]; intros Hstep fs HP; simpl; [exact HP|].
  assert (IH' : forall fs, P fs -> P (fst (makedirs_rev fuel fs rh))).
  { apply IH. intros fs1 nm rest m H E. apply (Hstep fs1 nm (rest ++ [tail]) m H). simpl. rewrite E, app_assoc. reflexivity. }
  assert (Hself : forall fs1, P fs1 -> P (fst (sys_mkdir fuel fs1 (rev rh ++ [tail]) DEFAULT_DIR_MODE))).
  { intros fs1 H. apply (Hstep fs1 _ [] _ H). simpl. rewrite app_nil_r. reflexivity. }
  destruct (is_nil tail); [apply IH'; exact HP|].
  destruct (sys_exists fuel fs (rev (drop_empty_front rh))); simpl; [apply Hself; exact HP|].
  specialize (IH' fs HP).
  destruct (makedirs_rev fuel fs rh) as [fs1 [[|]|]]; simpl in *; auto;
    (destruct (str_eqb tail n_dot); [exact IH'|apply Hself; exact IH']).
Qed.

Lemma makedirs_rev_sym_ext : forall fuel r fs, sym_ext fs (fst (makedirs_rev fuel fs r)).
Proof.
  intros fuel r fs. apply (makedirs_rev_ind (sym_ext fs)); [|apply sym_ext_refl].
  intros fs1 nm rest m H _. eapply sym_ext_trans; [exact H|apply sys_mkdir_sym_ext].
Qed.

Lemma sys_link_fail_same : forall fuel fs a b fs1 e, sys_link fuel fs a b = (fs1, Some e) -> fs1 = fs.
Proof.
  intros fuel fs a b fs1 e. unfold sys_link.
  destruct (kres fuel fs [] false [] a) as [ls|]; [|congruence].
  destruct (stat fs ls) as [[m|i]|]; try congruence.
  destruct (kres fuel fs [] false [] b) as [ld|]; [|congruence].
  destruct (stat fs ld); congruence.
Qed.

Lemma sys_unlink_fail_same : forall fuel fs a fs1 e, sys_unlink fuel fs a = (fs1, Some e) -> fs1 = fs.
Proof.
  intros fuel fs a fs1 e. unfold sys_unlink.
  destruct (kres fuel fs [] false [] a) as [ls|]; [|congruence].
  destruct (stat fs ls) as [[m|i]|]; congruence.
Qed.

Lemma sys_mknode_fail_same : forall fuel fs a v fs1 e, sys_mknode fuel fs a v = (fs1, Some e) -> fs1 = fs.
Proof.
  intros fuel fs a v fs1 e. unfold sys_mknode.
  destruct (kres fuel fs [] false [] a) as [ls|]; [|congruence].
  destruct (stat fs ls); congruence.
Qed.

(* resolution after [put fs l None]: a path leads to where it led before or ends at l itself.  The one client is
   makelink's unlink-then-create, [unlink_then_mknode] in Proofs.v *)
Section Removed.
  Variable fs : fsys.
  Variable l : path.
  Hypothesis Hl : l <> [].
  Let fs1 := put fs l None.

  Lemma removed_other : forall q, is_prefix l q = false -> stat fs1 q = stat fs q /\ sym_at fs1 q = sym_at fs q.
  Proof.
    intros q Hq. assert (E : stat fs1 q = stat fs q) by (apply stat_put_other; exact Hq).
    split; [exact E|]. unfold sym_at. rewrite E. reflexivity.
  Qed.

  Lemma kgo_removed : forall (kr kr1 : kres_t),
    (forall st c cs x, is_prefix l c = false -> kr1 st c cs = Some x -> x = l \/ kr st c cs = Some x) ->
    forall cs st fw cur x, is_prefix l cur = false ->
      kgo kr1 fs1 st fw cs cur = Some x -> x = l \/ kgo kr fs st fw cs cur = Some x.
  Proof.
    intros kr kr1 Hrec. induction cs as [|c rest IH]; intros st fw cur x Hc Hk; simpl in *; [auto|].
    destruct (skip_comp c); [apply IH; assumption|].
    destruct (is_dotdot c); [apply IH; [apply is_prefix_removelast|]; assumption|].
    destruct (is_prefix l (cur ++ [c])) eqn:Ep.
    - pose proof (stat_put_gone fs l _ Hl Ep : stat fs1 _ = None) as Hn.
      rewrite (sym_at_none _ _ Hn), Hn in Hk. destruct rest; [|discriminate]. injection Hk as <-.
      left. symmetry. apply is_prefix_snoc; assumption.
    - destruct (removed_other _ Ep) as [Es Ey]. rewrite Ey, Es in Hk.
      destruct (sym_at fs (cur ++ [c])) as [tgt|].
      + destruct (is_nil rest && negb fw); [auto|].
        destruct (mem_path (cur ++ [c]) st); [discriminate|].
        destruct (kr1 ((cur ++ [c]) :: st) (link_base tgt cur) (comps_of tgt)) as [q|] eqn:Er; [|discriminate].
        assert (Hb : is_prefix l (link_base tgt cur) = false).
        { unfold link_base. destruct (is_abs tgt); [|exact Hc]. clear - Hl. destruct l; [contradiction|reflexivity]. }
        destruct (Hrec _ _ _ _ Hb Er) as [E|E].
        * subst q. destruct rest as [|c2 r2]; [injection Hk as <-; auto|].
          unfold is_dir in Hk. rewrite (stat_put_gone fs l l Hl (is_prefix_refl l) : stat fs1 l = None) in Hk. discriminate.
        * rewrite E. destruct rest as [|c2 r2]; [auto|].
          destruct (is_dir fs1 q) eqn:Ed; [|discriminate].
          assert (Hq : is_prefix l q = false).
          { destruct (is_prefix l q) eqn:Eq; auto. unfold is_dir in Ed. rewrite (stat_put_gone fs l q Hl Eq : stat fs1 q = None) in Ed. discriminate. }
          unfold is_dir in *. rewrite (proj1 (removed_other _ Hq)) in Ed. rewrite Ed.
          apply IH; assumption.
      + destruct (stat fs (cur ++ [c])) as [[m|i]|]; auto.
  Qed.

  Lemma kres_removed : forall fuel st fw cur cs x, is_prefix l cur = false ->
    kres fuel fs1 st fw cur cs = Some x -> x = l \/ kres fuel fs st fw cur cs = Some x.
  Proof.
    induction fuel as [|f IH]; intros st fw cur cs x Hc Hk; simpl in *; [discriminate|].
    apply (kgo_removed (fun st' c cs' => kres f fs st' true c cs') (fun st' c cs' => kres f fs1 st' true c cs'));
      [|exact Hc|exact Hk].
    intros st' c cs' y Hc' Hy. apply IH; assumption.
  Qed.
End Removed.
