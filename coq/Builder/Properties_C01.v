(* C01 — incremental build equals clean build. *)
From Coq Require Import List NArith Bool Permutation.
Require Import BobV.Builder.Model BobV.Builder.Proofs BobV.Builder.Sched.
Import ListNotations.
Open Scope N_scope.

(* One build from any state satisfying the invariants: clean content, an
   accurate stored result hash, and the invariants again. *)
Theorem build_correct :
  forall (hash : content -> Hsh) (is_src : N -> bool) (c : cfg) (P : project) (w : wstate),
    AllInv hash is_src w -> wf is_src P ->
    AllInv hash is_src (build hash c P w) /\
    forall sd, In sd P ->
      cont (build hash c P w (sd_path sd)) = clean hash P (sd_path sd) /\
      result (build hash c P w (sd_path sd)) = Some (RHash (hash (clean hash P (sd_path sd)))).
Proof.
  intros hash is_src c P w A W.
  destruct (build_from_good hash is_src c P [] w (fun _ => Empty) A (Good_nil _ _ _) W) as [A' G].
  split; [exact A'|]. intros sd Hsd. apply G. rewrite app_nil_r, <- in_rev. apply in_map, Hsd.
Qed.

(* After any history of project states, each followed by an incremental build
   in the same workspace state, every workspace of the final project holds what
   a from-scratch build of the final project produces.  [AllInv] holds of the
   empty workspace (slot by slot: [InvB_empty], [InvC_empty]); scripts are
   deterministic in the sense spelled out in Model.v (run_on / the checkout
   obliviousness). *)
Theorem incremental_equals_clean :
  forall (hash : content -> Hsh) (is_src : N -> bool) (c : cfg) (Ps : list project) (P : project) (w : wstate),
    AllInv hash is_src w -> Forall (wf is_src) Ps -> wf is_src P ->
    let w' := build hash c P (fold_left (fun st Q => build hash c Q st) Ps w) in
    forall sd, In sd P -> cont (w' (sd_path sd)) = clean hash P (sd_path sd).
Proof.
  intros hash is_src c Ps P w A F W. cbn zeta. revert w A.
  induction F as [|Q Ps Hq F IH]; intros w A; cbn [fold_left].
  - intros sd Hsd. apply (build_correct hash is_src c P w A W), Hsd.
  - apply IH, (build_correct hash is_src c Q w A Hq).
Qed.

(* An immediately repeated build re-executes no build step, no package step
   and no deterministic checkout: stated per step, for a slot as a completed
   step leaves it (ready, the current input hashes recorded). *)
Theorem repeated_build_step_noop :
  forall (hash : content -> Hsh) (c : cfg) (d : D) (ins : list Hsh) (s : slot),
    force c = false -> Ready hash d s -> inputs s = Some ins ->
    runs (cook_build hash c d ins s) = false.
Proof.
  intros hash c d ins s Hf (_ & Hx & Hd) Hi. unfold cook_build, build_prepare, build_body.
  rewrite Hx, Hd. cbn. rewrite N.eqb_refl. cbn. rewrite Hf, Hi. cbn. rewrite list_eqb_refl.
  destruct (clean_build c); reflexivity.
Qed.

Theorem repeated_package_step_noop :
  forall (hash : content -> Hsh) (c : cfg) (d : D) (ins : list Hsh) (s : slot),
    force c = false -> Ready hash d s -> inputs s = Some ins ->
    runs (cook_package hash c d ins s) = false.
Proof.
  intros hash c d ins s Hf (_ & Hx & Hd) Hi. unfold cook_package, package_prepare, package_body.
  rewrite Hx, Hd. cbn. rewrite N.eqb_refl. cbn. rewrite Hf, Hi. cbn. rewrite list_eqb_refl. reflexivity.
Qed.

Theorem repeated_deterministic_checkout_noop :
  forall (hash : content -> Hsh) (c : cfg) (d : D) (ins : list Hsh) (s : slot),
    force c = false -> exists_ s = true -> dirst s = Some d -> inputs s = Some ins ->
    result s = Some (RHash (hash (cont s))) ->
    runs (cook_checkout hash c true d ins s) = false.
Proof.
  intros hash c d ins s Hf Hx Hd Hi Hr. unfold cook_checkout. rewrite Hx. cbn [app exec fold_left].
  unfold checkout_body. rewrite Hx, Hf, Hd, Hi, Hr. cbn [negb orb opt_eqb].
  rewrite ?N.eqb_refl, ?list_eqb_refl. cbn. rewrite ?N.eqb_refl. reflexivity.
Qed.

(* A build or package directory handed to a different variant is emptied
   before the script runs: from every state satisfying the invariant the step
   ends with the run's own output, never with Garbage (shared with C16). *)
Theorem reused_dir_is_pruned :
  forall (hash : content -> Hsh) (c : cfg) (d : D) (ins : list Hsh) (s : slot),
    InvB hash s ->
    cont (exec hash (cook_build hash c d ins s) s) = Out d ins /\
    cont (exec hash (cook_package hash c d ins s) s) = Out d ins.
Proof.
  intros hash c d ins s I. split.
  - exact (proj1 (proj2 (proj2 (cook_build_ok hash c d ins s I)))).
  - exact (proj1 (proj2 (proj2 (cook_package_ok hash c d ins s I)))).
Qed.

(* the from-scratch result itself is a function of the step set, not of the order *)
Theorem clean_schedule_independent :
  forall (hash : content -> Hsh) (is_src : N -> bool) (P P' : project),
    wf is_src P -> wf is_src P' -> Permutation P P' ->
    forall sd, In sd P -> clean hash P' (sd_path sd) = clean hash P (sd_path sd).
Proof.
  intros hash is_src P P' W W' Pm. apply (clean_unique hash is_src P _ W).
  intros sd Hsd. apply (clean_fold_char hash is_src P' [] _ W'), (Permutation_in _ Pm Hsd).
Qed.

(* With -jN the steps of one build run in some other dependency-respecting
   order (each step execution touches only its own workspace, so a parallel run
   is an interleaving of whole step executions).  Whatever order each build of
   the history used, and whatever order P' the last one uses, every workspace
   ends with the content of the from-scratch build in the canonical order. *)
Theorem any_schedule_equals_clean :
  forall (hash : content -> Hsh) (is_src : N -> bool) (c : cfg) (Ps : list project) (P P' : project) (w : wstate),
    AllInv hash is_src w -> Forall (wf is_src) Ps -> wf is_src P -> wf is_src P' -> Permutation P P' ->
    let w' := build hash c P' (fold_left (fun st Q => build hash c Q st) Ps w) in
    forall sd, In sd P -> cont (w' (sd_path sd)) = clean hash P (sd_path sd).
Proof.
  intros hash is_src c Ps P P' w A F W W' Pm. cbn zeta. intros sd Hsd.
  rewrite (incremental_equals_clean hash is_src c Ps P' w A F W' sd (Permutation_in _ Pm Hsd)).
  apply (clean_schedule_independent hash is_src); assumption.
Qed.

(* non-vacuity: a script edit, then a revert, on a 3-step project *)
Definition h0 (c : content) : Hsh :=
  match c with Empty => 1 | Out d i => 10 + d + 7 * fold_right N.add 0 i | Partial d => 3 | Garbage => 5 end.
Definition cfg0 : cfg := {| force := false; dev_rehash := true; clean_build := false |}.
Definition proj_v (v : N) : project :=
  [ {| sd_path := 0; sd_kind := KCheckout true; sd_d := 100; sd_deps := [] |};
    {| sd_path := 1; sd_kind := KBuild; sd_d := v; sd_deps := [0] |};
    {| sd_path := 2; sd_kind := KPackage; sd_d := 300; sd_deps := [1] |} ].

Example incremental_nonvacuous :
  let w := build h0 cfg0 (proj_v 200) (build h0 cfg0 (proj_v 201) (build h0 cfg0 (proj_v 200) (fun _ => empty_slot))) in
  map (fun p => cont (w p)) [0; 1; 2] = map (clean h0 (proj_v 200)) [0; 1; 2]
  /\ build_runs h0 cfg0 (proj_v 200) w = [(0, false); (1, false); (2, false)]
  /\ build_runs h0 cfg0 (proj_v 201) w = [(0, false); (1, true); (2, true)].
Proof. vm_compute. auto. Qed.

(* non-vacuity of the schedule theorems: a diamond built in its two orders *)
Definition sdA := {| sd_path := 0; sd_kind := KCheckout true; sd_d := 100; sd_deps := [] |}.
Definition sdB := {| sd_path := 1; sd_kind := KBuild; sd_d := 200; sd_deps := [0] |}.
Definition sdC := {| sd_path := 2; sd_kind := KBuild; sd_d := 201; sd_deps := [0] |}.
Definition sdD := {| sd_path := 3; sd_kind := KPackage; sd_d := 300; sd_deps := [1; 2] |}.
Definition src0 (p : N) : bool := N.eqb p 0.

Example schedule_nonvacuous :
  wf src0 [sdA; sdB; sdC; sdD] /\ wf src0 [sdA; sdC; sdB; sdD] /\
  Permutation [sdA; sdB; sdC; sdD] [sdA; sdC; sdB; sdD] /\
  map (fun p => cont (build h0 cfg0 [sdA; sdC; sdB; sdD] (fun _ => empty_slot) p)) [0; 1; 2; 3]
    = map (clean h0 [sdA; sdB; sdC; sdD]) [0; 1; 2; 3].
Proof.
  split; [|split; [|split]].
  1, 2: vm_compute; intuition discriminate.
  - apply perm_skip, perm_swap.
  - vm_compute. reflexivity.
Qed.
