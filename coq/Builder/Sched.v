(* Builder — the result of a build does not depend on the schedule: any
   dependency-respecting order of the same steps (what -jN executes is some
   interleaving of whole step executions, each touching only its own
   workspace) leaves the content of the canonical clean build.  The reason:
   [clean P] solves one equation per step ([char_at]), the equations do not
   mention the order, and on a well-formed project they have one solution. *)
From Coq Require Import List NArith Bool.
Require Import BobV.Builder.Model BobV.Builder.Proofs.
Import ListNotations.

Section Sched.
  Variable hash : content -> Hsh.
  Variable is_src : N -> bool.

  Local Notation wf_from := (wf_from is_src).
  Local Notation wf := (wf is_src).

  Definition paths (P : project) : list N := map sd_path P.

  Definition char_at (f : N -> content) (sd : stepdef) : Prop :=
    f (sd_path sd) = Out (sd_d sd) (map (fun p => hash (f p)) (sd_deps sd)).

  Lemma wf_from_fresh seen P : wf_from seen P -> forall p, In p seen -> ~ In p (paths P).
  Proof.
    revert seen. induction P as [|sd P IH]; intros seen W p Hp; [intros []|].
    destruct W as (W1 & _ & _ & W4). intros [<-|H]; [exact (W1 Hp)|].
    exact (IH _ W4 p (or_intror Hp) H).
  Qed.

  Lemma clean_fold_outside P : forall cl p, ~ In p (paths P) -> fold_left (clean_step hash) P cl p = cl p.
  Proof.
    induction P as [|sd P IH]; intros cl p H; [reflexivity|]. cbn [fold_left].
    rewrite IH by (intros H1; apply H; right; exact H1). apply upd_neq. intros ->. apply H. left. reflexivity.
  Qed.

  Lemma clean_fold_seen P : forall seen cl, wf_from seen P ->
    forall p, In p seen -> fold_left (clean_step hash) P cl p = cl p.
  Proof. intros seen cl W p Hp. exact (clean_fold_outside P cl p (wf_from_fresh seen P W p Hp)). Qed.

  Lemma clean_fold_char P : forall seen cl, wf_from seen P ->
    forall sd, In sd P -> char_at (fold_left (clean_step hash) P cl) sd.
  Proof.
    induction P as [|sd0 P IH]; intros seen cl W sd Hsd; [contradiction|].
    destruct W as (W1 & W2 & _ & W4). cbn [fold_left].
    destruct Hsd as [<-|Hsd]; [|exact (IH _ _ W4 sd Hsd)].
    unfold char_at. rewrite (clean_fold_seen P _ _ W4) by (left; reflexivity).
    unfold clean_step at 1. rewrite upd_eq. f_equal. apply map_ext_in. intros q Hq.
    rewrite (clean_fold_seen P _ _ W4) by (right; apply W2, Hq).
    unfold clean_step. rewrite upd_neq; [reflexivity|]. intros ->. apply W1, W2, Hq.
  Qed.

  Lemma char_unique P : forall seen (f g : N -> content), wf_from seen P ->
    (forall p, In p seen -> f p = g p) ->
    (forall sd, In sd P -> char_at f sd) -> (forall sd, In sd P -> char_at g sd) ->
    forall p, In p (paths P) \/ In p seen -> f p = g p.
  Proof.
    induction P as [|sd0 P IH]; intros seen f g W Hs Hf Hg p Hp.
    - destruct Hp as [[]|Hp]. apply Hs, Hp.
    - destruct W as (_ & W2 & _ & W4).
      apply (IH (sd_path sd0 :: seen) f g W4).
      + intros q [<-|Hq]; [|apply Hs, Hq].
        rewrite (Hf sd0 (or_introl eq_refl)), (Hg sd0 (or_introl eq_refl)). f_equal.
        apply map_ext_in. intros q Hq. f_equal. apply Hs, W2, Hq.
      + intros sd H. apply Hf. right. exact H.
      + intros sd H. apply Hg. right. exact H.
      + destruct Hp as [[<-|Hp]|Hp]; [right; left; reflexivity|left; exact Hp|right; right; exact Hp].
  Qed.

  Lemma clean_unique P f : wf P -> (forall sd, In sd P -> char_at f sd) ->
    forall sd, In sd P -> f (sd_path sd) = clean hash P (sd_path sd).
  Proof.
    intros W Hf sd Hsd. apply (char_unique P [] _ _ W); [intros p []|exact Hf| |left; apply in_map, Hsd].
    exact (clean_fold_char P [] _ W).
  Qed.
End Sched.

(* A killed -jN build leaves several steps partially executed; repeated
   aborted builds pile such images on top of each other.  Both are sequences
   of partial-or-complete step executions, each computed against the state it
   found. *)
Section Partial.
  Variable hash : content -> Hsh.
  Variable is_src : N -> bool.

  Lemma full_trace_is_crash_trace ops : In ops (crash_traces ops).
  Proof. exact (crash_traces_full ops). Qed.

  Definition partial_step (w : wstate) (st : stepdef * list mop) : wstate :=
    upd w (sd_path (fst st)) (exec hash (snd st) (w (sd_path (fst st)))).

  Fixpoint partial_ok (c : cfg) (w : wstate) (l : list (stepdef * list mop)) : Prop :=
    match l with
    | [] => True
    | st :: r => kind_ok is_src (fst st) /\ In (snd st) (crash_traces (cook_step hash c w (fst st))) /\
                 partial_ok c (partial_step w st) r
    end.
End Partial.
