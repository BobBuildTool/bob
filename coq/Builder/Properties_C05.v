(* C05 — failed or killed builds never poison the workspace. *)
From Coq Require Import List NArith Bool Permutation.
Require Import BobV.Builder.Model BobV.Builder.Proofs BobV.Builder.Sched BobV.Builder.Properties_C01.
Import ListNotations.
Open Scope N_scope.

(* Every crash image of every step — a kill after any persistent-state
   operation, or inside the running script (MRunCrash: partial output) — keeps
   the invariants of every workspace. *)
Theorem crash_image_keeps_invariants :
  forall (hash : content -> Hsh) (is_src : N -> bool) (c : cfg) (P1 : project) (sd : stepdef) (w : wstate) (t : list mop),
    AllInv hash is_src w -> wf_from is_src [] (P1 ++ [sd]) ->
    In t (crash_traces (cook_step hash c (build hash c P1 w) sd)) ->
    AllInv hash is_src (upd (build hash c P1 w) (sd_path sd) (exec hash t (build hash c P1 w (sd_path sd)))).
Proof.
  intros hash is_src c P1 sd w t A W. unfold build. revert w A W. generalize (@nil N).
  induction P1 as [|x P1 IH]; intros seen w A W; cbn [app wf_from fold_left] in *;
    destruct W as (_ & _ & K & W).
  - exact (proj1 (cook_step_ok hash is_src c w sd A K) t).
  - exact (IH _ _ (proj1 (proj2 (cook_step_ok hash is_src c w x A K))) W).
Qed.

(* ... and from any state satisfying the invariants — hence after any sequence
   of aborted builds, of any project states — the next build completes with the
   clean results. *)
Theorem abort_recovers :
  forall (hash : content -> Hsh) (is_src : N -> bool) (c : cfg) (P : project) (w : wstate),
    AllInv hash is_src w -> wf is_src P ->
    AllInv hash is_src (build hash c P w) /\
    forall sd, In sd P ->
      cont (build hash c P w (sd_path sd)) = clean hash P (sd_path sd) /\
      result (build hash c P w (sd_path sd)) = Some (RHash (hash (clean hash P (sd_path sd)))).
Proof. exact build_correct. Qed.

(* Killed -jN builds and repeated aborted builds: any sequence of partial or
   complete executions of steps (of any project states, in any order, several
   of them stopped midway), each computed against the state it found, keeps the
   invariants of every workspace ... *)
Theorem partial_executions_keep_invariants :
  forall (hash : content -> Hsh) (is_src : N -> bool) (c : cfg) (l : list (stepdef * list mop)) (w : wstate),
    AllInv hash is_src w -> partial_ok hash is_src c w l ->
    AllInv hash is_src (fold_left (partial_step hash) l w).
Proof.
  intros hash is_src c. induction l as [|[sd t] l IH]; intros w A H; cbn [fold_left]; [exact A|].
  destruct H as (K & Ht & H). apply IH; [|exact H].
  exact (proj1 (cook_step_ok hash is_src c w sd A K) t Ht).
Qed.

(* ... and the next build, whatever its schedule, ends with the clean results. *)
Theorem recover_after_partial_executions :
  forall (hash : content -> Hsh) (is_src : N -> bool) (c : cfg) (l : list (stepdef * list mop))
         (P P' : project) (w : wstate),
    AllInv hash is_src w -> partial_ok hash is_src c w l ->
    wf is_src P -> wf is_src P' -> Permutation P P' ->
    forall sd, In sd P ->
      cont (build hash c P' (fold_left (partial_step hash) l w) (sd_path sd)) = clean hash P (sd_path sd).
Proof.
  intros hash is_src c l P P' w A H.
  apply (any_schedule_equals_clean hash is_src c [] P P'), Forall_nil.
  exact (partial_executions_keep_invariants hash is_src c l w A H).
Qed.

(* Bob never treats a step as up to date whose workspace was left incomplete:
   a build/package step is skipped only when the stored input hashes equal the
   current ones, and then the invariant says the workspace holds the complete
   output for exactly these inputs. *)
Theorem skip_only_if_complete :
  forall (hash : content -> Hsh) (d : D) (ins : list Hsh) (s : slot),
    Ready hash d s -> inputs s = Some ins ->
    cont s = Out d ins /\ result s = Some (RHash (hash (Out d ins))).
Proof.
  intros hash d ins s (I & Hx & Hd) Hi.
  exact (Built_Holds hash d ins s (Built_intro hash d ins s (conj I (conj Hx (conj Hd Hi))))).
Qed.

Theorem build_step_crash_safe :
  forall (hash : content -> Hsh) (c : cfg) (d : D) (ins : list Hsh) (s : slot),
    InvB hash s -> forall t, In t (crash_traces (cook_build hash c d ins s)) -> InvB hash (exec hash t s).
Proof. intros hash c d ins s I. exact (proj1 (cook_build_ok hash c d ins s I)). Qed.

Theorem package_step_crash_safe :
  forall (hash : content -> Hsh) (c : cfg) (d : D) (ins : list Hsh) (s : slot),
    InvB hash s -> forall t, In t (crash_traces (cook_package hash c d ins s)) -> InvB hash (exec hash t s).
Proof. intros hash c d ins s I. exact (proj1 (cook_package_ok hash c d ins s I)). Qed.

Theorem checkout_step_crash_safe :
  forall (hash : content -> Hsh) (c : cfg) (det : bool) (d : D) (ins : list Hsh) (s : slot),
    InvC hash s -> forall t, In t (crash_traces (cook_checkout hash c det d ins s)) -> InvC hash (exec hash t s).
Proof. intros hash c det d ins s I. exact (proj1 (cook_checkout_ok hash c det d ins s I)). Qed.

(* non-vacuity: the F29 history (edit, kill right after the prune, revert):
   with the state invalidated before the prune the next build re-runs the step *)
Definition h0 (c : content) : Hsh :=
  match c with Empty => 1 | Out d i => 10 + d + 7 * fold_right N.add 0 i | Partial d => 3 | Garbage => 5 end.
Definition cfg0 : cfg := {| force := false; dev_rehash := true; clean_build := false |}.

Example prune_then_kill_nonvacuous :
  let s1 := exec h0 (cook_package h0 cfg0 300 [7] empty_slot) empty_slot in       (* built for variant 300 *)
  let killed := exec h0 [MResetNone; MPrune] s1 in                                (* variant 301: kill after the prune *)
  In [MResetNone; MPrune] (crash_traces (cook_package h0 cfg0 301 [7] s1)) /\
  runs (cook_package h0 cfg0 300 [7] killed) = true /\                            (* edit reverted: not skipped *)
  cont (exec h0 (cook_package h0 cfg0 300 [7] killed) killed) = Out 300 [7].
Proof.
  cbv zeta. split; [exact (crash_traces_prefix [MResetNone; MPrune] _)|].
  split; vm_compute; reflexivity.
Qed.

(* non-vacuity: two steps of a parallel build killed inside their scripts, a third one complete *)
Definition pA := {| sd_path := 0; sd_kind := KCheckout true; sd_d := 100; sd_deps := [] |}.
Definition pB := {| sd_path := 1; sd_kind := KBuild; sd_d := 200; sd_deps := [0] |}.
Definition pC := {| sd_path := 2; sd_kind := KBuild; sd_d := 201; sd_deps := [0] |}.
Definition psrc (p : N) : bool := N.eqb p 0.
Definition w_a : wstate := build_step h0 cfg0 (fun _ => empty_slot) pA.

Example parallel_kill_nonvacuous :
  let tB := [MMkdir; MReset 200; MDelInputs; MSetTime; MRunCrash 200 false] in
  let tC := [MMkdir; MReset 201; MDelInputs; MSetTime; MRunCrash 201 false] in
  partial_ok h0 psrc cfg0 (fun _ => empty_slot)
    [(pA, cook_step h0 cfg0 (fun _ => empty_slot) pA); (pB, tB); (pC, tC)] /\
  let w := fold_left (partial_step h0) [(pA, cook_step h0 cfg0 (fun _ => empty_slot) pA); (pB, tB); (pC, tC)] (fun _ => empty_slot) in
  map (fun p => cont (w p)) [1; 2] = [Partial 200; Partial 201] /\
  map (fun p => cont (build h0 cfg0 [pA; pC; pB] w p)) [0; 1; 2] = map (clean h0 [pA; pB; pC]) [0; 1; 2].
Proof.
  cbv zeta. split; [|split; vm_compute; reflexivity].
  cbn [partial_ok fst snd]. repeat apply conj; try reflexivity.
  - apply crash_traces_full.
  - exact (crash_traces_in_run [MMkdir; MReset 200; MDelInputs; MSetTime] 200 _ false _).
  - exact (crash_traces_in_run [MMkdir; MReset 201; MDelInputs; MSetTime] 201 _ false _).
Qed.
