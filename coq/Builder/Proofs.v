(* Builder — invariants of the cook micro-op sequences at every crash point.
   [safely I ops s Q]: every crash image of [ops] run from [s] satisfies [I],
   and the complete run ends in [Q].  Per invariant one table of side
   conditions under which a micro-op keeps it ([preB], [preC]); a sequence
   that meets them step by step is safe ([guarded_safely]), so a cook function
   needs only the case analysis on its own tests.  At the project level every
   workspace carries the invariant of its kind ([AllInv]); [build_from_good],
   the induction over the steps of a well-formed project that C01 rests on,
   carries [Good]: the steps done so far agree with the from-scratch build. *)
From Coq Require Import List NArith Bool.
Require BobV.Common.ListFacts.
Require Import BobV.Builder.Model.
Import ListNotations.

Lemma list_eqb_eq a b : list_eqb a b = true <-> a = b.
Proof. exact (ListFacts.list_eqb_eq _ _ N.eqb_spec a b). Qed.

Lemma list_eqb_refl a : list_eqb a a = true.
Proof. apply list_eqb_eq. reflexivity. Qed.

Lemma opt_nat_eqb_eq a d : opt_eqb N.eqb a (Some d) = true <-> a = Some d.
Proof. destruct a; cbn; [rewrite N.eqb_eq|]; split; congruence. Qed.

Lemma opt_list_eqb_eq a i : opt_eqb list_eqb a (Some i) = true <-> a = Some i.
Proof. destruct a; cbn; [rewrite list_eqb_eq|]; split; congruence. Qed.

Lemma upd_eq {A} (w : N -> A) p x : upd w p x p = x.
Proof. unfold upd. rewrite N.eqb_refl. reflexivity. Qed.

Lemma upd_neq {A} (w : N -> A) p x q : q <> p -> upd w p x q = w q.
Proof. intros H. unfold upd. apply N.eqb_neq in H as ->. reflexivity. Qed.

Section Hash.
  Variable hash : content -> Hsh.

  Notation apply := (apply hash).
  Notation exec := (exec hash).

  Lemma exec_app a b s : exec (a ++ b) s = exec b (exec a s).
  Proof. apply fold_left_app. Qed.

  Lemma crash_traces_app a : forall b t,
    In t (crash_traces (a ++ b)) ->
    In t (crash_traces a) \/ exists t', t = a ++ t' /\ In t' (crash_traces b).
  Proof.
    induction a as [|o a IH]; intros b t H; [right; exists t; auto|].
    cbn [app crash_traces] in *.
    (* the crash images of [o] itself play no role; naming them keeps the proof term small *)
    set (k := match o with MRun _ _ _ => _ | _ => _ end) in *. clearbody k.
    destruct H as [<-|H]; [left; left; reflexivity|].
    apply in_app_or in H as [H|H]; [left; right; apply in_or_app; left; exact H|].
    apply in_map_iff in H as (t0 & <- & H).
    destruct (IH b t0 H) as [H1|(t' & -> & H1)]; [left; right; apply in_or_app; right; apply in_map, H1|].
    right. exists t'. auto.
  Qed.

  Lemma crash_traces_prefix a b : In a (crash_traces (a ++ b)).
  Proof.
    induction a as [|o a IH]; [destruct b; left; reflexivity|].
    cbn [app crash_traces]. right. apply in_or_app. right. apply in_map, IH.
  Qed.

  Lemma crash_traces_in_run a d i cl b :
    In (a ++ [MRunCrash d cl]) (crash_traces (a ++ MRun d i cl :: b)).
  Proof.
    induction a as [|o a IH]; cbn [app crash_traces]; right; [left; reflexivity|].
    apply in_or_app. right. apply in_map, IH.
  Qed.

  Lemma crash_traces_full ops : In ops (crash_traces ops).
  Proof. pose proof (crash_traces_prefix ops []) as H. rewrite app_nil_r in H. exact H. Qed.

  Definition safely (I : slot -> Prop) (ops : list mop) (s : slot) (Q : slot -> Prop) : Prop :=
    (forall t, In t (crash_traces ops) -> I (exec t s)) /\ Q (exec ops s).

  Lemma safely_weaken {I J Q R : slot -> Prop} {ops s} :
    (forall s', I s' -> J s') -> (forall s', Q s' -> R s') -> safely I ops s Q -> safely J ops s R.
  Proof. intros IJ QR [S HQ]. split; auto. Qed.

  Lemma safely_app {I a} {b : slot -> list mop} {s Q R} :
    safely I a s Q -> (forall s', Q s' -> safely I (b s') s' R) ->
    safely I (a ++ b (exec a s)) s R.
  Proof.
    intros [Sa Qa] Hb. destruct (Hb _ Qa) as [Sb Rb]. split; [|rewrite exec_app; exact Rb].
    intros t Ht. apply crash_traces_app in Ht as [Ht|(t' & -> & Ht)]; [exact (Sa t Ht)|].
    rewrite exec_app. exact (Sb t' Ht).
  Qed.

  Fixpoint guarded (pre : mop -> slot -> Prop) (ops : list mop) (s : slot) : Prop :=
    match ops with
    | [] => True
    | o :: r => pre o s /\ guarded pre r (apply o s)
    end.

  Lemma guarded_safely (I : slot -> Prop) (pre : mop -> slot -> Prop) :
    (forall o s, I s -> pre o s -> I (apply o s)) ->
    (forall d i cl s, pre (MRun d i cl) s -> pre (MRunCrash d cl) s) ->
    forall ops s (Q : slot -> Prop), I s -> guarded pre ops s -> Q (exec ops s) ->
    safely I ops s (fun s' => I s' /\ Q s').
  Proof.
    intros step crash ops s Q Is G HQ.
    enough (S : forall t, In t (crash_traces ops) -> I (exec t s))
      by exact (conj S (conj (S _ (crash_traces_full ops)) HQ)).
    clear HQ. revert s Is G. induction ops as [|o r IH]; intros s Is G t Ht.
    - destruct Ht as [<-|[]]. exact Is.
    - destruct G as [Go Gr]. destruct Ht as [<-|Ht]; [exact Is|]. apply in_app_or in Ht as [Ht|Ht].
      + destruct o; try contradiction. destruct Ht as [<-|[]]. apply (step _ s Is), (crash _ _ _ _ Go).
      + apply in_map_iff in Ht as (t' & <- & Ht). exact (IH _ (step o s Is Go) Gr t' Ht).
  Qed.

  (* invariant of build and package workspaces *)
  Definition InvB (s : slot) : Prop :=
    (exists_ s = false -> cont s = Empty) /\
    cont s <> Garbage /\
    (forall d x, cont s = Out d x -> dirst s = Some d \/ dirst s = None) /\
    (forall d, cont s = Partial d -> dirst s = Some d \/ dirst s = None) /\
    (forall i, inputs s = Some i ->
       exists d, dirst s = Some d /\ cont s = Out d i /\ result s = Some (RHash (hash (Out d i)))).

  (* what the prepare phase establishes and the body of a build or package step starts from *)
  Definition Ready (d : D) (s : slot) : Prop := InvB s /\ exists_ s = true /\ dirst s = Some d.

  Lemma Ready_cont d s : Ready d s ->
    cont s = Empty \/ (exists x, cont s = Out d x) \/ cont s = Partial d.
  Proof.
    intros ((_ & G & O & P & _) & _ & Hd).
    destruct (cont s) as [|d' x|d'|]; auto.
    - right. left. exists x. destruct (O d' x eq_refl) as [H|H]; congruence.
    - right. right. destruct (P d' eq_refl) as [H|H]; congruence.
    - destruct (G eq_refl).
  Qed.

  Lemma run_on_ready d ins (cl : bool) s : Ready d s ->
    run_on d ins (if cl then Empty else cont s) = Out d ins /\
    crash_on d (if cl then Empty else cont s) = Partial d.
  Proof.
    intros R. destruct cl; [split; reflexivity|].
    destruct (Ready_cont d s R) as [H|[[x H]|H]]; rewrite H; cbn; rewrite ?N.eqb_refl; split; reflexivity.
  Qed.

  Lemma InvB_noinputs s :
    (exists_ s = false -> cont s = Empty) -> cont s <> Garbage ->
    (forall d x, cont s = Out d x -> dirst s = Some d \/ dirst s = None) ->
    (forall d, cont s = Partial d -> dirst s = Some d \/ dirst s = None) ->
    inputs s = None -> InvB s.
  Proof. intros. unfold InvB. repeat split; auto. intros i Hi. congruence. Qed.

  Lemma InvB_empty : InvB empty_slot.
  Proof. apply InvB_noinputs; cbn; congruence. Qed.

  (* content goes or the directory is relabelled only while the inputs are invalidated, the
     script runs only in its own directory, the inputs are recorded last *)
  Definition preB (o : mop) (s : slot) : Prop :=
    match o with
    | MPrune | MSetTime | MClrDir => inputs s = None
    | MReset _ | MSetDir _ => cont s = Empty
    | MRun d _ _ | MRunCrash d _ => exists_ s = true /\ dirst s = Some d /\ inputs s = None
    | MSetInputs i =>
      exists d, dirst s = Some d /\ cont s = Out d i /\ result s = Some (RHash (hash (Out d i)))
    | _ => True
    end.

  Lemma InvB_apply o s : InvB s -> preB o s -> InvB (apply o s).
  Proof.
    intros I H. pose proof I as (E & G & O & P & F).
    destruct o as [| |d| | | | |d i cl|d cl| |d|i|d|]; cbn in H.
    (* MResetNone, MResetEmpty, MDelInputs, MSetTime, MClrDir *)
    4-7, 14: apply InvB_noinputs; auto.
    (* MMkdir, MPrune, MReset, MRun, MRunCrash, MSetResult, MSetVid, MSetInputs, MSetDir *)
    - refine (conj _ (conj G (conj O (conj P F)))). discriminate.
    - apply InvB_noinputs; cbn; trivial; discriminate.
    - apply InvB_noinputs; cbn; auto; rewrite H; discriminate.
    - destruct H as (Hx & Hd & Hi).
      destruct (run_on_ready d i cl s (conj I (conj Hx Hd))) as [Hr _].
      apply InvB_noinputs; cbn; rewrite ?Hr; trivial; try congruence. intros d0 x [= <- _]; auto.
    - destruct H as (Hx & Hd & Hi).
      destruct (run_on_ready d [] cl s (conj I (conj Hx Hd))) as [_ Hk].
      apply InvB_noinputs; cbn; rewrite ?Hk; trivial; try congruence. intros d0 [= <-]; auto.
    - refine (conj E (conj G (conj O (conj P _)))). intros i Hi.
      destruct (F i Hi) as (d & Hd & Hc & Hr). exists d. cbn. rewrite Hc. auto.
    - exact I.
    - refine (conj E (conj G (conj O (conj P _)))). intros i0 [= <-]. exact H.
    - refine (conj E (conj G (conj _ (conj _ _)))); cbn; try (rewrite H; discriminate).
      intros i Hi. destruct (F i Hi) as (? & _ & Hc & _). rewrite H in Hc. discriminate.
  Qed.

  Lemma InvB_resetnone s : InvB s -> InvB (apply MResetNone s).
  Proof. intros I. exact (InvB_apply MResetNone s I Logic.I). Qed.

  Lemma InvB_delinputs s : InvB s -> InvB (apply MDelInputs s).
  Proof. intros I. exact (InvB_apply MDelInputs s I Logic.I). Qed.

  Lemma InvB_settime s : InvB s -> inputs s = None -> InvB (apply MSetTime s).
  Proof. exact (InvB_apply MSetTime s). Qed.

  Lemma InvB_setvid s d : InvB s -> InvB (apply (MSetVid d) s).
  Proof. intros I. exact (InvB_apply (MSetVid d) s I Logic.I). Qed.

  Lemma InvB_setresult s : InvB s -> InvB (apply MSetResult s).
  Proof. intros I. exact (InvB_apply MSetResult s I Logic.I). Qed.

  Lemma InvB_mkdir s : InvB s -> exists_ s = false -> InvB (apply MMkdir s).
  Proof. intros I _. exact (InvB_apply MMkdir s I Logic.I). Qed.

  Lemma InvB_prune s : InvB s -> inputs s = None -> InvB (apply MPrune s).
  Proof. exact (InvB_apply MPrune s). Qed.

  Lemma InvB_reset_empty s d : InvB s -> cont s = Empty -> InvB (apply (MReset d) s).
  Proof. exact (InvB_apply (MReset d) s). Qed.

  Lemma InvB_guarded ops s (Q : slot -> Prop) :
    InvB s -> guarded preB ops s -> Q (exec ops s) -> safely InvB ops s (fun s' => InvB s' /\ Q s').
  Proof. exact (guarded_safely InvB preB InvB_apply (fun _ _ _ _ H => H) ops s Q). Qed.

  (* end state of a build or package step; the [_ok] lemmas below are [safely InvB _ s (Built d ins)]
     written out, which is how [safely_app] composes them *)
  Definition Built (d : D) (ins : list Hsh) (s : slot) : Prop :=
    Ready d s /\ cont s = Out d ins /\ inputs s = Some ins /\ result s = Some (RHash (hash (Out d ins))).

  (* to reach it a step only has to record digest and inputs under the invariant (flat and with the
     invariant in front, the shape [InvB_guarded] concludes): content and result follow *)
  Lemma Built_intro d ins s :
    InvB s /\ exists_ s = true /\ dirst s = Some d /\ inputs s = Some ins -> Built d ins s.
  Proof.
    intros (I & Hx & Hd & Hi). destruct (proj2 (proj2 (proj2 (proj2 I))) ins Hi) as (d' & Hd' & Hc & Hr).
    replace d' with d in * by congruence. exact (conj (conj I (conj Hx Hd)) (conj Hc (conj Hi Hr))).
  Qed.

  (* what a completed step of any kind leaves: the consequence of [Built] and of [Fetched] that the project level reads *)
  Definition Holds (c : content) (s : slot) : Prop := cont s = c /\ result s = Some (RHash (hash c)).

  Lemma Built_Holds d ins s : Built d ins s -> Holds (Out d ins) s.
  Proof. intros (_ & Hc & _ & Hr). exact (conj Hc Hr). Qed.

  Lemma prepare_ok d s : InvB s ->
    safely InvB (build_prepare d s) s (Ready d) /\ safely InvB (package_prepare d s) s (Ready d).
  Proof.
    intros I. unfold build_prepare, package_prepare.
    destruct (exists_ s) eqn:Ex; [destruct (opt_eqb N.eqb (dirst s) (Some d)) eqn:Ed|];
      split; apply InvB_guarded; cbn; auto.
    1, 2: split; [exact Ex|]; apply opt_nat_eqb_eq, Ed.
    (* a directory yet to be made is reset without a prune: it is empty by the invariant *)
    all: split; [|split]; auto; apply I, Ex.
  Qed.

  Lemma build_prepare_ok d s : InvB s ->
    (forall t, In t (crash_traces (build_prepare d s)) -> InvB (exec t s)) /\
    Ready d (exec (build_prepare d s) s).
  Proof. intros I. exact (proj1 (prepare_ok d s I)). Qed.

  Lemma package_prepare_ok d s : InvB s ->
    (forall t, In t (crash_traces (package_prepare d s)) -> InvB (exec t s)) /\
    Ready d (exec (package_prepare d s) s).
  Proof. intros I. exact (proj2 (prepare_ok d s I)). Qed.

  Lemma build_body_ok c d ins s : Ready d s ->
    (forall t, In t (crash_traces (build_body c d ins s)) -> InvB (exec t s)) /\
    let s' := exec (build_body c d ins s) s in
    Ready d s' /\ cont s' = Out d ins /\ inputs s' = Some ins /\
    result s' = Some (RHash (hash (Out d ins))).
  Proof.
    intros R. apply (safely_weaken (fun _ H => H) (Built_intro d ins)).
    destruct (run_on_ready d ins (clean_build c) s R) as [Hr _]. destruct R as (I & Hx & Hd).
    unfold build_body.
    destruct (negb (force c) && opt_eqb list_eqb (inputs s) (Some ins)) eqn:Sk.
    - apply andb_true_iff in Sk as [_ Sk]. apply opt_list_eqb_eq in Sk.
      destruct (clean_build c); apply InvB_guarded; cbn; auto.
    - apply InvB_guarded; cbn; auto. rewrite Hr. repeat apply conj; eauto.
  Qed.

  (* a package step's body is a build step's body in clean mode *)
  Lemma package_body_ok c d ins s : Ready d s ->
    (forall t, In t (crash_traces (package_body c d ins s)) -> InvB (exec t s)) /\
    let s' := exec (package_body c d ins s) s in
    Ready d s' /\ cont s' = Out d ins /\ inputs s' = Some ins /\
    result s' = Some (RHash (hash (Out d ins))).
  Proof.
    exact (build_body_ok {| force := force c; dev_rehash := dev_rehash c; clean_build := true |} d ins s).
  Qed.

  Lemma cook_build_ok c d ins s : InvB s ->
    (forall t, In t (crash_traces (cook_build hash c d ins s)) -> InvB (exec t s)) /\
    let s' := exec (cook_build hash c d ins s) s in
    Ready d s' /\ cont s' = Out d ins /\ inputs s' = Some ins /\
    result s' = Some (RHash (hash (Out d ins))).
  Proof.
    intros I. exact (safely_app (R := Built d ins) (build_prepare_ok d s I) (build_body_ok c d ins)).
  Qed.

  Lemma cook_package_ok c d ins s : InvB s ->
    (forall t, In t (crash_traces (cook_package hash c d ins s)) -> InvB (exec t s)) /\
    let s' := exec (cook_package hash c d ins s) s in
    Ready d s' /\ cont s' = Out d ins /\ inputs s' = Some ins /\
    result s' = Some (RHash (hash (Out d ins))).
  Proof.
    intros I. exact (safely_app (R := Built d ins) (package_prepare_ok d s I) (package_body_ok c d ins)).
  Qed.

  (* invariant of source (checkout) workspaces *)
  Definition InvC (s : slot) : Prop :=
    forall d i h, dirst s = Some d -> inputs s = Some i -> result s = Some (RHash h) ->
                  h = hash (cont s) -> cont s = Out d i.

  Lemma InvC_nodir s : dirst s = None -> InvC s.
  Proof. unfold InvC. intros H d i h Hd. congruence. Qed.

  Lemma InvC_empty : InvC empty_slot.
  Proof. apply InvC_nodir. reflexivity. Qed.

  Lemma InvC_nores s : (forall h, result s <> Some (RHash h)) -> InvC s.
  Proof. unfold InvC. intros H d i h _ _ Hr. exfalso. eapply H; eauto. Qed.

  (* content, directory state and inputs change only while no result hash is stored (the
     timestamp marker); the hash is stored last *)
  Definition preC (o : mop) (s : slot) : Prop :=
    match o with
    | MPrune | MRun _ _ _ | MRunCrash _ _ | MSetDir _ | MSetInputs _ => forall h, result s <> Some (RHash h)
    | MSetResult => forall d i, dirst s = Some d -> inputs s = Some i -> cont s = Out d i
    | _ => True
    end.

  Lemma InvC_apply o s : InvC s -> preC o s -> InvC (apply o s).
  Proof.
    intros I H. destruct o; cbn in H;
      try (apply InvC_nores; first [exact H | discriminate]).
    (* left: MMkdir, MDelInputs, MSetResult, MSetVid, MClrDir *)
    - exact I.
    - intros d i h _ [=].
    - intros d i h Hd Hi _ _. exact (H d i Hd Hi).
    - exact I.
    - apply InvC_nodir. reflexivity.
  Qed.

  Lemma InvC_guarded ops s (Q : slot -> Prop) :
    InvC s -> guarded preC ops s -> Q (exec ops s) -> safely InvC ops s (fun s' => InvC s' /\ Q s').
  Proof. exact (guarded_safely InvC preC InvC_apply (fun _ _ _ _ H => H) ops s Q). Qed.

  (* end state of a checkout step, the counterpart of [Built]; the stored hash stays that of [cont s], the form
     from which [InvC] yields the content *)
  Definition Fetched (d : D) (ins : list Hsh) (s : slot) : Prop :=
    InvC s /\ exists_ s = true /\ dirst s = Some d /\ inputs s = Some ins /\
    result s = Some (RHash (hash (cont s))).

  Lemma Fetched_complete d ins s : Fetched d ins s -> Holds (Out d ins) s.
  Proof.
    intros (I & _ & Hd & Hi & Hr). pose proof (I d ins _ Hd Hi Hr eq_refl) as Hc.
    rewrite Hc in Hr. exact (conj Hc Hr).
  Qed.

  Lemma checkout_body_ok c det d ins s0 s : InvC s -> exists_ s = true ->
    safely InvC (checkout_body hash c det d ins s0 s) s (Fetched d ins).
  Proof.
    intros I Hx. unfold checkout_body.
    match goal with |- context [if ?b then _ else _] => destruct b eqn:Dec end.
    - clear Dec. destruct (result s) eqn:Hr; apply InvC_guarded; cbn; trivial;
        repeat apply conj; trivial; congruence.
    - apply orb_false_elim in Dec as [Dec Hr]. apply orb_false_elim in Dec as [Dec Hi].
      apply orb_false_elim in Dec as [_ Hd].
      apply negb_false_iff, opt_nat_eqb_eq in Hd. apply negb_false_iff, opt_list_eqb_eq in Hi.
      apply InvC_guarded; cbn; trivial. repeat apply conj; trivial.
      destruct (result s) as [[h|]|]; try discriminate.
      apply negb_false_iff, N.eqb_eq in Hr as ->. reflexivity.
  Qed.

  Lemma cook_checkout_safely c det d ins s : InvC s ->
    safely InvC (cook_checkout hash c det d ins s) s (Fetched d ins).
  Proof.
    intros I. unfold cook_checkout.
    apply (safely_app (Q := fun s1 => InvC s1 /\ exists_ s1 = true)).
    - destruct (exists_ s) eqn:Ex; apply InvC_guarded; cbn; auto.
    - intros s1 [I1 Hx]. apply checkout_body_ok; assumption.
  Qed.

  Lemma cook_checkout_ok c det d ins s : InvC s ->
    (forall t, In t (crash_traces (cook_checkout hash c det d ins s)) -> InvC (exec t s)) /\
    let s' := exec (cook_checkout hash c det d ins s) s in
    InvC s' /\ cont s' = Out d ins /\ result s' = Some (RHash (hash (Out d ins))) /\
    dirst s' = Some d /\ inputs s' = Some ins /\ exists_ s' = true.
  Proof.
    intros I. destruct (cook_checkout_safely c det d ins s I) as [S F]. split; [exact S|].
    destruct (Fetched_complete d ins _ F) as [Hc Hr]. destruct F as (I' & Hx & Hd & Hi & _).
    exact (conj I' (conj Hc (conj Hr (conj Hd (conj Hi Hx))))).
  Qed.

  Variable is_src : N -> bool.      (* which workspace directories are source (checkout) workspaces *)

  (* [AllInv]: the one assumption on the workspace state in the theorems of C01 and C05, and what every crash image keeps *)
  Definition InvP (p : N) (s : slot) : Prop := if is_src p then InvC s else InvB s.
  Definition AllInv (w : wstate) : Prop := forall p, InvP p (w p).

  (* ties the cook function [cook_step] chooses for a step to the invariant [InvP] asks of its workspace *)
  Definition kind_ok (sd : stepdef) : Prop :=
    match sd_kind sd with KCheckout _ => is_src (sd_path sd) = true | _ => is_src (sd_path sd) = false end.

  Lemma AllInv_upd w p s : AllInv w -> InvP p s -> AllInv (upd w p s).
  Proof.
    intros A I q. destruct (N.eq_dec q p) as [->|Hn]; [rewrite upd_eq|rewrite upd_neq]; auto.
  Qed.

  Lemma cook_step_safely c w sd : AllInv w -> kind_ok sd ->
    safely (fun s => AllInv (upd w (sd_path sd) s)) (cook_step hash c w sd) (w (sd_path sd))
      (Holds (Out (sd_d sd) (map (res_hash w) (sd_deps sd)))).
  Proof.
    intros A K. pose proof (A (sd_path sd)) as Ip.
    pose proof (fun s' => AllInv_upd w (sd_path sd) s' A) as U.
    unfold InvP, kind_ok, cook_step in *. destruct (sd_kind sd); rewrite K in *.
    - apply (safely_weaken U (Fetched_complete _ _)), cook_checkout_safely, Ip.
    - apply (safely_weaken U (Built_Holds _ _)), cook_build_ok, Ip.
    - apply (safely_weaken U (Built_Holds _ _)), cook_package_ok, Ip.
  Qed.

  Lemma cook_step_ok c w sd : AllInv w -> kind_ok sd ->
    (forall t, In t (crash_traces (cook_step hash c w sd)) ->
               AllInv (upd w (sd_path sd) (exec t (w (sd_path sd))))) /\
    let w' := build_step hash c w sd in
    AllInv w' /\
    cont (w' (sd_path sd)) = Out (sd_d sd) (map (res_hash w) (sd_deps sd)) /\
    result (w' (sd_path sd)) = Some (RHash (hash (Out (sd_d sd) (map (res_hash w) (sd_deps sd))))).
  Proof.
    intros A K. destruct (cook_step_safely c w sd A K) as [S H]. split; [exact S|].
    unfold build_step. rewrite upd_eq. exact (conj (S _ (crash_traces_full _)) H).
  Qed.

  (* the assumption on projects in C01 and C05 ([wf]); [seen], the workspaces of the steps already taken, is there for
     the induction of [build_from_good] *)
  Fixpoint wf_from (seen : list N) (P : project) : Prop :=
    match P with
    | [] => True
    | sd :: r => ~ In (sd_path sd) seen /\ (forall q, In q (sd_deps sd) -> In q seen) /\ kind_ok sd /\
                 wf_from (sd_path sd :: seen) r
    end.
  Definition wf (P : project) : Prop := wf_from [] P.

  (* induction invariant of [build_from_good]; the result hash is part of it because the next step's input hashes are
     read from it *)
  Definition Good (seen : list N) (w : wstate) (cl : N -> content) : Prop :=
    forall p, In p seen -> cont (w p) = cl p /\ result (w p) = Some (RHash (hash (cl p))).

  Lemma Good_nil w cl : Good [] w cl.
  Proof. intros p []. Qed.

  Lemma build_from_good c : forall P seen w cl,
    AllInv w -> Good seen w cl -> wf_from seen P ->
    let w' := fold_left (build_step hash c) P w in
    let cl' := fold_left (clean_step hash) P cl in
    AllInv w' /\ Good (rev (map sd_path P) ++ seen) w' cl'.
  Proof.
    induction P as [|sd P IH]; intros seen w cl A G W; [split; assumption|].
    destruct W as (Wn & Wd & Wk & Wr). destruct (cook_step_ok c w sd A Wk) as (_ & A' & Sc & Sr).
    cbn [map rev fold_left]. rewrite <- app_assoc.
    apply IH; [exact A'| |exact Wr].
    unfold clean_step. intros q [<-|Hq].
    - rewrite upd_eq, Sc, Sr.
      replace (map (res_hash w) (sd_deps sd)) with (map (fun p => hash (cl p)) (sd_deps sd)); [auto|].
      apply map_ext_in. intros q Hq. unfold res_hash. destruct (G q (Wd q Hq)) as [_ ->]. reflexivity.
    - unfold build_step. rewrite !upd_neq by (intros ->; auto). apply G, Hq.
  Qed.
End Hash.
