(* C19 — `bob archive find|clean` keep what the retention expressions select and
   what that refers to, and the stored index never shows: if binStat identifies
   content, a scanning command gives what it gives on a fresh index
   (index_transparent), so the clean theorems, stated on the index the command
   works on, hold of the archive content itself (clean_exact_on_archive).  Most
   examples at the end run hist0, a history that leaves the stored index stale.
   The vocabulary of the statements (geb, q_run, reach, selects, Inv, wf, compat,
   stat_faithful, scanning, with_scan, qix, ar_del_all) is defined at the end of
   Model.v, dist_reach at the end of Proofs.v. *)
From Coq Require Import List NArith Arith Bool Sorted.
Require Import BobV.Gen.ConstsC19 BobV.C19.Model BobV.C19.Proofs.
Import ListNotations.
Open Scope N_scope.

(* P1. The bounded queue of RetainExpression.evaluate: after ANY sequence of
   arrivals (distinct build-ids) it holds min(n, #arrivals) items, every retained
   item is at least as good (ORDER BY key, ASC or DESC, undefined key last) as
   every dropped one, best first. *)
Theorem limit_queue_topn : forall asc n its,
  (0 < n)%nat -> NoDup (map fst its) ->
  let q := q_run asc n its in
  length q = Nat.min n (length its) /\ incl q its /\ NoDup (map fst q) /\
  (forall x y, In x q -> In y its -> ~ In y q -> geb asc (snd x) (snd y) = true) /\
  StronglySorted (fun a b : qitem => geb asc (snd a) (snd b) = true) q.
Proof.
  intros asc n its _ Hnd. destruct (q_run_topn asc n its) as (H1 & H2 & H3 & H4).
  exact (conj H1 (conj H2 (conj (q_run_NoDup asc n its Hnd) (conj H3 H4)))).
Qed.

Theorem sort_order_total : forall asc,
  (forall a, geb asc a a = true) /\
  (forall a b, geb asc a b = true \/ geb asc b a = true) /\
  (forall a b c, geb asc a b = true -> geb asc b c = true -> geb asc a c = true) /\
  (forall k, geb asc (Some k) None = true /\ geb asc None (Some k) = false).
Proof.
  intros asc. split; [apply geb_refl|]. split; [apply geb_total|]. split; [apply geb_trans|].
  split; reflexivity.
Qed.

(* P1. query: a successful query returns the union of what every expression
   [selects]: without LIMIT all matching artifacts; with LIMIT n a duplicate-free
   subset of the matching ones of size min(n, #matching) such that no artifact
   left out has a strictly better sort key than one taken. *)
Theorem query_selects : forall I es S,
  NoDup (build_ids I) -> query I es = Ok S ->
  exists rs Ss, Forall2 (fun e r => e = RGood r /\ r_limit r <> Some 0) es rs /\
                Forall2 (selects I) rs Ss /\
                forall x, In x S <-> exists S1, In S1 Ss /\ In x S1.
Proof.
  intros I es S Hnd. unfold query. destruct (parse_all es) as [rs|] eqn:Ep; [|discriminate].
  destruct (eval_rows I _ (build_ids I)) as [sts|] eqn:Er; [|discriminate]. intros [= <-].
  exists rs, (map (fun p => rs_retained (snd p)) sts). split; [now apply parse_all_spec|]. split.
  - clear Ep. revert sts Er. induction rs as [|r rs IH]; intros sts; simpl.
    + rewrite eval_rows_nil. intros [= <-]. constructor.
    + rewrite eval_rows_cons. simpl.
      destruct (run_rexpr I r rs_init (build_ids I)) as [st|] eqn:Er; [|discriminate].
      destruct (eval_rows I _ (build_ids I)) as [l|]; [|discriminate].
      intros [= <-]. constructor; [now apply run_rexpr_selects|now apply IH].
  - rewrite flat_map_concat_map. apply in_concat.
Qed.

(* P2. The closure computed by the loop is reachability over the refs table. *)
Theorem closure_is_reachability : forall I S0 R,
  closure I S0 = Some R -> forall x, In x R <-> reach I S0 x.
Proof.
  intros I S0 R Hc. eapply close_correct; [exact Hc| | |].
  - intros x [Hx|Hx]; [now apply reach_base|].
    apply in_flat_map in Hx as (a & Ha & Hx). eapply reach_step; [apply reach_base; exact Ha|exact Hx].
  - apply incl_refl.
  - intros y z Hy Hz. right. apply in_flat_map. eauto.
Qed.

(* P1. clean deletes every indexed artifact that is neither selected nor
   reachable from a selected one through the references: a file survives iff it
   is retained or not in the index at all (qix = the index the command works
   on: the rescanned one, or with -n the stored one). *)
Theorem clean_deletes_everything_else : forall noscan fail es I A o I' A',
  run_cmd (CClean false noscan fail es) I A = (o, I', A') -> o_status o = SOk ->
  exists sel, query (qix noscan I A) es = Ok sel /\
    forall f, In f A' <-> In f A /\ (reach (qix noscan I A) sel (f_bid f) \/
                                     ~ In (f_bid f) (build_ids (qix noscan I A))).
Proof.
  intros noscan fail es I A o I' A'. rewrite run_cmd_outcome, <- (do_scan_qix noscan fail I A).
  cbn [cmd_noscan cmd_fail outcome].
  destruct (do_scan noscan fail I A) as [[s na] [|]]; cbn [fst]; [intros [= <- _ _]; discriminate|].
  destruct (query (fst s) es) as [sel|]; [|intros [= <- _ _]; discriminate].
  destruct (closure (fst s) sel) as [keep|] eqn:Ec; intros [= <- _ <-]; [|discriminate]. intros _.
  pose proof (closure_is_reachability _ _ _ Ec) as Hk.
  exists sel. split; [reflexivity|]. intros f. rewrite ar_del_all_In, victims_of_In, <- Hk.
  apply and_iff_compat_l.
  destruct (bmem (f_bid f) keep) eqn:E; [apply bmem_In in E|apply bmem_false in E]; clear - E; tauto.
Qed.

(* P1. ... in particular it keeps every artifact that is selected or reachable
   from a selected one. *)
Theorem clean_keeps_selected_and_closure : forall noscan fail es I A o I' A',
  run_cmd (CClean false noscan fail es) I A = (o, I', A') -> o_status o = SOk ->
  exists sel, query (qix noscan I A) es = Ok sel /\
    forall f, In f A -> reach (qix noscan I A) sel (f_bid f) -> In f A'.
Proof.
  intros noscan fail es I A o I' A' Hrun Hok.
  destruct (clean_deletes_everything_else _ _ _ _ _ _ _ _ Hrun Hok) as (sel & Hq & H).
  exists sel. split; [exact Hq|]. intros f Hf Hr. apply H. auto.
Qed.

(* P1. --dry-run, find, scan and every command that fails delete nothing. *)
Theorem dry_run_deletes_nothing : forall c I A,
  (match c with CClean false _ _ _ => o_status (fst (fst (run_cmd c I A))) <> SOk | _ => True end) ->
  snd (run_cmd c I A) = A.
Proof.
  intros c I A H. rewrite run_cmd_outcome in *. destruct (do_scan _ _ I A) as [[s na] [|]]; [reflexivity|].
  destruct c as [fail|noscan fail es|[|] noscan fail es]; cbn [outcome] in *; try reflexivity.
  - destruct (query _ es); reflexivity.
  - destruct (query _ es) as [sel|]; [|reflexivity]. destruct (closure _ sel); reflexivity.
  - destruct (query _ es) as [sel|]; [|reflexivity]. destruct (closure _ sel); [|reflexivity].
    now contradiction H.
Qed.

(* ... and --dry-run prints exactly what the same clean deletes. *)
Theorem dry_run_lists_victims : forall noscan fail es I A,
  let d := run_cmd (CClean true noscan fail es) I A in
  let r := run_cmd (CClean false noscan fail es) I A in
  o_status (fst (fst d)) = o_status (fst (fst r)) /\
  (o_status (fst (fst d)) = SOk ->
   forall f, In f (snd r) <-> In f A /\ ~ In (f_bid f) (o_list (fst (fst d)))).
Proof.
  intros noscan fail es I A. rewrite !run_cmd_outcome. cbn [cmd_noscan cmd_fail].
  destruct (do_scan noscan fail I A) as [[s na] [|]]; [split; [reflexivity|discriminate]|].
  rewrite outcome_dry. destruct (outcome (CClean false noscan fail es) (fst s)) as [[st l] V].
  split; [reflexivity|]. intros _ f. apply ar_del_all_In.
Qed.

(* P1. find lists exactly the directly selected artifacts (sorted, no
   duplicates, nothing that is only referenced) and changes nothing. *)
Theorem find_lists_exactly_selected : forall noscan fail es I A o I' A',
  run_cmd (CFind noscan fail es) I A = (o, I', A') -> o_status o = SOk ->
  exists sel, query (qix noscan I A) es = Ok sel /\ o_list o = usort sel /\
              (forall b, In b (o_list o) <-> In b sel) /\ A' = A.
Proof.
  intros noscan fail es I A o I' A'. rewrite run_cmd_outcome, <- (do_scan_qix noscan fail I A).
  cbn [cmd_noscan cmd_fail outcome].
  destruct (do_scan noscan fail I A) as [[s na] [|]]; cbn [fst]; [intros [= <- _ _]; discriminate|].
  destruct (query (fst s) es) as [sel|]; intros [= <- _ <-]; [|discriminate]. intros _.
  exists sel. repeat split; apply usort_In.
Qed.

(* P1. scan makes the index the exact image of the archive, whatever index
   (consistent with an earlier archive content A0) it started from. *)
Theorem scan_index_exact : forall I cl A0 A,
  Inv I A0 -> wf A0 -> wf A -> compat A0 A -> Inv (fst (scan (I, cl) A)) A.
Proof. intros I cl A0 A HI _. now apply scan_Inv. Qed.

(* P1. Index transparency: after ANY history of uploads, removals, in-place
   replacements, touches and earlier commands (scanning or -n, failing or not),
   every command that scans gives the result (output, remaining artifacts, new
   index) it gives on a freshly built index.  Hypothesis: binStat identifies
   content (same name and stat => same audit trail). *)
Theorem index_transparent : forall h c,
  stat_faithful h -> scanning c = true ->
  run_cmd c (fst (hist_state ix_empty [] h)) (snd (hist_state ix_empty [] h)) =
  run_cmd c ix_empty (snd (hist_state ix_empty [] h)).
Proof.
  intros h c Hsf Hsc.
  destruct (hist_state_hinv h h ix_empty [] [] Hsf (incl_refl _) (hinv_init h)) as (A0 & Hh).
  pose proof (hinv_compat _ _ _ _ Hsf Hh) as Hc. destruct Hh as [H1 H2 _ _].
  now apply (cmd_index_transparent c _ A0).
Qed.

(* P1. What -n means precisely: on an index that is the image of the archive
   content A0 of the last scan, the command gives the status and the list that
   the scanning command gives on A0 (freshly indexed), and deletes from the
   present archive A the artifacts V that this command deletes from A0. *)
Theorem noscan_uses_last_scan : forall c I A A0,
  scanning c = false -> Inv I A0 -> wf A0 ->
  exists V,
    run_cmd c I A =
      ({| o_status := o_status (fst (fst (run_cmd (with_scan c) ix_empty A0)));
          o_noaudit := [];
          o_list := o_list (fst (fst (run_cmd (with_scan c) ix_empty A0))) |},
       snd (fst (run_cmd (with_scan c) ix_empty A0)),
       ar_del_all V A) /\
    snd (run_cmd (with_scan c) ix_empty A0) = ar_del_all V A0 /\
    Inv (snd (fst (run_cmd (with_scan c) ix_empty A0))) (ar_del_all V A0).
Proof.
  intros c I A A0 Hsc Hinv Hwf. rewrite scanning_noscan, negb_false_iff in Hsc.
  assert (fst (scan (ix_empty, false) A0) = I) as HK by (eapply Inv_unique; [now apply scan_fresh|exact Hinv]).
  assert (cmd_noscan (with_scan c) = false) as Hsc' by now destruct c.
  rewrite (run_cmd_noscan c I A A0 Hsc Hinv), (run_cmd_scan (with_scan c) ix_empty A0 I A0 Hsc' HK Hinv).
  assert (cmd_fail (with_scan c) = false) as -> by now destruct c.
  rewrite outcome_with_scan. destruct (outcome c I) as [[st l] V].
  exists V. split; [reflexivity|]. split; [reflexivity|]. now apply Inv_remove_all.
Qed.

(* End to end, in terms of the archive content only: after a scanning clean a
   file is left iff it was there and it has no audit trail (not an artifact) or
   is selected / transitively referenced, where the index K is the exact image
   of the archive (Inv K A; its build-ids are distinct, so query_selects
   describes sel). *)
Theorem clean_exact_on_archive : forall I A0 A fail es o I' A',
  Inv I A0 -> wf A0 -> wf A -> compat A0 A ->
  run_cmd (CClean false false fail es) I A = (o, I', A') -> o_status o = SOk ->
  let K := fst (scan (ix_empty, false) A) in
  Inv K A /\ NoDup (build_ids K) /\
  exists sel, query K es = Ok sel /\
    forall f, In f A' <-> In f A /\ (f_audit f = None \/ reach K sel (f_bid f)).
Proof.
  intros I A0 A fail es o I' A' Hinv _ Hwf Hc Hrun Hok K.
  assert (Inv K A) as HK by now apply scan_fresh.
  split; [exact HK|]. split; [apply Inv_NoDup_ids with (A := A); exact HK|].
  destruct (clean_deletes_everything_else _ _ _ _ _ _ _ _ Hrun Hok) as (sel & Hq & Hiff).
  unfold qix in *. rewrite (scan_canonical I false false A0 A Hinv Hwf Hc) in *.
  exists sel. split; [exact Hq|]. intros f. rewrite Hiff.
  split; intros [Hf H]; (split; [exact Hf|]); apply (Inv_not_indexed K A f HK Hwf) in Hf; clear - H Hf; tauto.
Qed.

(* P2. The closure loop always terminates within the model's fuel. *)
Theorem closure_loop_fuel_enough : forall c I A, o_status (fst (fst (run_cmd c I A))) <> SFuel.
Proof.
  intros c I A. rewrite run_cmd_outcome. destruct (do_scan _ _ I A) as [[s na] [|]]; [discriminate|].
  destruct c as [fail|noscan fail es|dry noscan fail es]; cbn [outcome]; try discriminate.
  - destruct (query _ es); discriminate.
  - destruct (query _ es) as [sel|]; [|discriminate].
    destruct (closure _ sel) eqn:E; [destruct dry; discriminate|]. now apply closure_fuel_enough in E.
Qed.

(* P2. Audit-level references: exactly the dist artifacts reachable through
   non-dist dependency records; nothing below a dist artifact. *)
Theorem refs_skip_intermediate : forall au b,
  In b (audit_refs au) <-> dist_reach (au_deps au) b.
Proof.
  intros au b. unfold audit_refs. rewrite usort_In. apply rec_refs_reach.
Qed.

Definition s_a : str := [97].   Definition s_b : str := [98].   Definition s_c : str := [99].
Definition b1 : bid := [1].  Definition b2 : bid := [2].  Definition b3 : bid := [3].
Definition b4 : bid := [4].  Definition b5 : bid := [5].

Example limit_queue_nonvacuous :   (* LIMIT 2 DESC over keys b, undefined, c, b, a: c and the later b stay *)
  q_run false 2 [(b1, Some s_b); (b2, None); (b3, Some s_c); (b4, Some s_b); (b5, Some s_a)]
  = [(b3, Some s_c); (b4, Some s_b)]
  /\ q_run true 3 [(b1, None); (b2, Some s_b); (b3, None)] = [(b2, Some s_b); (b1, None); (b3, None)].
Proof. split; vm_compute; reflexivity. Qed.

Definition mk_vars (pkg date : str) : vars :=
  [([109;101;116;97], [([112;97;99;107;97;103;101], pkg)]);       (* meta.package *)
   ([98;117;105;108;100], [([100;97;116;101], date)]);             (* build.date *)
   ([109;101;116;97;69;110;118], [])].
Definition mk_file (b : bid) (st : N) (pkg date : str) (deps : list arec) : afile :=
  {| f_bid := b; f_stat := st; f_audit := Some {| au_vars := mk_vars pkg date; au_deps := deps |} |}.
Definition e_pkg (v : str) : ex := ECmp OEq (EVar [[109;101;116;97]; [112;97;99;107;97;103;101]]) (ELit v).
Definition r_pkg (v : str) (lim : option N) : rsrc :=
  RGood {| r_expr := e_pkg v; r_limit := lim; r_sort := None; r_asc := false |}.

(* b3 -> (build step) -> b2 -> b1; b4 unrelated; b5 = older build of the same package *)
Definition hist0 : list event :=
  [EPut (mk_file b1 1 s_c s_a []);
   EPut (mk_file b2 2 s_b s_a [ARec true b1 []]);
   EPut (mk_file b3 3 s_a s_b [ARec false b5 [ARec true b2 [ARec true b4 []]]]);
   EPut (mk_file b4 4 s_c s_a []);
   EPut (mk_file b5 5 s_a s_a [ARec true b4 []]);
   ECmd (CScan false);
   EDel b2;                                        (* the intermediate artifact vanishes *)
   EPut (mk_file b5 6 s_a s_a [])].                (* in-place rebuild without the reference *)

Example clean_nonvacuous :
  (* keep the newest artifact of package "a": b3 stays, b1 (only referenced by the vanished b2), b4 (only
     referenced by the replaced b5 and below the dist record b2) and the older b5 go *)
  let s := hist_state ix_empty [] hist0 in
  let '(o, I', A') := run_cmd (CClean false false false [r_pkg s_a (Some 1)]) (fst s) (snd s) in
  o_status o = SOk /\ usort (ar_bids (snd s)) = [b1; b3; b4; b5] /\ usort (ar_bids A') = [b3]
  /\ o_list (fst (fst (run_cmd (CClean true false false [r_pkg s_a (Some 1)]) (fst s) (snd s)))) = [b1; b4; b5]
  /\ o_list (fst (fst (run_cmd (CFind false false [r_pkg s_a None; r_pkg s_c (Some 1)]) (fst s) (snd s)))) = [b3; b4; b5].
Proof. vm_compute. repeat apply conj; reflexivity. Qed.

Example index_transparent_nonvacuous :
  stat_faithful hist0 /\
  fst (hist_state ix_empty [] hist0) <> ix_empty /\
  fst (hist_state ix_empty [] hist0) <> fst (scan (ix_empty, false) (snd (hist_state ix_empty [] hist0))) /\
  run_cmd (CClean false false false [r_pkg s_a (Some 1)]) (fst (hist_state ix_empty [] hist0)) (snd (hist_state ix_empty [] hist0))
  = run_cmd (CClean false false false [r_pkg s_a (Some 1)]) ix_empty (snd (hist_state ix_empty [] hist0)).
Proof.
  assert (stat_faithful hist0) as Hsf.
  { intros g f Hg Hf _ Hs.
    (* the stat alone tells the six uploads apart: it gives the position in hist0 *)
    assert (forall x, In (EPut x) hist0 ->
              EPut x = nth (if f_stat x =? 6 then 7%nat else N.to_nat (f_stat x - 1)) hist0 (EDel [])) as Hpos.
    { intros x Hx.
      repeat (destruct Hx as [Hx|Hx]; [try discriminate Hx; injection Hx as <-; reflexivity|]). contradiction. }
    apply Hpos in Hg, Hf. rewrite Hs, <- Hf in Hg. now injection Hg as ->. }
  split; [exact Hsf|]. split; [|split].
  - vm_compute. discriminate.
  - vm_compute. discriminate.
  - now apply index_transparent.
Qed.

Example noscan_nonvacuous :
  (* with -n the stale index of hist0 still knows the vanished b2 and follows its reference: b1 survives
     (a scanning clean deletes it, see clean_nonvacuous) *)
  let s := hist_state ix_empty [] hist0 in
  usort (ar_bids (snd (run_cmd (CClean false true false [r_pkg s_a (Some 1)]) (fst s) (snd s)))) = [b1; b3].
Proof. vm_compute. reflexivity. Qed.

Example query_error_nonvacuous :
  (* build.date < "b" on an artifact without build section is a query error and deletes nothing *)
  let A := [{| f_bid := b1; f_stat := 1; f_audit := Some {| au_vars := [([109;101;116;97], [])]; au_deps := [] |} |}] in
  let c := CClean false false false
             [RGood {| r_expr := ECmp OLt (EVar [[98;117;105;108;100]; [100;97;116;101]]) (ELit s_b);
                       r_limit := None; r_sort := None; r_asc := false |}] in
  o_status (fst (fst (run_cmd c ix_empty A))) = SErr /\ snd (run_cmd c ix_empty A) = A.
Proof. vm_compute. split; reflexivity. Qed.
