(* C19 — lemmas about the archive model.  Three ideas carry most of it: the
   LIMIT queue is the n-prefix of the insertion sort of all arrivals
   (q_run_firstn); Inv is kept by the two index updates, so visiting a file in
   a scan is uploading it into the archive the index is the image of
   (Inv_scan_one), and the index is a function of the archive (Inv_unique);
   every command is do_scan followed by a pure [outcome] on the resulting
   index (run_cmd_outcome). *)
From Coq Require Import List NArith Arith Bool Lia Sorted Permutation.
Require BobV.Common.ListFacts.
Require Import BobV.Gen.ConstsC19 BobV.C19.Model.
Import ListNotations.
Open Scope N_scope.

Lemma str_cmp_refl a : str_cmp a a = Eq.
Proof. induction a as [|x a IH]; simpl; [reflexivity|]. now rewrite N.compare_refl. Qed.

Lemma str_cmp_eq a b : str_cmp a b = Eq -> a = b.
Proof.
  revert b; induction a as [|x a IH]; intros [|y b]; simpl; try discriminate; [reflexivity|].
  destruct (x ?= y) eqn:E; try discriminate.
  apply N.compare_eq in E. intros H. apply IH in H. congruence.
Qed.

Lemma str_cmp_antisym a b : str_cmp b a = CompOpp (str_cmp a b).
Proof.
  revert b; induction a as [|x a IH]; intros [|y b]; simpl; try reflexivity.
  rewrite (N.compare_antisym x y). destruct (x ?= y); simpl; auto.
Qed.

Lemma str_cmp_lt_trans a b c : str_cmp a b = Lt -> str_cmp b c = Lt -> str_cmp a c = Lt.
Proof.
  revert b c; induction a as [|x a IH]; intros [|y b] [|z c]; simpl; try discriminate; try reflexivity.
  destruct (x ?= y) eqn:E1; try discriminate.
  - apply N.compare_eq in E1; subst y. destruct (x ?= z); try discriminate; auto.
    intros; eapply IH; eauto.
  - intros _. destruct (y ?= z) eqn:E2; try discriminate.
    + apply N.compare_eq in E2; subst z. now rewrite E1.
    + intros _. now rewrite (N.lt_trans _ _ _ E1 E2).
Qed.

Lemma str_cmp_gt_lt a b : str_cmp a b = Gt <-> str_cmp b a = Lt.
Proof. rewrite (str_cmp_antisym a b). destruct (str_cmp a b); simpl; split; congruence. Qed.

Lemma str_eqb_eq a b : str_eqb a b = true <-> a = b.
Proof.
  unfold str_eqb. split.
  - destruct (str_cmp a b) eqn:E; try discriminate. intros _. now apply str_cmp_eq.
  - intros ->. now rewrite str_cmp_refl.
Qed.

Lemma str_eqb_spec a b : reflect (a = b) (str_eqb a b).
Proof. apply iff_reflect. symmetry. apply str_eqb_eq. Qed.

Lemma str_eqb_refl a : str_eqb a a = true.
Proof. now apply str_eqb_eq. Qed.

Lemma str_eqb_neq a b : str_eqb a b = false <-> a <> b.
Proof. rewrite <- str_eqb_eq. destruct (str_eqb a b); split; congruence. Qed.

Lemma str_eqb_sym a b : str_eqb a b = str_eqb b a.
Proof. destruct (str_eqb_spec a b), (str_eqb_spec b a); congruence. Qed.

Lemma str_leb_refl a : str_leb a a = true.
Proof. unfold str_leb. now rewrite str_cmp_refl. Qed.

Lemma str_leb_total a b : str_leb a b = true \/ str_leb b a = true.
Proof.
  unfold str_leb. rewrite (str_cmp_antisym a b). destruct (str_cmp a b); auto.
Qed.

Lemma str_leb_trans a b c : str_leb a b = true -> str_leb b c = true -> str_leb a c = true.
Proof.
  unfold str_leb. destruct (str_cmp a b) eqn:E1; try discriminate; intros _.
  - apply str_cmp_eq in E1. now subst.
  - destruct (str_cmp b c) eqn:E2; try discriminate; intros _.
    + apply str_cmp_eq in E2. subst. now rewrite E1.
    + now rewrite (str_cmp_lt_trans _ _ _ E1 E2).
Qed.

Lemma str_leb_antisym a b : str_leb a b = true -> str_leb b a = true -> a = b.
Proof.
  unfold str_leb. rewrite (str_cmp_antisym a b).
  destruct (str_cmp a b) eqn:E; simpl; try discriminate; intros; now apply str_cmp_eq.
Qed.

Lemma str_ltb_leb a b : str_ltb a b = negb (str_leb b a).
Proof. unfold str_ltb, str_leb. rewrite (str_cmp_antisym a b). destruct (str_cmp a b); reflexivity. Qed.

Lemma bmem_In b l : bmem b l = true <-> In b l.
Proof. exact (ListFacts.mem_In _ _ str_eqb_spec b l). Qed.

Lemma bmem_false b l : bmem b l = false <-> ~ In b l.
Proof. rewrite <- bmem_In. destruct (bmem b l); split; congruence. Qed.

Lemma NoDup_app_In {A} (l1 l2 : list A) x :
  NoDup (l1 ++ l2) -> (In x l1 <-> In x (l1 ++ l2) /\ ~ In x l2).
Proof.
  intros (_ & _ & D)%ListFacts.NoDup_app_iff. rewrite in_app_iff.
  split; [intros H; split; [now left|exact (D x H)] | intros [[H|H] N]; [exact H|contradiction]].
Qed.

Lemma filter_all {A} (p : A -> bool) l : (forall x, In x l -> p x = true) -> filter p l = l.
Proof.
  induction l as [|a l IH]; simpl; intros H; [reflexivity|].
  rewrite (H a (or_introl eq_refl)). f_equal. apply IH. auto.
Qed.

Lemma sorted_filter {A} (R : A -> A -> Prop) (p : A -> bool) l :
  StronglySorted R l -> StronglySorted R (filter p l).
Proof.
  induction l as [|a l IH]; intros Hs; simpl; [constructor|].
  destruct (StronglySorted_inv Hs) as [Hs' Ha]. destruct (p a); auto.
  constructor; auto. exact (incl_Forall (incl_filter p l) Ha).
Qed.

Lemma sorted_topn {A} (R : A -> A -> Prop) n l its :
  StronglySorted R l -> Permutation l its ->
  let q := firstn n l in
  length q = Nat.min n (length its) /\ incl q its /\
  (forall x y, In x q -> In y its -> ~ In y q -> R x y) /\
  StronglySorted R q.
Proof.
  intros Hs Hp. pose proof Hp as Hp'. rewrite <- (firstn_skipn n l) in Hs, Hp'.
  destruct (proj1 (ListFacts.StronglySorted_app_iff _ R _ _) Hs) as (Hq & _ & Hbest). split; [|split; [|split]].
  - rewrite firstn_length. now rewrite (Permutation_length Hp).
  - intros x Hx. apply (Permutation_in _ Hp'), in_or_app. now left.
  - intros x y Hx Hy Hny. apply Hbest; [exact Hx|].
    apply (Permutation_in _ (Permutation_sym Hp')), in_app_or in Hy. now destruct Hy.
  - exact Hq.
Qed.

Lemma geb_refl asc a : geb asc a a = true.
Proof. destruct a; auto. destruct asc; apply str_leb_refl. Qed.

Lemma geb_total asc a b : geb asc a b = true \/ geb asc b a = true.
Proof. destruct a, b; auto. destruct asc; apply str_leb_total. Qed.

Lemma geb_trans asc a b c : geb asc a b = true -> geb asc b c = true -> geb asc a c = true.
Proof.
  destruct a, b, c; auto; try discriminate.
  destruct asc; intros; eapply str_leb_trans; eauto.
Qed.

Lemma cmp_item_geb asc e n :
  cmp_item asc e n = match n with None => false | Some _ => geb asc n e end.
Proof. destruct n, e; reflexivity. Qed.

Lemma cmp_item_spec asc e n :
  if cmp_item asc e n then geb asc n e = true else geb asc e n = true.
Proof.
  rewrite cmp_item_geb. destruct n as [k|]; [|now destruct e].
  destruct (geb asc (Some k) e) eqn:E; [reflexivity|].
  destruct (geb_total asc e (Some k)) as [H|H]; [exact H|congruence].
Qed.

Definition qsorted (asc : bool) : list qitem -> Prop :=
  StronglySorted (fun a b => geb asc (snd a) (snd b) = true).

Lemma q_insert_perm asc q it : Permutation (q_insert asc q it) (it :: q).
Proof.
  induction q as [|e q IH]; simpl; [reflexivity|].
  destruct (cmp_item asc (snd e) (snd it)); [reflexivity|].
  rewrite IH. apply perm_swap.
Qed.

Lemma q_insert_sorted asc q it : qsorted asc q -> qsorted asc (q_insert asc q it).
Proof.
  unfold qsorted. induction q as [|e q IH]; intros Hs; simpl.
  - constructor; [constructor|constructor].
  - destruct (StronglySorted_inv Hs) as [Hs' Hall].
    pose proof (cmp_item_spec asc (snd e) (snd it)) as Hc. destruct (cmp_item asc (snd e) (snd it)).
    + constructor; [exact Hs|]. constructor; [exact Hc|].
      apply (Forall_impl _ (fun y H => geb_trans _ _ _ _ Hc H) Hall).
    + constructor; [auto|]. rewrite Forall_forall in *. intros y Hy.
      apply (Permutation_in _ (q_insert_perm asc q it)) in Hy as [<-|Hy]; [exact Hc|auto].
Qed.

Lemma firstn_q_insert asc n it : forall q,
  firstn n (q_insert asc (firstn n q) it) = firstn n (q_insert asc q it).
Proof.
  induction n as [|n IH]; intros [|e q]; try reflexivity. cbn [firstn q_insert].
  destruct (cmp_item asc (snd e) (snd it)); cbn [firstn]; f_equal.
  - change (e :: firstn n q) with (firstn (S n) (e :: q)). rewrite firstn_firstn. f_equal. lia.
  - apply IH.
Qed.

Lemma q_run_firstn asc n its :
  q_run asc n its = firstn n (fold_left (q_insert asc) its []).
Proof.
  unfold q_run. transitivity (fold_left (q_step asc n) its (firstn n [])); [now rewrite firstn_nil|].
  generalize (@nil qitem).
  induction its as [|it its IH]; intros q; simpl; [reflexivity|].
  unfold q_step at 2. rewrite firstn_q_insert. apply IH.
Qed.

Lemma q_insert_all_perm asc its : forall q, Permutation (fold_left (q_insert asc) its q) (q ++ its).
Proof.
  induction its as [|it its IH]; intros q; simpl; [now rewrite app_nil_r|].
  rewrite IH, q_insert_perm. apply Permutation_middle.
Qed.

Lemma q_insert_all_sorted asc its : forall q, qsorted asc q -> qsorted asc (fold_left (q_insert asc) its q).
Proof. induction its as [|it its IH]; intros q Hq; [exact Hq|]. now apply IH, q_insert_sorted. Qed.

Lemma q_run_topn asc n its :
  let q := q_run asc n its in
  length q = Nat.min n (length its) /\ incl q its /\
  (forall x y, In x q -> In y its -> ~ In y q -> geb asc (snd x) (snd y) = true) /\
  qsorted asc q.
Proof.
  rewrite q_run_firstn. apply sorted_topn.
  - apply q_insert_all_sorted. constructor.
  - apply (q_insert_all_perm asc its []).
Qed.

Lemma q_run_NoDup asc n its : NoDup (map fst its) -> NoDup (map fst (q_run asc n its)).
Proof.
  rewrite q_run_firstn. intros Hnd.
  apply (Permutation_NoDup (Permutation_map fst (Permutation_sym (q_insert_all_perm asc its [])))) in Hnd.
  rewrite <- (firstn_skipn n (fold_left _ its [])), map_app in Hnd.
  exact (proj1 (proj1 (ListFacts.NoDup_app_iff _ _ _) Hnd)).
Qed.

Section Gins.
  Variable T : Type.
  Variable cmp : T -> T -> comparison.
  Hypothesis cmp_eq : forall a b, cmp a b = Eq -> a = b.
  Hypothesis cmp_antisym : forall a b, cmp b a = CompOpp (cmp a b).
  Hypothesis cmp_trans : forall a b c, cmp a b = Lt -> cmp b c = Lt -> cmp a c = Lt.

  Lemma gins_In x l y : In y (gins cmp x l) <-> x = y \/ In y l.
  Proof.
    induction l as [|z l IH]; simpl; [reflexivity|].
    destruct (cmp x z) eqn:E; simpl; [|reflexivity|].
    - apply cmp_eq in E. split; [now right|intros [->|H]; [now left|exact H]].
    - apply (iff_trans (or_iff_compat_l _ IH)). split; intros [H|[H|H]]; auto.
  Qed.

  Lemma gins_sorted x l :
    StronglySorted (fun a b => cmp a b = Lt) l -> StronglySorted (fun a b => cmp a b = Lt) (gins cmp x l).
  Proof.
    induction l as [|z l IH]; intros Hs; simpl.
    - constructor; constructor.
    - destruct (StronglySorted_inv Hs) as [Hs' Hall]. destruct (cmp x z) eqn:E.
      + exact Hs.
      + constructor; [exact Hs|]. constructor; [exact E|].
        apply (Forall_impl _ (fun y H => cmp_trans _ _ _ E H) Hall).
      + constructor; [auto|]. rewrite Forall_forall in *. intros y Hy.
        apply gins_In in Hy as [<-|Hy]; [|auto]. rewrite (cmp_antisym x z), E. reflexivity.
  Qed.

  Lemma cmp_lt_asym a b : cmp a b = Lt -> cmp b a = Lt -> False.
  Proof. intros H. rewrite cmp_antisym, H. discriminate. Qed.
End Gins.

Lemma usort_In l y : In y (usort l) <-> In y l.
Proof.
  induction l as [|x l IH]; [tauto|].
  change (usort (x :: l)) with (gins str_cmp x (usort l)). rewrite (gins_In _ _ str_cmp_eq), IH. reflexivity.
Qed.

Lemma usort_sorted l : StronglySorted (fun a b => str_cmp a b = Lt) (usort l).
Proof.
  induction l as [|x l IH]; [constructor|].
  apply gins_sorted; [exact str_cmp_eq|exact str_cmp_antisym|exact str_cmp_lt_trans|exact IH].
Qed.

Lemma usort_ext l1 l2 : (forall x, In x l1 <-> In x l2) -> usort l1 = usort l2.
Proof.
  intros H. apply (ListFacts.sorted_ext _ _ (cmp_lt_asym _ _ str_cmp_antisym)); try apply usort_sorted.
  intros x. rewrite !usort_In. apply H.
Qed.

Lemma ref_cmp_eq a b : ref_cmp a b = Eq -> a = b.
Proof.
  unfold ref_cmp. destruct a as [a1 a2], b as [b1 b2]; simpl.
  destruct (str_cmp a1 b1) eqn:E; try discriminate.
  intros H. apply str_cmp_eq in E, H. congruence.
Qed.

Lemma ref_cmp_refl a : ref_cmp a a = Eq.
Proof. unfold ref_cmp. now rewrite !str_cmp_refl. Qed.

Lemma ref_cmp_antisym a b : ref_cmp b a = CompOpp (ref_cmp a b).
Proof.
  unfold ref_cmp. rewrite (str_cmp_antisym (fst a) (fst b)).
  destruct (str_cmp (fst a) (fst b)); auto. apply str_cmp_antisym.
Qed.

Lemma ref_cmp_trans a b c : ref_cmp a b = Lt -> ref_cmp b c = Lt -> ref_cmp a c = Lt.
Proof.
  unfold ref_cmp.
  destruct (str_cmp (fst a) (fst b)) eqn:E1; try discriminate;
  destruct (str_cmp (fst b) (fst c)) eqn:E2; try discriminate; intros H1 H2.
  - apply str_cmp_eq in E1, E2. rewrite E1, E2, str_cmp_refl. eapply str_cmp_lt_trans; eauto.
  - apply str_cmp_eq in E1. rewrite E1, E2. reflexivity.
  - apply str_cmp_eq in E2. rewrite <- E2, E1. reflexivity.
  - now rewrite (str_cmp_lt_trans _ _ _ E1 E2).
Qed.

Lemma add_refs_In b rs t p : In p (add_refs b rs t) <-> (fst p = b /\ In (snd p) rs) \/ In p t.
Proof.
  induction rs as [|r rs IH]; simpl; [tauto|].
  rewrite (gins_In _ _ ref_cmp_eq), IH. destruct p as [p1 p2]; simpl. split.
  - intros [[= <- <-]|[[H1 H2]|H]]; auto.
  - intros [[H1 [H2|H2]]|H]; subst; auto.
Qed.

Lemma add_refs_sorted b rs t : StronglySorted ref_lt t -> StronglySorted ref_lt (add_refs b rs t).
Proof.
  induction rs as [|r rs IH]; auto.
  intros H. apply (gins_sorted _ _ ref_cmp_eq ref_cmp_antisym ref_cmp_trans), IH, H.
Qed.

Lemma find_row_Some_In b l v : find_row b l = Some v -> In (b, v) l.
Proof.
  induction l as [|y r IH]; simpl; [discriminate|].
  destruct (str_eqb_spec b (fst y)) as [->|_]; [|auto].
  intros [= <-]. left. now destruct y.
Qed.

Lemma find_row_None b l : find_row b l = None <-> ~ In b (map fst l).
Proof.
  induction l as [|y r IH]; simpl; [tauto|].
  destruct (str_eqb_spec b (fst y)) as [->|Hne].
  - split; [discriminate|]. intros H. destruct H. now left.
  - rewrite IH. split; [intros H [E|H']; [congruence|auto]|intros H H'; apply H; now right].
Qed.

Lemma find_row_In l b v : StronglySorted row_lt l -> (In (b, v) l <-> find_row b l = Some v).
Proof.
  intros Hs. split; [|apply find_row_Some_In]. induction Hs as [|a l _ IH Hall]; simpl; [tauto|].
  intros [->|Hin]; [now rewrite str_eqb_refl|].
  rewrite Forall_forall in Hall. specialize (Hall _ Hin). unfold row_lt in Hall.
  destruct (str_eqb_spec b (fst a)) as [->|_]; [|auto]. rewrite str_cmp_refl in Hall. discriminate.
Qed.

Lemma rows_ext l1 l2 :
  StronglySorted row_lt l1 -> StronglySorted row_lt l2 -> (forall b, find_row b l1 = find_row b l2) -> l1 = l2.
Proof.
  intros H1 H2 E. apply (ListFacts.sorted_ext _ row_lt); auto.
  - intros a b. apply (cmp_lt_asym _ _ str_cmp_antisym).
  - intros [b v]. now rewrite !find_row_In, E.
Qed.

Lemma rows_keys_NoDup l : StronglySorted row_lt l -> NoDup (map fst l).
Proof.
  induction 1 as [|a l _ IH Hall]; constructor; [|exact IH].
  rewrite Forall_forall in Hall. intros Hin. apply in_map_iff in Hin as (w & Hw & Hin).
  specialize (Hall _ Hin). unfold row_lt in Hall. rewrite Hw, str_cmp_refl in Hall. discriminate.
Qed.

Lemma find_row_ins_row x l b :
  find_row b (ins_row x l) = if str_eqb b (fst x) then Some (snd x) else find_row b l.
Proof.
  induction l as [|y r IH]; simpl; [reflexivity|].
  destruct (str_cmp (fst x) (fst y)) eqn:E; simpl.
  - apply str_cmp_eq in E. rewrite <- E. now destruct (str_eqb b (fst x)).
  - reflexivity.
  - rewrite IH. destruct (str_eqb_spec b (fst y)) as [->|_]; [|reflexivity].
    destruct (str_eqb_spec (fst y) (fst x)) as [E1|_]; [|reflexivity].
    rewrite E1, str_cmp_refl in E. discriminate.
Qed.

Lemma find_row_filter b0 l b :
  find_row b (filter (fun y : row => negb (str_eqb b0 (fst y))) l) =
  if str_eqb b b0 then None else find_row b l.
Proof.
  induction l as [|y r IH]; simpl; [now destruct (str_eqb b b0)|].
  destruct (str_eqb_spec b0 (fst y)) as [->|Hne]; simpl; rewrite IH.
  - now destruct (str_eqb b (fst y)).
  - destruct (str_eqb_spec b (fst y)) as [->|_]; [|reflexivity].
    destruct (str_eqb_spec (fst y) b0); [congruence|reflexivity].
Qed.

Lemma ins_row_keys x l y : In y (map fst (ins_row x l)) <-> fst x = y \/ In y (map fst l).
Proof.
  induction l as [|z l IH]; simpl; [reflexivity|].
  destruct (str_cmp (fst x) (fst z)) eqn:E; simpl; [|reflexivity|].
  - apply str_cmp_eq in E. rewrite <- E. split; [now right|intros [H|H]; [now left|exact H]].
  - apply (iff_trans (or_iff_compat_l _ IH)). split; intros [H|[H|H]]; auto.
Qed.

Lemma ins_row_Forall (P : row -> Prop) x l : P x -> Forall P l -> Forall P (ins_row x l).
Proof.
  intros Hx. induction l as [|z l IH]; intros Hl; simpl; [auto|].
  apply Forall_cons_iff in Hl as [Hz Hl]. destruct (str_cmp (fst x) (fst z)); auto.
Qed.

Lemma ins_row_sorted x l : StronglySorted row_lt l -> StronglySorted row_lt (ins_row x l).
Proof.
  induction l as [|z l IH]; intros Hs; simpl.
  - constructor; constructor.
  - destruct (StronglySorted_inv Hs) as [Hs' Hall]. destruct (str_cmp (fst x) (fst z)) eqn:E.
    + constructor; [exact Hs'|]. apply str_cmp_eq in E. unfold row_lt. rewrite E. exact Hall.
    + constructor; [exact Hs|]. constructor; [exact E|].
      apply (Forall_impl _ (fun y H => str_cmp_lt_trans _ _ _ E H) Hall).
    + constructor; [auto|]. apply ins_row_Forall; [|exact Hall]. now apply str_cmp_gt_lt.
Qed.

Lemma refs_of_In I a b : In b (refs_of I a) <-> In (a, b) (ix_refs I).
Proof.
  unfold refs_of. rewrite in_map_iff. split.
  - intros (p & Hp & Hin). apply filter_In in Hin as [Hin E]. apply str_eqb_eq in E.
    destruct p as [p1 p2]; simpl. now subst.
  - intros Hin. exists (a, b). split; [reflexivity|]. apply filter_In. split; [exact Hin|]. apply str_eqb_refl.
Qed.

Lemma reach_closed I S0 ret :
  incl S0 ret -> (forall y z, In y ret -> In z (refs_of I y) -> In z ret) ->
  forall x, reach I S0 x -> In x ret.
Proof.
  intros Hbase Hclosed x Hr. induction Hr as [b Hb|a b _ IHa Hab]; [now apply Hbase|now apply (Hclosed a)].
Qed.

Lemma close_correct I S0 fuel : forall ret todo R,
  close fuel I ret todo = Some R ->
  (forall x, In x ret \/ In x todo -> reach I S0 x) ->
  incl S0 ret ->
  (forall y z, In y ret -> In z (refs_of I y) -> In z ret \/ In z todo) ->
  forall x, In x R <-> reach I S0 x.
Proof.
  induction fuel as [|k IH]; intros ret [|n rest] R Hc Hsound Hbase Hclosed; simpl in Hc; try discriminate.
  1, 2: injection Hc as <-; intros x; split; [intros Hx; apply Hsound; auto|];
        apply reach_closed; [exact Hbase|]; intros y z Hy Hz; now destruct (Hclosed y z Hy Hz).
  destruct (bmem n ret) eqn:E.
  - apply (IH ret rest R Hc); auto.
    + intros x [Hx|Hx]; apply Hsound; simpl; auto.
    + intros y z Hy Hz. destruct (Hclosed _ _ Hy Hz) as [?|[<-|?]]; auto.
      left. now apply bmem_In.
  - apply (IH (n :: ret) (refs_of I n ++ rest) R Hc).
    + intros x [[<-|Hx]|Hx]; [apply Hsound; simpl; auto..|].
      apply in_app_or in Hx as [Hx|Hx]; [|apply Hsound; simpl; auto].
      eapply reach_step; [|exact Hx]. apply Hsound. simpl; auto.
    + intros x Hx. right. now apply Hbase.
    + intros y z [<-|Hy] Hz; [right; apply in_or_app; auto|].
      destruct (Hclosed _ _ Hy Hz) as [?|[<-|?]]; simpl; auto.
      right. apply in_or_app. auto.
Qed.

(* where close_fuel comes from: a build-id enters ret once and then puts just its
   own refs rows on todo, so length todo + length (unvisited I ret) falls by one
   at every turn of close, and it starts at most at length todo + length (ix_refs I) *)
Definition unvisited (I : index) (ret : list bid) : list (bid * bid) :=
  filter (fun p => negb (bmem (fst p) ret)) (ix_refs I).

Lemma unvisited_step I n ret : bmem n ret = false ->
  (length (unvisited I (n :: ret)) + length (refs_of I n) = length (unvisited I ret))%nat.
Proof.
  intros Hn. unfold unvisited, refs_of.
  induction (ix_refs I) as [|p l IH]; simpl in *; [reflexivity|].
  destruct (str_eqb (fst p) n) eqn:E; simpl.
  - apply str_eqb_eq in E. rewrite E, Hn. simpl. now rewrite <- plus_n_Sm, IH.
  - destruct (bmem (fst p) ret); simpl; now rewrite <- IH.
Qed.

Lemma close_fuel_enough I fuel : forall ret todo,
  (length todo + length (unvisited I ret) <= fuel)%nat -> close fuel I ret todo <> None.
Proof.
  induction fuel as [|k IH]; intros ret [|n rest] Hm; try discriminate; simpl in *; [lia|].
  destruct (bmem n ret) eqn:E; apply IH; [lia|].
  rewrite app_length. pose proof (unvisited_step I n ret E). lia.
Qed.

Lemma closure_fuel_enough I S0 : closure I S0 <> None.
Proof.
  unfold closure, close_fuel. apply close_fuel_enough.
  pose proof (ListFacts.filter_length_le _ (fun p : bid * bid => negb (bmem (fst p) S0)) (ix_refs I)).
  unfold unvisited, bid, str in *. lia.
Qed.

(* one expression over all rows (the code runs the loops the other way round) *)
Fixpoint run_rexpr (I : index) (r : rexpr) (st : rstate) (bs : list bid) : res rstate :=
  match bs with
  | [] => Ok st
  | b :: rest => match evaluate r st b (get_vars I b) with
                 | Err => Err
                 | Ok st' => run_rexpr I r st' rest
                 end
  end.

Lemma eval_exprs_spec sts : forall b d sts1, eval_exprs sts b d = Ok sts1 ->
  Forall2 (fun p p1 => fst p1 = fst p /\ evaluate (fst p) (snd p) b d = Ok (snd p1)) sts sts1.
Proof.
  induction sts as [|[r st] sts IH]; intros b d sts1 H; simpl in H.
  - injection H as <-. constructor.
  - destruct (evaluate r st b d) as [st'|] eqn:E; [|discriminate].
    destruct (eval_exprs sts b d) as [l|] eqn:E2; [|discriminate].
    injection H as <-. constructor; [now split|]. now apply IH.
Qed.

Lemma eval_rows_nil I bs : eval_rows I [] bs = Ok [].
Proof. induction bs as [|b bs IH]; [reflexivity|exact IH]. Qed.

Lemma eval_rows_cons I bs : forall p sts,
  eval_rows I (p :: sts) bs =
  match run_rexpr I (fst p) (snd p) bs, eval_rows I sts bs with
  | Ok st', Ok l => Ok ((fst p, st') :: l)
  | _, _ => Err
  end.
Proof.
  induction bs as [|b bs IH]; intros [r st] sts; simpl; [reflexivity|].
  destruct (evaluate r st b (get_vars I b)) as [st1|]; [|reflexivity].
  destruct (eval_exprs sts b (get_vars I b)) as [l|]; [apply IH|].
  now destruct (run_rexpr I r st1 bs).
Qed.

Lemma mitems_In I r bs b k :
  In (b, k) (mitems I r bs) <-> In b bs /\ matches I r b = true /\ k = key_of I r b.
Proof.
  unfold mitems. rewrite in_map_iff. split.
  - intros (x & [= <- <-] & Hin). apply filter_In in Hin. tauto.
  - intros (H1 & H2 & ->). exists b. split; [reflexivity|]. now apply filter_In.
Qed.

Lemma mitems_key I r bs e : In e (mitems I r bs) -> snd e = key_of I r (fst e).
Proof. destruct e as [b k]. intros H. now apply mitems_In in H. Qed.

Lemma mitems_fst I r bs : map fst (mitems I r bs) = filter (matches I r) bs.
Proof. unfold mitems. rewrite map_map. apply map_id. Qed.

Lemma remove_bids_filter V l : remove_bids V l = filter (fun x => negb (bmem x V)) l.
Proof. induction l as [|a l IH]; simpl; [reflexivity|]. rewrite IH. now destruct (bmem a V). Qed.

Lemma remove_bids_In V l x : In x (remove_bids V l) <-> In x l /\ ~ In x V.
Proof. now rewrite remove_bids_filter, filter_In, negb_true_iff, bmem_false. Qed.

(* [injection] in evaluate_limit_step would unfold remove_bids on the cons *)
Local Arguments remove_bids : simpl never.

Record lim_inv (st : rstate) : Prop := {
  li_same : forall x, In x (rs_retained st) <-> In x (map fst (rs_queue st));
  li_nodup : NoDup (rs_retained st);
  li_qnodup : NoDup (map fst (rs_queue st))
}.

Lemma lim_inv_init : lim_inv rs_init.
Proof. split; try constructor; tauto. Qed.

Lemma evaluate_limit_step I r n st b st' :
  r_limit r = Some n -> lim_inv st -> ~ In b (rs_retained st) ->
  evaluate r st b (get_vars I b) = Ok st' ->
  lim_inv st' /\ incl (rs_retained st') (b :: rs_retained st) /\
  rs_queue st' = if matches I r b then q_step (r_asc r) (N.to_nat n) (rs_queue st) (b, key_of I r b)
                 else rs_queue st.
Proof.
  intros Hlim [Hsame Hnd Hqnd] Hfresh. unfold evaluate, matches, key_of.
  apply bmem_false in Hfresh as Hb. rewrite Hb.
  destruct (eval_bool (get_vars I b) (r_expr r)) as [[|]|]; try discriminate.
  2:{ intros [= <-]. split; [now split|]. split; [apply incl_tl, incl_refl|reflexivity]. }
  rewrite Hlim. destruct (eval_var (get_vars I b) (sort_path r)) as [k|]; [|discriminate].
  intros [= <-].
  split; [|split; [intros x Hx; now apply remove_bids_In in Hx|reflexivity]].
  pose proof (Permutation_map fst (q_insert_perm (r_asc r) (rs_queue st) (b, k))) as Hp.
  set (q' := q_insert (r_asc r) (rs_queue st) (b, k)) in *.
  assert (NoDup (map fst q')) as Hq'.
  { apply (Permutation_NoDup (Permutation_sym Hp)). constructor; [|exact Hqnd]. now rewrite <- Hsame. }
  rewrite <- (firstn_skipn (N.to_nat n) q'), map_app in Hp, Hq'.
  split; unfold rs_retained, rs_queue.
  - intros x. rewrite remove_bids_In, (NoDup_app_In _ _ x Hq'), Hp. simpl. now rewrite Hsame.
  - rewrite remove_bids_filter. apply NoDup_filter. constructor; auto.
  - exact (proj1 (proj1 (ListFacts.NoDup_app_iff _ _ _) Hq')).
Qed.

Lemma run_rexpr_limit I r n : r_limit r = Some n ->
  forall bs st st', lim_inv st -> NoDup bs -> (forall x, In x bs -> ~ In x (rs_retained st)) ->
  run_rexpr I r st bs = Ok st' ->
  lim_inv st' /\
  rs_queue st' = fold_left (q_step (r_asc r) (N.to_nat n)) (mitems I r bs) (rs_queue st).
Proof.
  intros Hlim. induction bs as [|b bs IH]; intros st st' Hinv Hnd Hfresh H; simpl in H.
  - injection H as <-. now split.
  - destruct (evaluate r st b (get_vars I b)) as [st1|] eqn:E; [|discriminate].
    apply NoDup_cons_iff in Hnd as [Hnb Hnd].
    destruct (evaluate_limit_step I r n st b st1 Hlim Hinv (Hfresh b (or_introl eq_refl)) E)
      as (Hinv1 & Hincl & Hq1).
    destruct (IH st1 st' Hinv1 Hnd) as [Hinv' Hq']; [|exact H|].
    + intros x Hx Hin. apply Hincl in Hin as [<-|Hin]; [exact (Hnb Hx)|exact (Hfresh x (or_intror Hx) Hin)].
    + split; [exact Hinv'|]. rewrite Hq', Hq1. unfold mitems. simpl. now destruct (matches I r b).
Qed.

Lemma run_rexpr_nolimit I r : r_limit r = None ->
  forall bs st st', run_rexpr I r st bs = Ok st' ->
  forall x, In x (rs_retained st') <-> In x (rs_retained st) \/ In x (filter (matches I r) bs).
Proof.
  intros Hlim. induction bs as [|b bs IH]; intros st st' H x; simpl in H.
  - injection H as <-. simpl. tauto.
  - destruct (evaluate r st b (get_vars I b)) as [st1|] eqn:E; [|discriminate].
    rewrite (IH _ _ H). clear IH H. cbn [filter]. unfold evaluate in E.
    destruct (bmem b (rs_retained st)) eqn:Eb.
    + injection E as <-. apply bmem_In in Eb. destruct (matches I r b); [|reflexivity].
      simpl. split; [intros [H|H]|intros [H|[<-|H]]]; auto.
    + unfold matches. destruct (eval_bool (get_vars I b) (r_expr r)) as [[|]|]; try discriminate;
        [rewrite Hlim in E|]; injection E as <-; [simpl|reflexivity].
      split; [intros [[H|H]|H]|intros [H|[H|H]]]; auto.
Qed.

Lemma run_rexpr_selects I r st :
  NoDup (build_ids I) -> run_rexpr I r rs_init (build_ids I) = Ok st -> selects I r (rs_retained st).
Proof.
  intros Hnd Hrun. unfold selects. destruct (r_limit r) as [n|] eqn:Hlim.
  - destruct (run_rexpr_limit I r n Hlim (build_ids I) rs_init st lim_inv_init Hnd (fun _ _ H => H) Hrun)
      as [[Hsame Hnds Hqnd] Hq].
    simpl in Hq. fold (q_run (r_asc r) (N.to_nat n) (mitems I r (build_ids I))) in Hq.
    destruct (q_run_topn (r_asc r) (N.to_nat n) (mitems I r (build_ids I))) as (Hlen & Hincl & Hbest & _).
    rewrite <- Hq in *. unfold qitem in *.
    split; [exact Hnds|]. split; [|split].
    + intros x Hx. apply (incl_map fst Hincl), Hsame, Hx.
    + rewrite <- Hlen, <- (map_length fst (rs_queue st)). apply Permutation_length. now apply NoDup_Permutation.
    + intros x y Hx Hy Hny.
      apply Hsame, in_map_iff in Hx as (ex & <- & Hex). apply in_map_iff in Hy as (ey & <- & Hey).
      rewrite <- (mitems_key _ _ _ _ (Hincl _ Hex)), <- (mitems_key _ _ _ _ Hey). apply Hbest; auto.
      intros Hin. apply Hny, Hsame. now apply in_map.
  - intros x. rewrite (run_rexpr_nolimit I r Hlim _ _ _ Hrun).
    rewrite mitems_fst. simpl. tauto.
Qed.

Lemma parse_all_spec es rs : parse_all es = Ok rs ->
  Forall2 (fun e r => e = RGood r /\ r_limit r <> Some 0) es rs.
Proof.
  revert rs; induction es as [|[|r] es IH]; intros rs H; simpl in H; try discriminate.
  - injection H as <-. constructor.
  - destruct (r_limit r) as [[|p]|] eqn:El; try discriminate;
    destruct (parse_all es) as [l|] eqn:E; try discriminate; injection H as <-;
    (constructor; [split; [reflexivity|rewrite El; congruence]|now apply IH]).
Qed.

Lemma ar_find_None b A : ar_find b A = None <-> ~ In b (ar_bids A).
Proof.
  induction A as [|f A IH]; simpl; [tauto|].
  destruct (str_eqb_spec (f_bid f) b) as [->|Hne]; [|rewrite IH; tauto].
  split; [discriminate|]. intros H. exfalso. auto.
Qed.

Lemma ar_find_Some b A f : ar_find b A = Some f -> In f A /\ f_bid f = b.
Proof.
  intros H. apply find_some in H as [H1 H2]. apply str_eqb_eq in H2. auto.
Qed.

Lemma ar_find_wf A f : wf A -> In f A -> ar_find (f_bid f) A = Some f.
Proof.
  induction A as [|g A IH]; simpl; [tauto|].
  intros Hnd [->|Hin].
  - now rewrite str_eqb_refl.
  - apply NoDup_cons_iff in Hnd as [Hn Hnd']. destruct (str_eqb_spec (f_bid g) (f_bid f)) as [E|_]; [|auto].
    exfalso. apply Hn. rewrite E. now apply in_map.
Qed.

Lemma ar_find_cons f A b :
  ar_find b (f :: A) = if str_eqb b (f_bid f) then Some f else ar_find b A.
Proof. now rewrite str_eqb_sym. Qed.

Lemma ar_find_del b0 A b :
  ar_find b (ar_del b0 A) = if str_eqb b b0 then None else ar_find b A.
Proof.
  unfold ar_del. induction A as [|f A IH]; cbn [filter]; [now destruct (str_eqb b b0)|].
  rewrite ar_find_cons. destruct (str_eqb_spec (f_bid f) b0) as [<-|Hne]; cbn [negb].
  - now destruct (str_eqb b (f_bid f)).
  - rewrite ar_find_cons, IH. destruct (str_eqb_spec b (f_bid f)) as [->|_]; [|reflexivity].
    now destruct (str_eqb_spec (f_bid f) b0).
Qed.

Lemma ar_find_put f A b :
  ar_find b (ar_put f A) = if str_eqb b (f_bid f) then Some f else ar_find b A.
Proof.
  change (ar_put f A) with (f :: ar_del (f_bid f) A). rewrite ar_find_cons, ar_find_del.
  now destruct (str_eqb b (f_bid f)).
Qed.

Lemma ar_find_del_all V : forall A b,
  ar_find b (ar_del_all V A) = if bmem b V then None else ar_find b A.
Proof.
  induction V as [|c V IH]; intros A b; simpl; [reflexivity|].
  rewrite IH, ar_find_del. now destruct (str_eqb b c), (bmem b V).
Qed.

Definition ar_put_all (A X : archive) : archive := fold_left (fun Y f => ar_put f Y) A X.

Lemma ar_find_put_all A : forall X b, wf A ->
  ar_find b (ar_put_all A X) = match ar_find b A with Some f => Some f | None => ar_find b X end.
Proof.
  unfold ar_put_all. induction A as [|f A IH]; intros X b Hwf; [reflexivity|].
  apply NoDup_cons_iff in Hwf as [Hn Hwf']. cbn [fold_left]. rewrite (IH _ _ Hwf'), ar_find_put, ar_find_cons.
  destruct (str_eqb_spec b (f_bid f)) as [->|_]; [|reflexivity].
  apply ar_find_None in Hn. now rewrite Hn.
Qed.

Lemma ar_del_all_In V : forall A f, In f (ar_del_all V A) <-> In f A /\ ~ In (f_bid f) V.
Proof.
  induction V as [|b V IH]; intros A f; simpl; [tauto|].
  rewrite IH. unfold ar_del. rewrite filter_In, negb_true_iff, str_eqb_neq. intuition.
Qed.

Lemma wf_del b A : wf A -> wf (ar_del b A).
Proof.
  unfold wf, ar_del, ar_bids. induction A as [|f A IH]; simpl; intros H; [constructor|].
  apply NoDup_cons_iff in H as [Hn Hd]. destruct (negb (str_eqb (f_bid f) b)); auto.
  constructor; auto. intros Hin. exact (Hn (incl_map f_bid (incl_filter _ A) _ Hin)).
Qed.

Lemma wf_put f A : wf A -> wf (ar_put f A).
Proof.
  intros H. constructor.
  - intros Hin. apply in_map_iff in Hin as (g & Hg & Hin). apply filter_In in Hin as [_ Hin].
    rewrite negb_true_iff, str_eqb_neq in Hin. congruence.
  - exact (wf_del (f_bid f) A H).
Qed.

Lemma wf_del_all V : forall A, wf A -> wf (ar_del_all V A).
Proof.
  induction V as [|b V IH]; intros A H; [exact H|]. apply IH. now apply wf_del.
Qed.

Lemma wf_nil : wf [].
Proof. constructor. Qed.

Lemma compat_nil A : compat [] A.
Proof. intros g f []. Qed.

Definition rowof (f : afile) : option (N * vars) :=
  match f_audit f with Some au => Some (f_stat f, au_vars au) | None => None end.
Definition refsof (f : afile) : list bid :=
  match f_audit f with Some au => audit_refs au | None => [] end.

Lemma rowspec_eq A b : rowspec A b = match ar_find b A with Some f => rowof f | None => None end.
Proof. reflexivity. Qed.
Lemma refspec_eq A b : refspec A b = match ar_find b A with Some f => refsof f | None => [] end.
Proof. reflexivity. Qed.

Lemma rowspec_None_refspec A b : rowspec A b = None -> refspec A b = [].
Proof.
  rewrite rowspec_eq, refspec_eq. destruct (ar_find b A) as [f|]; [|reflexivity].
  unfold rowof, refsof. now destruct (f_audit f).
Qed.

Lemma rowspec_absent A b : ~ In b (ar_bids A) -> rowspec A b = None.
Proof. intros H. apply ar_find_None in H. now rewrite rowspec_eq, H. Qed.

Lemma refspec_absent A b : ~ In b (ar_bids A) -> refspec A b = [].
Proof. intros H. apply rowspec_None_refspec. now apply rowspec_absent. Qed.

Lemma Inv_ext J X Y :
  (forall b, rowspec X b = rowspec Y b /\ refspec X b = refspec Y b) -> Inv J X -> Inv J Y.
Proof.
  intros E [F R S T]. split; auto.
  - intros b. rewrite R. apply E.
  - intros b r. rewrite T. now rewrite (proj2 (E b)).
Qed.

Lemma Inv_ext_find J X Y : (forall b, ar_find b X = ar_find b Y) -> Inv J X -> Inv J Y.
Proof. intros E. apply Inv_ext. intros b. unfold rowspec, refspec. now rewrite E. Qed.

Lemma Inv_empty : Inv ix_empty [].
Proof. split; try constructor; try reflexivity; try tauto. Qed.

Lemma Inv_unique I J A : Inv I A -> Inv J A -> I = J.
Proof.
  intros [F1 R1 S1 T1] [F2 R2 S2 T2]. destruct I as [fi ri], J as [fj rj]; simpl in *.
  f_equal.
  - apply rows_ext; auto. intros b. now rewrite R1, R2.
  - apply (ListFacts.sorted_ext _ ref_lt (cmp_lt_asym _ _ ref_cmp_antisym)); auto.
    intros [b r]. now rewrite T1, T2.
Qed.

Lemma Inv_not_indexed K A f : Inv K A -> wf A -> In f A ->
  (~ In (f_bid f) (build_ids K) <-> f_audit f = None).
Proof.
  intros [_ R _ _] Hwf Hf. unfold build_ids. rewrite <- find_row_None, R, rowspec_eq, (ar_find_wf A f Hwf Hf).
  unfold rowof. destruct (f_audit f); split; congruence.
Qed.

Lemma Inv_NoDup_ids K A : Inv K A -> NoDup (build_ids K).
Proof.
  intros [F _ _ _]. now apply rows_keys_NoDup.
Qed.

Lemma ix_remove_row b0 I b :
  find_row b (ix_files (ix_remove b0 I)) = if str_eqb b b0 then None else find_row b (ix_files I).
Proof. apply find_row_filter. Qed.

Lemma ix_remove_ref b0 I b r :
  In (b, r) (ix_refs (ix_remove b0 I)) <-> In (b, r) (ix_refs I) /\ b <> b0.
Proof. simpl. now rewrite filter_In, negb_true_iff, str_eqb_neq. Qed.

Lemma Inv_remove b K A : Inv K A -> Inv (ix_remove b K) (ar_del b A).
Proof.
  intros [F R S T]. split.
  - now apply sorted_filter.
  - intros b'. rewrite ix_remove_row, R, !rowspec_eq, ar_find_del. now destruct (str_eqb b' b).
  - now apply sorted_filter.
  - intros b' r. rewrite ix_remove_ref, T, !refspec_eq, ar_find_del.
    destruct (str_eqb_spec b' b); simpl; tauto.
Qed.

Definition ix_remove_all (V : list bid) (K : index) : index := fold_left (fun J b => ix_remove b J) V K.

Lemma Inv_remove_all V : forall K A, Inv K A -> Inv (ix_remove_all V K) (ar_del_all V A).
Proof.
  induction V as [|b V IH]; intros K A H; [exact H|].
  apply IH. now apply Inv_remove.
Qed.

Lemma scan_new_row I f b :
  find_row b (ix_files (scan_new I f)) =
  match f_audit f with
  | Some _ => if str_eqb b (f_bid f) then rowof f else find_row b (ix_files I)
  | None => find_row b (ix_files I)
  end.
Proof.
  unfold scan_new, rowof. destruct (f_audit f); [|reflexivity]. apply find_row_ins_row.
Qed.

Lemma scan_new_ref I f b r :
  In (b, r) (ix_refs (scan_new I f)) <-> (b = f_bid f /\ In r (refsof f)) \/ In (b, r) (ix_refs I).
Proof.
  unfold scan_new, refsof. destruct (f_audit f); simpl; [|tauto].
  now rewrite add_refs_In.
Qed.

Lemma Inv_scan_new J X f : Inv J X -> rowspec X (f_bid f) = None -> Inv (scan_new J f) (f :: X).
Proof.
  intros [F R S T] Hn. pose proof (rowspec_None_refspec _ _ Hn) as Hnr. split.
  - unfold scan_new. destruct (f_audit f); [|exact F]. now apply ins_row_sorted.
  - intros b. rewrite scan_new_row, R, (rowspec_eq (f :: X)), ar_find_cons.
    destruct (str_eqb_spec b (f_bid f)) as [->|_]; [|now destruct (f_audit f)].
    unfold rowof. destruct (f_audit f); [reflexivity|exact Hn].
  - unfold scan_new. destruct (f_audit f); [|exact S]. now apply add_refs_sorted.
  - intros b r. rewrite scan_new_ref, T, (refspec_eq (f :: X)), ar_find_cons.
    destruct (str_eqb_spec b (f_bid f)) as [->|Hne]; [rewrite Hnr; simpl|]; tauto.
Qed.

Lemma Inv_scan_one J cl X f :
  Inv J X ->
  (forall g, In g X -> f_bid g = f_bid f -> f_stat g = f_stat f -> f_audit g = f_audit f) ->
  Inv (fst (scan_one (J, cl) f)) (ar_put f X).
Proof.
  intros HJ Hc. pose proof (inv_rows _ _ HJ (f_bid f)) as Hrow. unfold scan_one.
  destruct (find_row (f_bid f) (ix_files J)) as [[st v]|].
  - destruct (N.eqb_spec st (f_stat f)) as [->|_]; cbn [fst].
    + (* cached stat unchanged: f is the file the row was made from *)
      apply (Inv_ext_find J X); [|exact HJ]. intros b. rewrite ar_find_put.
      destruct (str_eqb_spec b (f_bid f)) as [->|_]; [|reflexivity].
      rewrite rowspec_eq in Hrow. destruct (ar_find (f_bid f) X) as [g|] eqn:Eg; [|discriminate].
      apply ar_find_Some in Eg as [Hg Hb]. specialize (Hc g Hg Hb).
      destruct g as [gb gs ga], f as [fb fs fa]; simpl in *. destruct ga; [|discriminate].
      injection Hrow as -> _. now rewrite Hb, Hc.
    + apply (Inv_scan_new _ (ar_del (f_bid f) X)); [now apply Inv_remove|].
      now rewrite rowspec_eq, ar_find_del, str_eqb_refl.
  - apply (Inv_ext_find _ (f :: X)); [|now apply Inv_scan_new].
    intros b. now rewrite ar_find_put, ar_find_cons.
Qed.

Lemma Inv_scan_loop A : forall J cl X,
  Inv J X -> wf A -> compat X A ->
  Inv (fst (fold_left scan_one A (J, cl))) (ar_put_all A X).
Proof.
  induction A as [|f A IH]; intros J cl X HJ HA Hc; [exact HJ|].
  apply NoDup_cons_iff in HA as [Hn HA']. cbn [fold_left]. destruct (scan_one (J, cl) f) as [J1 cl1] eqn:E.
  apply IH; [|exact HA'|].
  - change J1 with (fst (J1, cl1)). rewrite <- E. apply Inv_scan_one; auto.
    intros g Hg. apply Hc; [exact Hg|now left].
  - intros g h [<-|Hg] Hh Hb.
    + destruct Hn. rewrite Hb. now apply in_map.
    + apply filter_In in Hg as [Hg _]. apply Hc; [exact Hg|now right|exact Hb].
Qed.

Lemma victims_of_In J keep b : In b (victims_of J keep) <-> In b (build_ids J) /\ ~ In b keep.
Proof. unfold victims_of. now rewrite filter_In, negb_true_iff, bmem_false. Qed.

Lemma scan_drop_unseen seen bs : forall s,
  fst (fold_left (fun (t : index * bool) b => if bmem b seen then t else (ix_remove b (fst t), true)) bs s) =
  ix_remove_all (filter (fun b => negb (bmem b seen)) bs) (fst s).
Proof.
  induction bs as [|b bs IH]; intros s; simpl; [reflexivity|].
  rewrite IH. now destruct (bmem b seen).
Qed.

Theorem scan_Inv I cl A0 A :
  Inv I A0 -> wf A -> compat A0 A -> Inv (fst (scan (I, cl) A)) A.
Proof.
  intros Hinv Hwf Hc. unfold scan.
  pose proof (Inv_scan_loop A I cl A0 Hinv Hwf Hc) as H1.
  set (s1 := fold_left scan_one A (I, cl)) in *.
  rewrite scan_drop_unseen. fold (victims_of (fst s1) (ar_bids A)). set (V := victims_of _ _).
  apply (Inv_ext _ (ar_del_all V (ar_put_all A A0))); [|now apply Inv_remove_all].
  intros b. unfold rowspec, refspec. rewrite ar_find_del_all, (ar_find_put_all A A0 b Hwf).
  destruct (ar_find b A) as [f|] eqn:Ef.
  - assert (bmem b V = false) as ->; [|auto]. apply bmem_false. unfold V. rewrite victims_of_In. intros [_ Hn].
    apply Hn. apply ar_find_Some in Ef as [Hf <-]. now apply in_map.
  - destruct (bmem b V) eqn:EV; [auto|].
    (* not in A and no row: a file of A0 without audit trail, or nothing *)
    assert (rowspec (ar_put_all A A0) b = None) as Hn.
    { rewrite <- (inv_rows _ _ H1). apply find_row_None. intros Hin.
      apply bmem_false in EV. apply EV, victims_of_In. split; [exact Hin|]. now apply ar_find_None. }
    unfold rowspec in Hn. rewrite (ar_find_put_all A A0 b Hwf), Ef in Hn.
    destruct (ar_find b A0) as [g|]; [|auto]. destruct (f_audit g); [discriminate|auto].
Qed.

Lemma scan_fresh cl A : wf A -> Inv (fst (scan (ix_empty, cl) A)) A.
Proof. intros H. apply (scan_Inv _ _ []); [apply Inv_empty|exact H|apply compat_nil]. Qed.

Theorem scan_canonical I cl cl' A0 A :
  Inv I A0 -> wf A -> compat A0 A ->
  fst (scan (I, cl) A) = fst (scan (ix_empty, cl') A).
Proof. intros. eapply Inv_unique; [eapply scan_Inv; eauto|now apply scan_fresh]. Qed.

Lemma Inv_prune K A : Inv K A -> ix_prune K = K.
Proof.
  intros [F R S T]. unfold ix_prune. destruct K as [fs rs]; simpl in *. f_equal.
  apply filter_all. intros [b r] Hin. apply bmem_In.
  destruct (find_row b fs) as [v|] eqn:Ef.
  - exact (in_map fst _ _ (find_row_Some_In _ _ _ Ef)).
  - apply T in Hin. rewrite (rowspec_None_refspec A b) in Hin; [destruct Hin|now rewrite <- R].
Qed.

Lemma Inv_exit K cl A : Inv K A -> ix_exit (K, cl) = K.
Proof. intros H. destruct cl; [now apply (Inv_prune K A)|reflexivity]. Qed.

Definition cmd_noscan (c : cmd) : bool :=
  match c with CScan _ => false | CFind n _ _ => n | CClean _ n _ _ => n end.
Definition cmd_fail (c : cmd) : bool :=
  match c with CScan f => f | CFind _ f _ => f | CClean _ _ f _ => f end.

Lemma scanning_noscan c : scanning c = negb (cmd_noscan c).
Proof. now destruct c. Qed.

(* what a command computes from the index K it works on: its status, the list
   it prints and the artifacts it deletes *)
Definition outcome (c : cmd) (K : index) : status * list bid * list bid :=
  match c with
  | CScan _ => (SOk, [], [])
  | CFind _ _ es =>
    match query K es with Err => (SErr, [], []) | Ok sel => (SOk, usort sel, []) end
  | CClean dry _ _ es =>
    match query K es with
    | Err => (SErr, [], [])
    | Ok sel =>
      match closure K sel with
      | None => (SFuel, [], [])
      | Some keep => if dry then (SOk, victims_of K keep, []) else (SOk, [], victims_of K keep)
      end
    end
  end.

Lemma run_cmd_outcome c I A :
  run_cmd c I A =
  let '(s, na, ex) := do_scan (cmd_noscan c) (cmd_fail c) I A in
  if ex then (Build_obs SExit na [], ix_exit s, A) else
  let '(st, l, V) := outcome c (fst s) in
  (Build_obs st na l,
   ix_exit (ix_remove_all V (fst s), match V with [] => false | _ => true end || snd s),
   ar_del_all V A).
Proof.
  destruct c as [fail|noscan fail es|dry noscan fail es]; cbn [run_cmd cmd_noscan cmd_fail outcome];
    destruct (do_scan _ _ I A) as [[s na] [|]]; try reflexivity.
  - now destruct (query (fst s) es).
  - destruct (query (fst s) es) as [sel|]; [|reflexivity].
    destruct (closure (fst s) sel) as [keep|]; [|reflexivity].
    destruct dry; [reflexivity|]. now rewrite orb_comm.
Qed.

Lemma do_scan_qix noscan fail I A : fst (fst (fst (do_scan noscan fail I A))) = qix noscan I A.
Proof. now destruct noscan. Qed.

Lemma outcome_with_scan c K : outcome (with_scan c) K = outcome c K.
Proof. now destruct c. Qed.

Lemma outcome_dry noscan fail es K :
  outcome (CClean true noscan fail es) K =
  let '(st, _, V) := outcome (CClean false noscan fail es) K in (st, V, []).
Proof. simpl. destruct (query K es) as [sel|]; [|reflexivity]. now destruct (closure K sel). Qed.

Lemma run_cmd_noscan c I A A0 :
  cmd_noscan c = true -> Inv I A0 ->
  run_cmd c I A =
  let '(st, l, V) := outcome c I in (Build_obs st [] l, ix_remove_all V I, ar_del_all V A).
Proof.
  intros Hn HI. rewrite run_cmd_outcome, Hn. cbn [do_scan fst snd].
  destruct (outcome c I) as [[st l] V]. now rewrite (Inv_exit _ _ _ (Inv_remove_all V _ _ HI)).
Qed.

Lemma run_cmd_scan c I A K A1 :
  cmd_noscan c = false -> fst (scan (I, false) A) = K -> Inv K A1 ->
  run_cmd c I A =
  if cmd_fail c && negb (found A) then (Build_obs SExit (noaudit_of A) [], K, A) else
  let '(st, l, V) := outcome c K in (Build_obs st (noaudit_of A) l, ix_remove_all V K, ar_del_all V A).
Proof.
  intros Hn <- HK. rewrite run_cmd_outcome, Hn. cbn [do_scan].
  destruct (scan (I, false) A) as [K cl]. cbn [fst snd] in *.
  destruct (cmd_fail c && negb (found A)); [now rewrite (Inv_exit K cl A1)|].
  destruct (outcome c K) as [[st l] V]. now rewrite (Inv_exit _ _ _ (Inv_remove_all V _ _ HK)).
Qed.

Theorem cmd_index_transparent c I A0 A :
  scanning c = true -> Inv I A0 -> wf A -> compat A0 A ->
  run_cmd c I A = run_cmd c ix_empty A.
Proof.
  rewrite scanning_noscan, negb_true_iff. intros Hn Hinv Hwf Hc.
  pose proof (scan_Inv I false A0 A Hinv Hwf Hc) as HK.
  rewrite (run_cmd_scan c I A _ A Hn eq_refl HK).
  symmetry. apply (run_cmd_scan c ix_empty A _ A Hn); [|exact HK].
  symmetry. now apply (scan_canonical I false false A0).
Qed.

(* a state (I, A) inside the history hall: I is the image of an earlier archive
   content A0, and every file of A and of A0 was uploaded in hall, so that
   stat_faithful hall relates them *)
Record hinv (hall : list event) (I : index) (A A0 : archive) : Prop := {
  hi_wf : wf A;
  hi_inv : Inv I A0;
  hi_put : forall f, In f A -> In (EPut f) hall;
  hi_put0 : forall f, In f A0 -> In (EPut f) hall
}.

Lemma hinv_compat hall I A A0 : stat_faithful hall -> hinv hall I A A0 -> compat A0 A.
Proof. intros Hsf [_ _ H1 H2] g f Hg Hf. apply Hsf; auto. Qed.

Lemma hinv_del_all hall V K A A0 :
  hinv hall K A A0 -> hinv hall (ix_remove_all V K) (ar_del_all V A) (ar_del_all V A0).
Proof.
  intros [H1 H2 H3 H4]. split.
  - now apply wf_del_all.
  - now apply Inv_remove_all.
  - intros f Hf. apply ar_del_all_In in Hf. now apply H3.
  - intros f Hf. apply ar_del_all_In in Hf. now apply H4.
Qed.

Lemma hinv_cmd hall c I A A0 :
  stat_faithful hall -> hinv hall I A A0 ->
  exists A0', hinv hall (snd (fst (run_cmd c I A))) (snd (run_cmd c I A)) A0'.
Proof.
  intros Hsf Hh. pose proof (hinv_compat _ _ _ _ Hsf Hh) as Hc.
  destruct Hh as [Hwf Hinv Hput Hput0]. destruct (cmd_noscan c) eqn:Hn.
  - rewrite (run_cmd_noscan c I A A0 Hn Hinv). destruct (outcome c I) as [[st l] V].
    exists (ar_del_all V A0). apply hinv_del_all. now split.
  - pose proof (scan_Inv I false A0 A Hinv Hwf Hc) as HK.
    assert (hinv hall (fst (scan (I, false) A)) A A) as Hh by now split.
    rewrite (run_cmd_scan c I A _ A Hn eq_refl HK).
    destruct (cmd_fail c && negb (found A)); [now exists A|].
    destruct (outcome c _) as [[st l] V]. exists (ar_del_all V A). now apply hinv_del_all.
Qed.

Lemma hist_state_hinv hall h : forall I A A0,
  stat_faithful hall -> incl h hall -> hinv hall I A A0 ->
  exists A0', hinv hall (fst (hist_state I A h)) (snd (hist_state I A h)) A0'.
Proof.
  induction h as [|e h IH]; intros I A A0 Hsf Hincl Hh; simpl.
  - now exists A0.
  - assert (incl h hall) as Hincl' by (intros x Hx; apply Hincl; now right).
    destruct e as [f|b|c].
    + apply (IH I (ar_put f A) A0 Hsf Hincl'). destruct Hh as [H1 H2 H3 H4]. split; auto.
      * now apply wf_put.
      * intros g [<-|Hg]; [apply Hincl; now left|]. apply filter_In in Hg as [Hg _]. auto.
    + apply (IH I (ar_del b A) A0 Hsf Hincl'). destruct Hh as [H1 H2 H3 H4]. split; auto.
      * now apply wf_del.
      * intros g Hg. apply filter_In in Hg as [Hg _]. auto.
    + destruct (hinv_cmd hall c I A A0 Hsf Hh) as (A0' & Hh').
      destruct (run_cmd c I A) as [[o I'] A']. apply (IH I' A' A0' Hsf Hincl' Hh').
Qed.

Lemma hinv_init hall : hinv hall ix_empty [] [].
Proof. split; try apply wf_nil; try apply Inv_empty; intros f []. Qed.

(* what Audit.getReferencedBuildIds should return for the dependency records
   [deps]: b is a dist artifact among them, or among the records below one of
   them that is not dist *)
Inductive dist_reach : list arec -> bid -> Prop :=
| dr_here deps b sub : In (ARec true b sub) deps -> dist_reach deps b
| dr_below deps b0 sub b : In (ARec false b0 sub) deps -> dist_reach sub b -> dist_reach deps b.

Lemma arec_ind' (P : arec -> Prop) :
  (forall d b deps, Forall P deps -> P (ARec d b deps)) -> forall r, P r.
Proof.
  intros H. fix IH 1. intros [d b deps]. apply H.
  induction deps as [|r deps IHd]; constructor; [apply IH|exact IHd].
Qed.

Lemma rec_refs_reach deps b : In b (flat_map rec_refs deps) <-> dist_reach deps b.
Proof.
  split.
  - intros (r & Hr & Hb)%in_flat_map. revert b deps Hr Hb.
    induction r as [[|] b0 sub IH] using arec_ind'; intros b deps Hr Hb; simpl in Hb.
    + destruct Hb as [<-|[]]. exact (dr_here _ _ _ Hr).
    + apply in_flat_map in Hb as (r' & Hr' & Hb). rewrite Forall_forall in IH.
      exact (dr_below _ _ _ _ Hr (IH r' Hr' b sub Hr' Hb)).
  - induction 1 as [deps b sub H|deps b0 sub b H _ IH]; apply in_flat_map.
    + exists (ARec true b sub). split; [exact H|now left].
    + exists (ARec false b0 sub). split; [exact H|exact IH].
Qed.
