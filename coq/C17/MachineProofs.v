(* C17 — the character-level machine computes the documented value of every
   expression tree of the documented grammar (machine_computes_documented_value).
   [exec] gets one equation per class of character in front of an activation
   (exec_close, exec_open and its instances) and per rendered form (exec_lit,
   exec_quoted, exec_bare, exec_op); the induction over the tree uses only
   these.  After it: with substitution off nothing fails, and [exec] never
   yields Fuel. *)
From Coq Require Import List NArith Bool.
Require Import BobV.Gen.Consts BobV.C17.Model BobV.C17.Proofs BobV.C17.Machine BobV.C17.Spec.
Import ListNotations.
Open Scope N_scope.

Section Machine.
  Variable c : ctx.

  Lemma exec_cons st x t : exec c st (x :: t) = bind (step c st x) (fun st' => exec c st' t).
  Proof. apply bind_assoc. Qed.

  Lemma exec_close k sb acc B x t : mem x (extra_of k) = true ->
    exec c (FS k sb acc :: B) (x :: t) = bind (terminate c k sb acc x B) (fun st => exec c st t).
  Proof. intros H. rewrite exec_cons. cbn [step]. unfold step_fs. now rewrite H. Qed.

  Lemma exec_open k sb acc B x t : mem x (extra_of k) = false ->
    exec c (FS k sb acc :: B) (x :: t) =
    if x =? ch_dq then exec c (FS KDq sb [] :: FS k sb acc :: B) t
    else if x =? ch_sq then exec c (FSq [] :: FS k sb acc :: B) t
    else if x =? ch_dollar then exec c (FDollar sb :: FS k sb acc :: B) t
    else if x =? ch_bs then exec c (FEsc :: FS k sb acc :: B) t
    else exec c (FS k sb (acc ++ [x]) :: B) t.
  Proof.
    intros H. rewrite exec_cons. cbn [step]. unfold step_fs. rewrite H.
    destruct (x =? ch_dq); [reflexivity|]. destruct (x =? ch_sq); [reflexivity|].
    destruct (x =? ch_dollar); [reflexivity|]. now destruct (x =? ch_bs).
  Qed.

  Lemma exec_dq k sb acc B t : mem ch_dq (extra_of k) = false ->
    exec c (FS k sb acc :: B) (ch_dq :: t) = exec c (FS KDq sb [] :: FS k sb acc :: B) t.
  Proof. apply exec_open. Qed.

  Lemma exec_sq k sb acc B t :
    exec c (FS k sb acc :: B) (ch_sq :: t) = exec c (FSq [] :: FS k sb acc :: B) t.
  Proof. apply exec_open. now destruct k. Qed.

  Lemma exec_dollar k sb acc B t :
    exec c (FS k sb acc :: B) (ch_dollar :: t) = exec c (FDollar sb :: FS k sb acc :: B) t.
  Proof. apply exec_open. now destruct k. Qed.

  Lemma exec_bs k sb acc B x t :
    exec c (FS k sb acc :: B) (ch_bs :: x :: t) = exec c (FS k sb (acc ++ [x]) :: B) t.
  Proof. rewrite exec_open by now destruct k. apply exec_cons. Qed.

  Lemma exec_plain k sb acc B x t :
    mem x (TOKEN_DELIMS ++ extra_of k) = false -> (x =? ch_bs) = false ->
    exec c (FS k sb acc :: B) (x :: t) = exec c (FS k sb (acc ++ [x]) :: B) t.
  Proof.
    intros Ed Eb.
    change ((x =? ch_dq) || ((x =? ch_sq) || ((x =? ch_dollar) || mem x (extra_of k))) = false) in Ed.
    apply orb_false_iff in Ed as [E1 Ed]. apply orb_false_iff in Ed as [E2 Ed].
    apply orb_false_iff in Ed as [E3 Ed].
    rewrite exec_open by exact Ed. now rewrite E1, E2, E3, Eb.
  Qed.

  Lemma meta_covers k x : mem x META = false -> mem x (ch_bs :: TOKEN_DELIMS ++ extra_of k) = false.
  Proof.
    intros H. apply mem_false_not_In. intros I.
    assert (F : forallb (fun y => mem y META) (ch_bs :: TOKEN_DELIMS ++ extra_of k) = true) by now destruct k.
    rewrite forallb_forall in F. apply F in I. congruence.
  Qed.

  Lemma exec_lit s rest : forall k sb acc B,
    exec c (FS k sb acc :: B) (flat_map render_char s ++ rest) = exec c (FS k sb (acc ++ s) :: B) rest.
  Proof.
    induction s as [|x s IH]; intros k sb acc B; cbn [flat_map app].
    - now rewrite app_nil_r.
    - replace (acc ++ x :: s) with ((acc ++ [x]) ++ s) by now rewrite <- app_assoc.
      rewrite <- IH, <- app_assoc. unfold render_char at 1.
      destruct (mem x META) eqn:E; cbn [app].
      + apply exec_bs.
      + apply (meta_covers k), orb_false_iff in E as [Eb Ed]. now apply exec_plain.
  Qed.

  Lemma exec_quoted s rest : forall a k sb acc B, mem ch_sq s = false ->
    exec c (FSq a :: FS k sb acc :: B) (s ++ ch_sq :: rest) = exec c (FS k sb (acc ++ a ++ s) :: B) rest.
  Proof.
    induction s as [|x s IH]; intros a k sb acc B H; cbn [app]; rewrite exec_cons; cbn [step].
    - now rewrite app_nil_r.
    - apply orb_false_iff in H as [H1 H2].
      rewrite N.eqb_sym, H1. cbn [bind]. rewrite IH by exact H2. now rewrite <- app_assoc.
  Qed.

  Lemma exec_var_open k sb acc B t :
    exec c (FS k sb acc :: B) (ch_dollar :: ch_lbrace :: t) = exec c (FS KVarName sb [] :: FS k sb acc :: B) t.
  Proof. now rewrite exec_dollar. Qed.

  Lemma exec_call_open k sb acc B t :
    exec c (FS k sb acc :: B) (ch_dollar :: ch_lparen :: t) =
    exec c (FS KArg sb [] :: FCmd [] sb :: FS k sb acc :: B) t.
  Proof. now rewrite exec_dollar. Qed.

  Lemma exec_bare t rest k sb' acc B : forall n sb,
    forallb (fun x => mem x NAME_CHARS) t = true -> nsafe rest = true ->
    exec c (FBare n sb :: FS k sb' acc :: B) (t ++ rest) =
    bind (var_value c sb (n ++ t)) (fun v => exec c (FS k sb' (acc ++ v) :: B) rest).
  Proof.
    induction t as [|x t IH]; intros n sb Ht Hs; cbn [app].
    - rewrite app_nil_r. destruct rest as [|x rest].
      + unfold exec. cbn [run bind finish]. unfold var_value.
        destruct (lookup (c_env c) n); [|destruct (sb && c_nounset c)]; destruct k, B; reflexivity.
      + apply negb_true_iff in Hs.
        rewrite exec_cons. cbn [step]. rewrite Hs, bind_assoc.
        apply bind_ext. intros v. now rewrite exec_cons.
    - apply andb_true_iff in Ht as [H1 H2].
      rewrite exec_cons. cbn [step]. rewrite H1. cbn [bind].
      rewrite IH by assumption. now rewrite <- app_assoc.
  Qed.

  Lemma exec_op (colon : bool) o sb nm B t : In o [ch_minus; ch_plus; ch_rbrace] ->
    exec c (FS KVarName sb nm :: B) ((if colon then [ch_colon] else []) ++ o :: t) =
    bind (dispatch_op c nm sb (unset_of c colon nm) o B) (fun st => exec c st t).
  Proof.
    intros Ho. unfold unset_of. destruct colon; cbn [app].
    - rewrite exec_close by reflexivity. cbn [terminate]. change (ch_colon =? ch_colon) with true.
      cbn [bind]. now rewrite exec_cons.
    - destruct Ho as [<-|[<-|[<-|[]]]]; now rewrite exec_close.
  Qed.

  Lemma nsafe_app a b : a <> [] -> nsafe (a ++ b) = nsafe a.
  Proof. destruct a; [congruence|reflexivity]. Qed.

  Lemma nsafe_delims : nsafe [ch_dq] = true /\ nsafe [ch_rbrace] = true /\ nsafe [ch_comma] = true /\
                       nsafe [ch_rparen] = true /\ nsafe [ch_colon] = true /\ nsafe [ch_minus] = true /\ nsafe [ch_plus] = true.
  Proof. repeat apply conj; vm_compute; reflexivity. Qed.

  Lemma r_items_nonempty i r : wf_item i = true -> r_items (ICons i r) <> [].
  Proof.
    destruct i; cbn; try discriminate.
    destruct s as [|x s]; [discriminate|]. cbn. unfold render_char. destruct (mem x META); discriminate.
  Qed.

  (* [op_value], [call_value]: the IVar and ICall branches of Spec.e_item from the
     evaluated name / words on, which is where P_op and P_words take over;
     e_item reduces to them by conversion. *)
  Definition op_value (sb : bool) (nm : str) (o : vop) : res str :=
    match o with
    | ONone => var_value c sb nm
    | OBody colon plus body =>
      let unset := unset_of c colon nm in
      if plus then bind (e_items c (sb && negb unset) body) (fun a => Ok (if unset then [] else a))
      else bind (e_items c (sb && unset) body) (fun d => Ok (if unset then d else env_get (c_env c) nm))
    end.

  Definition call_value (sb : bool) (ws : list str) : res str :=
    if sb then match ws with cmd :: args => call_fun c cmd args | [] => PErr end else Ok [].

  (* Side conditions: inside a double quoted string a double quote closes it, so
     no quoted item stands there directly; a bare name ends where the text that
     follows does not continue it. *)
  Definition P_item (i : item) : Prop := forall sb k acc below rest,
    wf_item i = true -> (k = KDq -> is_dq i = false) -> (is_bare i = true -> nsafe rest = true) ->
    exec c (FS k sb acc :: below) (r_item i ++ rest) =
    bind (e_item c sb i) (fun v => exec c (FS k sb (acc ++ v) :: below) rest).

  Definition P_items (e : items) : Prop := forall sb k acc below rest,
    wf_items e = true -> (k = KDq -> no_top_dq e = true) -> (ends_bare e = true -> nsafe rest = true) ->
    exec c (FS k sb acc :: below) (r_items e ++ rest) =
    bind (e_items c sb e) (fun v => exec c (FS k sb (acc ++ v) :: below) rest).

  Definition P_op (o : vop) : Prop := forall sb nm k' sb' acc' below' rest,
    wf_op o = true ->
    exec c (FS KVarName sb nm :: FS k' sb' acc' :: below') (r_op o ++ ch_rbrace :: rest) =
    bind (op_value sb nm o) (fun v => exec c (FS k' sb' (acc' ++ v) :: below') rest).

  Definition P_words (w : words) : Prop := forall sb ws0 k' sb' acc' below' rest,
    wf_words w = true ->
    exec c (FS KArg sb [] :: FCmd ws0 sb :: FS k' sb' acc' :: below') (r_words w ++ ch_rparen :: rest) =
    bind (e_words c sb w) (fun vs =>
      bind (call_value sb (ws0 ++ vs)) (fun v => exec c (FS k' sb' (acc' ++ v) :: below') rest)).

  Lemma P_lit s : P_item (ILit s).
  Proof. intros sb k acc below rest _ _ _. apply exec_lit. Qed.

  Lemma P_sq s : P_item (ISq s).
  Proof.
    intros sb k acc below rest W _ _. cbn [r_item e_item bind wf_item] in *.
    apply negb_true_iff in W.
    cbn [app]. rewrite <- app_assoc, exec_sq. now apply exec_quoted.
  Qed.

  Lemma P_bare n : P_item (IBare n).
  Proof.
    intros sb k acc below rest W _ Hs. cbn [r_item e_item wf_item is_bare] in *.
    destruct n as [|h t]; [discriminate|]. apply andb_true_iff in W as [W1 W2].
    cbn [app]. rewrite exec_dollar, exec_cons. cbn [step].
    destruct (N.eqb_spec h ch_lbrace) as [->|_]; [discriminate|].
    destruct (N.eqb_spec h ch_lparen) as [->|_]; [discriminate|].
    rewrite W1. now apply (exec_bare t rest k sb acc below [h]); auto.
  Qed.

  Lemma P_dq b : P_items b -> P_item (IDq b).
  Proof.
    intros IH sb k acc below rest W Hk _. cbn [r_item e_item wf_item is_dq] in *.
    apply andb_true_iff in W as [W1 W2].
    cbn [app]. rewrite <- app_assoc, exec_dq by (destruct k; try reflexivity; discriminate (Hk eq_refl)).
    rewrite (IH sb KDq [] (FS k sb acc :: below) ([ch_dq] ++ rest) W1 (fun _ => W2) (fun _ => eq_refl)).
    apply bind_ext. intros v. cbn [app]. now rewrite exec_close.
  Qed.

  Lemma P_nil : P_items INil.
  Proof. intros sb k acc below rest _ _ _. cbn. now rewrite app_nil_r. Qed.

  Lemma P_cons i : P_item i -> forall r, P_items r -> P_items (ICons i r).
  Proof.
    intros Hi r Hr sb k acc below rest W Hk Hs. cbn [r_items e_items wf_items no_top_dq] in *.
    apply andb_true_iff in W as [W W3]. apply andb_true_iff in W as [W1 W2].
    rewrite <- app_assoc.
    rewrite (Hi sb k acc below (r_items r ++ rest) W1).
    - rewrite bind_assoc. apply bind_ext. intros v.
      rewrite (Hr sb k (acc ++ v) below rest W2).
      + rewrite bind_assoc. apply bind_ext. intros w. cbn [bind]. now rewrite app_assoc.
      + intros Ek. specialize (Hk Ek). apply andb_true_iff in Hk. apply Hk.
      + intros He. apply Hs. destruct r; [discriminate|exact He].
    - intros Ek. specialize (Hk Ek). apply andb_true_iff in Hk as [Hk _]. now apply negb_true_iff in Hk.
    - intros Hb. rewrite Hb in W3. destruct r as [|j r'].
      + apply Hs. exact Hb.
      + rewrite nsafe_app; [exact W3|]. apply andb_true_iff in W2 as [W2 _]. apply andb_true_iff in W2 as [W2 _].
        now apply r_items_nonempty.
  Qed.

  Lemma P_onone : P_op ONone.
  Proof.
    intros sb nm k' sb' acc' below' rest _.
    rewrite (exec_op false ch_rbrace sb nm _ rest) by (cbn; auto). cbn -[var_value exec].
    rewrite !bind_assoc. now apply bind_ext.
  Qed.

  Lemma P_obody colon plus body : P_items body -> P_op (OBody colon plus body).
  Proof.
    intros IH sb nm k' sb' acc' below' rest W. cbn [r_op op_value].
    rewrite <- !app_assoc. cbn [app]. rewrite exec_op by (destruct plus; cbn; auto).
    destruct plus; cbn -[exec]; rewrite IH by (trivial; discriminate); rewrite bind_assoc; apply bind_ext; intros a;
      cbn [bind app]; now rewrite exec_close.
  Qed.

  Lemma P_var name : P_items name -> forall op, P_op op -> P_item (IVar name op).
  Proof.
    intros Hn op Ho sb k acc below rest W _ _. cbn [r_item e_item wf_item] in *.
    apply andb_true_iff in W as [W1 W2].
    cbn [app]. rewrite exec_var_open, <- !app_assoc.
    rewrite (Hn sb KVarName [] (FS k sb acc :: below) (r_op op ++ [ch_rbrace] ++ rest) W1 (fun E => ltac:(discriminate E))).
    - rewrite bind_assoc. apply bind_ext. intros nm. exact (Ho sb nm k sb acc below rest W2).
    - destruct op as [|[] [] body]; reflexivity.
  Qed.

  Lemma P_wone w : P_items w -> P_words (WOne w).
  Proof.
    intros IH sb ws0 k' sb' acc' below' rest W. cbn [wf_words r_words e_words] in *.
    rewrite IH by (trivial; discriminate).
    rewrite bind_assoc. apply bind_ext. intros v. cbn [bind app].
    rewrite exec_close by reflexivity. cbn [terminate].
    change (ch_rparen =? ch_rparen) with true.
    destruct sb; [|reflexivity].
    destruct (ws0 ++ [v]) as [|cmd args]; [reflexivity|].
    rewrite !bind_assoc. now apply bind_ext.
  Qed.

  Lemma P_wcons w : P_items w -> forall r, P_words r -> P_words (WCons w r).
  Proof.
    intros Hw r Hr sb ws0 k' sb' acc' below' rest W. cbn [wf_words r_words e_words] in *.
    apply andb_true_iff in W as [W1 W2].
    rewrite <- !app_assoc, Hw by (trivial; discriminate).
    rewrite bind_assoc. apply bind_ext. intros v. cbn [bind app].
    rewrite exec_close by reflexivity. cbn [terminate].
    change (ch_comma =? ch_rparen) with false. cbn [bind].
    rewrite (Hr sb (ws0 ++ [v]) k' sb' acc' below' rest W2).
    rewrite bind_assoc. apply bind_ext. intros vs. cbn [bind]. now rewrite <- app_assoc.
  Qed.

  Lemma P_call ws : P_words ws -> P_item (ICall ws).
  Proof.
    intros IH sb k acc below rest W _ _. cbn [r_item e_item wf_item] in *.
    cbn [app]. rewrite exec_call_open, <- app_assoc. cbn [app].
    rewrite (IH sb [] k sb acc below rest W). rewrite bind_assoc. now apply bind_ext.
  Qed.

  Theorem machine_computes_documented_value :
    (forall i, P_item i) /\ (forall e, P_items e) /\ (forall o, P_op o) /\ (forall w, P_words w).
  Proof.
    exact (ast_mutind _ _ _ _ P_lit P_sq P_dq P_bare P_var P_call P_nil P_cons P_onone P_obody P_wone P_wcons).
  Qed.

  Lemma var_value_off n : exists v, var_value c false n = Ok v.
  Proof. unfold var_value. destruct (lookup (c_env c) n); eexists; reflexivity. Qed.

  Lemma untaken_never_fails :
    (forall i, exists v, e_item c false i = Ok v) /\ (forall e, exists v, e_items c false e = Ok v) /\
    (forall o nm, exists v, op_value false nm o = Ok v) /\
    (forall w, exists vs, e_words c false w = Ok vs).
  Proof.
    apply ast_mutind; intros; cbn [e_item e_items e_words op_value]; auto using var_value_off.
    - eexists; reflexivity.
    - eexists; reflexivity.
    - destruct H as [nm ->]. apply H0.
    - destruct H as [vs ->]. eexists; reflexivity.
    - eexists; reflexivity.
    - destruct H as [v ->], H0 as [w ->]. eexists; reflexivity.
    - cbn [andb]. destruct H as [v ->]. destruct plus; cbn; eexists; reflexivity.
    - destruct H as [v ->]. eexists; reflexivity.
    - destruct H as [v ->], H0 as [vs ->]. eexists; reflexivity.
  Qed.

  Lemma if_no_fuel {A} (b : bool) (x y : res A) : x <> Fuel -> y <> Fuel -> (if b then x else y) <> Fuel.
  Proof. now destruct b. Qed.

  Lemma bind_no_fuel {A B} (r : res A) (f : A -> res B) :
    r <> Fuel -> (forall a, f a <> Fuel) -> bind r f <> Fuel.
  Proof. destruct r; cbn; auto; discriminate. Qed.

  Lemma call_fun_no_fuel name args : call_fun c name args <> Fuel.
  Proof.
    unfold call_fun. repeat apply if_no_fuel;
      repeat match goal with |- match ?x with _ => _ end <> _ => destruct x end; discriminate.
  Qed.

  Lemma append_val_no_fuel v st : append_val v st <> Fuel.
  Proof. destruct st as [|[] ?]; discriminate. Qed.

  Lemma var_value_no_fuel sb n : var_value c sb n <> Fuel.
  Proof. unfold var_value. destruct (lookup (c_env c) n); [discriminate|]. destruct (sb && c_nounset c); discriminate. Qed.

  Lemma dispatch_no_fuel name sb unset op below : dispatch_op c name sb unset op below <> Fuel.
  Proof.
    unfold dispatch_op. repeat apply if_no_fuel; try discriminate.
    apply bind_no_fuel; [apply var_value_no_fuel|intros; apply append_val_no_fuel].
  Qed.

  Lemma step_fs_no_fuel k sb acc below x : step_fs c k sb acc below x <> Fuel.
  Proof.
    unfold step_fs. apply if_no_fuel; [|repeat apply if_no_fuel; discriminate].
    destruct k; cbn [terminate]; try discriminate; try apply append_val_no_fuel.
    - apply if_no_fuel; [discriminate|apply dispatch_no_fuel].
    - destruct below as [|[] ?]; try discriminate.
      repeat apply if_no_fuel; try discriminate; [|apply append_val_no_fuel].
      destruct (words ++ [acc]); [discriminate|].
      apply bind_no_fuel; [apply call_fun_no_fuel|intros; apply append_val_no_fuel].
  Qed.

  Lemma step_no_fuel st x : step c st x <> Fuel.
  Proof.
    destruct st as [|f below]; [discriminate|]. destruct f; cbn [step].
    - apply step_fs_no_fuel.
    - apply append_val_no_fuel.
    - apply if_no_fuel; [apply append_val_no_fuel|discriminate].
    - repeat apply if_no_fuel; discriminate.
    - apply if_no_fuel; [discriminate|].
      apply bind_no_fuel; [apply var_value_no_fuel|]. intros v.
      destruct below as [|[] ?]; try discriminate. apply step_fs_no_fuel.
    - apply dispatch_no_fuel.
    - discriminate.
  Qed.

  Lemma finish_no_fuel st : finish c st <> Fuel.
  Proof.
    unfold finish.
    repeat match goal with |- match ?x with _ => _ end <> _ => destruct x end; try discriminate.
    apply bind_no_fuel; [apply var_value_no_fuel|discriminate].
  Qed.

  Lemma exec_no_fuel t : forall st, exec c st t <> Fuel.
  Proof.
    induction t as [|x t IH]; intros st; [apply finish_no_fuel|].
    rewrite exec_cons. apply bind_no_fuel; [apply step_no_fuel|apply IH].
  Qed.
End Machine.
