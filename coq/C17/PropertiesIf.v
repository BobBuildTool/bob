(* C17 — property theorems about the concrete syntax of if-expressions
   (model: C17/IfGrammar.v, a PEG transliteration of the pyparsing grammar of
   bob.stringparser.IfExpressionParser), each derived in a few steps from the
   lemmas of IfGrammarProofs.v, and examples. *)
From Coq Require Import List NArith Bool Lia.
Require Import BobV.Gen.Consts BobV.C17.Model BobV.C17.IfGrammar BobV.C17.IfGrammarProofs.
Import ListNotations.
Open Scope N_scope.

(* Totality: the fuel handed out by the entry point (length of the text + 1
   for nested parentheses; length of the rest + 1 for every operator loop and
   argument list) always suffices, for every input text. *)
Theorem parse_if_total : forall s, parse_ast_res s <> PFuel.
Proof.
  intros s. unfold parse_ast_res. pose proof (p_expr_fuel (S (length s)) s (le_n _)) as F.
  destruct (p_expr (S (length s)) s) as [e r| |]; [destruct (skip_ws r)|..]; congruence.
Qed.

(* Round trip, general form.  [rend 9 a s] says that s is one of the texts of
   the tree a: any white space (blank, tab, line feed, carriage return) before
   every token, any redundant parentheses, any spelling of a literal that the
   quoting admits (body b of a double quoted string stands for unq 0 b; single
   quoted bodies stand for themselves), minimal or more parentheses according
   to the precedence levels.  Every such text, followed by any white space,
   parses to exactly that tree. *)
Theorem parse_ast_of_text : forall a s w, rend 9 a s -> all_ws w -> parse_ast (s ++ w) = Some a.
Proof.
  intros a s w H Hw. unfold parse_ast, parse_ast_res. rewrite p_expr_S.
  rewrite (rend_parse_lv 9 a s H (length (s ++ w)) 9 w), loopat_stop;
    [|apply stop_end, Hw|rewrite app_length; auto with arith|repeat constructor|apply stop_end, Hw].
  rewrite skip_ws_all by exact Hw. reflexivity.
Qed.

(* ... and to the evaluated AST of Model.v when the comparison operands are
   strings or function calls (otherwise BinaryStrOperator raises ParseError). *)
Theorem parse_if_of_text : forall a e s w, rend 9 a s -> all_ws w -> to_ifexpr a = Some e ->
  parse_if (s ++ w) = Some e.
Proof.
  intros a e s w H Hw T. unfold parse_if. rewrite (parse_ast_of_text a s w H Hw). exact T.
Qed.

Lemma parse_ast_of_bare_text : forall a s, rend 9 a s -> parse_ast s = Some a.
Proof.
  intros a s H. rewrite <- (app_nil_r s). apply parse_ast_of_text; [exact H|apply all_ws_nil].
Qed.

(* the renderers are instances of the general notion of text *)
Theorem render_is_text : forall a, wf_ast a = true -> forall k, rend k a (render_at k a).
Proof. intros a W k. exact (render_at_rend a W k [] all_ws_nil). Qed.

Theorem to_ifexpr_of_ifexpr : forall e, to_ifexpr (of_ifexpr e) = Some e.
Proof.
  induction e as [s|x IH|l IHl r IHr|l IHl r IHr|c l r]; cbn [of_ifexpr to_ifexpr cmp_of].
  - reflexivity.
  - rewrite IH. reflexivity.
  - rewrite IHl, IHr. reflexivity.
  - rewrite IHl, IHr. reflexivity.
  - destruct c; reflexivity.
Qed.

(* Round trip for the renderer with minimal parentheses: every well-formed
   AST (function names in the Word alphabet; single quoted literals without
   single quote, line feed and carriage return; double quoted literals
   arbitrary) comes back from its text. *)
Theorem parse_if_render : forall e, wf_if e = true -> parse_if (render_if e) = Some e.
Proof.
  intros e W. unfold parse_if, render_if.
  rewrite (parse_ast_of_bare_text (of_ifexpr e)) by (apply render_is_text; exact W).
  apply to_ifexpr_of_ifexpr.
Qed.

(* the same for trees whose comparisons have arbitrary operands (what the
   grammar accepts before the parse actions check the operand types) *)
Theorem parse_ast_render : forall a, wf_ast a = true -> parse_ast (render_ast a) = Some a.
Proof. intros a W. apply parse_ast_of_bare_text, render_is_text, W. Qed.

Theorem parse_ast_render_full : forall a, wf_ast a = true -> parse_ast (render_full a) = Some a.
Proof. intros a W. apply parse_ast_of_bare_text, render_full_rend, W. Qed.

(* Text between single quotes is the literal, verbatim, whatever backslash
   sequences it contains (bobpaths(7), String literals). *)
Theorem single_quoted_literal_verbatim : forall s,
  ~ In 39 s -> ~ In 10 s -> ~ In 13 s ->
  parse_if (39 :: s ++ [39]) = Some (IStr (SLit s false)).
Proof.
  intros s H1 H2 H3. unfold parse_if.
  rewrite (parse_ast_of_bare_text (AStr (SLit s false))); [reflexivity|].
  apply R_str, (RSq [] s all_ws_nil). apply forallb_forall. intros c Hc.
  apply negb_true_iff, orb_false_intro; [apply orb_false_intro|]; apply N.eqb_neq; intros ->; contradiction.
Qed.

(* Precedence and associativity, for arbitrary operand texts.
   Levels: lvl BLt = 2 < lvl BLe < lvl BGt < lvl BGe < lvl BEq < lvl BNe < lvl BAnd = 8 < lvl BOr = 9;
   `!` is level 1, primaries level 0; [rend k a s]: s is a text of a that needs
   no parentheses where level k is admitted.

   A binary operator takes as left operand everything of its own level or
   tighter, as right operand everything strictly tighter: texts joined by an
   operator parse to the operator applied to the two trees. *)
Lemma join_parse : forall op l r sl sr w1 w2, rend (lvl op) l sl -> rend (lvl op - 1) r sr ->
  all_ws w1 -> all_ws w2 ->
  parse_ast (sl ++ w1 ++ op_text op ++ sr ++ w2) = Some (ABin op l r).
Proof.
  intros op l r sl sr w1 w2 Hl Hr H1 H2.
  replace (sl ++ w1 ++ op_text op ++ sr ++ w2) with ((sl ++ w1 ++ op_text op ++ sr) ++ w2)
    by (repeat rewrite <- app_assoc; reflexivity).
  apply parse_ast_of_text; [|exact H2]. apply R_bin; [apply lvl_range|exact Hl|exact H1|exact Hr].
Qed.

(* a op2 b op1 c  =  a op2 (b op1 c)   whenever op1 binds tighter than op2 *)
Theorem tighter_operator_groups_right : forall op1 op2 a b c sa sb sc w1 w2 w3,
  (lvl op1 < lvl op2)%nat ->
  rend (lvl op2) a sa -> rend (lvl op1) b sb -> rend (lvl op1 - 1) c sc ->
  all_ws w1 -> all_ws w2 -> all_ws w3 ->
  parse_ast (sa ++ w1 ++ op_text op2 ++ (sb ++ w2 ++ op_text op1 ++ sc) ++ w3)
  = Some (ABin op2 a (ABin op1 b c)).
Proof.
  intros op1 op2 a b c sa sb sc w1 w2 w3 Hlt Ha Hb Hc H1 H2 H3.
  apply join_parse; try assumption. apply R_bin; [lia|exact Hb|exact H2|exact Hc].
Qed.

(* a op1 b op2 c  =  (a op1 b) op2 c   whenever op1 binds at least as tight as op2;
   op1 = op2 is left associativity *)
Theorem tighter_or_same_operator_groups_left : forall op1 op2 a b c sa sb sc w1 w2 w3,
  (lvl op1 <= lvl op2)%nat ->
  rend (lvl op1) a sa -> rend (lvl op1 - 1) b sb -> rend (lvl op2 - 1) c sc ->
  all_ws w1 -> all_ws w2 -> all_ws w3 ->
  parse_ast ((sa ++ w1 ++ op_text op1 ++ sb) ++ w2 ++ op_text op2 ++ sc ++ w3)
  = Some (ABin op2 (ABin op1 a b) c).
Proof.
  intros op1 op2 a b c sa sb sc w1 w2 w3 Hle Ha Hb Hc H1 H2 H3.
  apply join_parse; try assumption. apply R_bin; [exact Hle|exact Ha|exact H1|exact Hb].
Qed.

(* && binds tighter than ||:   a || b && c = a || (b && c) *)
Theorem and_binds_tighter_than_or : forall a b c sa sb sc w1 w2 w3,
  rend 9 a sa -> rend 8 b sb -> rend 7 c sc -> all_ws w1 -> all_ws w2 -> all_ws w3 ->
  parse_ast (sa ++ w1 ++ [124; 124] ++ (sb ++ w2 ++ [38; 38] ++ sc) ++ w3)
  = Some (ABin BOr a (ABin BAnd b c)).
Proof.
  intros a b c sa sb sc w1 w2 w3. apply (tighter_operator_groups_right BAnd BOr). apply le_n.
Qed.

(* every comparison binds tighter than &&:   a && x cmp y = a && (x cmp y) *)
Theorem comparison_binds_tighter_than_and : forall op a x y sa sx sy w1 w2 w3,
  cmp_of op <> None ->
  rend 8 a sa -> rend (lvl op) x sx -> rend (lvl op - 1) y sy -> all_ws w1 -> all_ws w2 -> all_ws w3 ->
  parse_ast (sa ++ w1 ++ [38; 38] ++ (sx ++ w2 ++ op_text op ++ sy) ++ w3)
  = Some (ABin BAnd a (ABin op x y)).
Proof.
  intros op a x y sa sx sy w1 w2 w3 Hc. apply (tighter_operator_groups_right op BAnd).
  destruct op; try contradiction; repeat constructor.
Qed.

(* ! binds tightest:   !a op b = (!a) op b   for every binary operator *)
Theorem not_binds_tightest : forall op a b sa sb w0 w1 w2,
  rend 1 a sa -> rend (lvl op - 1) b sb -> all_ws w0 -> all_ws w1 -> all_ws w2 ->
  parse_ast ((w0 ++ 33 :: sa) ++ w1 ++ op_text op ++ sb ++ w2) = Some (ABin op (ANot a) b).
Proof.
  intros op a b sa sb w0 w1 w2 Ha Hb H0 H1 H2. pose proof (lvl_range op).
  apply join_parse; try assumption. apply R_not; [lia|exact H0|exact Ha].
Qed.

(* binary operators are left associative:   a op b op c = (a op b) op c *)
Theorem binary_operators_left_associative : forall op a b c sa sb sc w1 w2 w3,
  rend (lvl op) a sa -> rend (lvl op - 1) b sb -> rend (lvl op - 1) c sc ->
  all_ws w1 -> all_ws w2 -> all_ws w3 ->
  parse_ast ((sa ++ w1 ++ op_text op ++ sb) ++ w2 ++ op_text op ++ sc ++ w3)
  = Some (ABin op (ABin op a b) c).
Proof.
  intros op a b c sa sb sc w1 w2 w3. apply (tighter_or_same_operator_groups_left op op). apply le_n.
Qed.

(* ! is a prefix operator that nests:   !!a = !(!a) *)
Theorem not_nests : forall a sa w, rend 1 a sa -> all_ws w ->
  parse_ast ((33 :: 33 :: sa) ++ w) = Some (ANot (ANot a)).
Proof.
  intros a sa w Ha Hw. apply parse_ast_of_text; [|exact Hw].
  apply rend_not; [repeat constructor|]. apply rend_not; [apply le_n|exact Ha].
Qed.

(* The trees that tighter_or_same_operator_groups_left gives to `a op1 b op2 c`
   (op2 a comparison, op1 at least as tight) and not_binds_tightest to
   `!a op b` (op a comparison) have no evaluated AST, so parse_if of such a
   text is None: BinaryStrOperator.__init__ wants strings as operands.  These
   two statements are about the trees only. *)
Theorem chained_comparison_rejected : forall op1 op2 a b c,
  cmp_of op2 <> None -> to_ifexpr (ABin op2 (ABin op1 a b) c) = None.
Proof.
  intros op1 op2 a b c H. cbn [to_ifexpr]. destruct (cmp_of op2); [reflexivity|contradiction].
Qed.

Theorem comparison_of_negation_rejected : forall op a b,
  cmp_of op <> None -> to_ifexpr (ABin op (ANot a) b) = None.
Proof.
  intros op a b H. cbn [to_ifexpr]. destruct (cmp_of op); [reflexivity|contradiction].
Qed.

Definition lit_a := SLit [97] false.
Definition lit_b := SLit [98] false.
Definition lit_c := SLit [99] false.

(* 'a' || 'b' && 'c'   vs   ('a' || 'b') && 'c' : precedence matters *)
Example precedence_matters :
  parse_if [39;97;39; 32;124;124;32; 39;98;39; 32;38;38;32; 39;99;39]
    = Some (IOr (IStr lit_a) (IAnd (IStr lit_b) (IStr lit_c))) /\
  parse_if [40; 39;97;39; 32;124;124;32; 39;98;39; 41; 32;38;38;32; 39;99;39]
    = Some (IAnd (IOr (IStr lit_a) (IStr lit_b)) (IStr lit_c)) /\
  render_if (IAnd (IOr (IStr lit_a) (IStr lit_b)) (IStr lit_c))
    = [40; 39;97;39; 32;124;124;32; 39;98;39; 41; 32;38;38;32; 39;99;39].
Proof. vm_compute. auto. Qed.

(* with D for the double quote character:
   !(eq(Da\DbD, 'x y') <= D$XD && '') || if-then-else(D\\D, 'é', f()) != 'a\qb' || 'c'
   is well formed and comes back from its text *)
Definition ex_if : ifexpr :=
  IOr (IOr (INot (IAnd (ICmp OLe (SFn [101;113] [SLit [97;34;98] true; SLit [120;32;121] false]) (SLit [36;88] true))
                       (IStr (SLit [] false))))
           (ICmp ONe (SFn [105;102;45;116;104;101;110;45;101;108;115;101]
                          [SLit [92] true; SLit [233] false; SFn [102] []])
                     (SLit [97;92;113;98] false)))
      (IStr lit_c).

Example parse_if_render_nonvacuous :
  wf_if ex_if = true /\ parse_if (render_if ex_if) = Some ex_if /\
  parse_ast (render_full (of_ifexpr ex_if)) = Some (of_ifexpr ex_if) /\
  length (render_if ex_if) = 83%nat.
Proof. repeat apply conj; vm_compute; reflexivity. Qed.

(* white space of all four kinds, no blanks around operators, `<` is a prefix of `<=`, `!` of `!=`:
   <TAB>!f ( 'a'<LF>,Db\DD )<='c'&&'d'!='e'<CR>     (D = double quote)
   is rejected (`!` binds tighter than `<=`), with parentheses after the `!` it is accepted *)
Example text_with_whitespace :
  parse_if [9; 33;102;32;40;32;39;97;39;10;44;34;98;92;34;34;32;41;60;61;39;99;39;38;38;39;100;39;33;61;39;101;39;13]
  = None /\
  parse_if [9; 33;40;102;32;40;32;39;97;39;10;44;34;98;92;34;34;32;41;60;61;39;99;39;41;38;38;39;100;39;33;61;39;101;39;13]
  = Some (IAnd (INot (ICmp OLe (SFn [102] [SLit [97] false; SLit [98;34] true]) lit_c))
               (ICmp ONe (SLit [100] false) (SLit [101] false))).
Proof. vm_compute. auto. Qed.

(* 'a' < 'b' < 'c',  !'a' == 'b',  'a' &&,  ('a',  'a' 'b',  f('a',)  are errors;  ('a') == (DbD) is accepted *)
Example rejected_texts :
  parse_if [39;97;39;32;60;32;39;98;39;32;60;32;39;99;39] = None /\
  parse_if [33;39;97;39;32;61;61;32;39;98;39] = None /\
  parse_if [39;97;39;32;38;38] = None /\
  parse_if [40;39;97;39] = None /\
  parse_if [39;97;39;32;39;98;39] = None /\
  parse_if [102;40;39;97;39;44;41] = None /\
  parse_if [40;39;97;39;41;32;61;61;32;40;34;98;34;41] = Some (ICmp OEq lit_a (SLit [98] true)).
Proof. vm_compute. auto 10. Qed.

(* single quotes keep backslash sequences as written:  'C:\temp\x42\0\73\'  ;
   the same sequences between double quotes are converted by the installed
   pyparsing (tab, B, NUL, 73; D = double quote):  DC:\temp\x42\0\73D ;
   a line feed or carriage return inside single quotes is an error *)
Example single_quoted_literal_verbatim_nonvacuous :
  parse_if [39; 67;58;92;116;101;109;112; 92;120;52;50; 92;48; 92;55;51; 92; 39]
    = Some (IStr (SLit [67;58;92;116;101;109;112; 92;120;52;50; 92;48; 92;55;51; 92] false)) /\
  parse_if [34; 67;58;92;116;101;109;112; 92;120;52;50; 92;48; 92;55;51; 34]
    = Some (IStr (SLit [67;58;9;101;109;112; 66; 0; 55;51] true)) /\
  parse_if [39;97;10;98;39] = None /\ parse_if [39;97;13;98;39] = None.
Proof. vm_compute. auto. Qed.

Print Assumptions parse_if_total.
Print Assumptions parse_ast_of_text.
Print Assumptions parse_if_of_text.
Print Assumptions parse_if_render.
Print Assumptions single_quoted_literal_verbatim.
Print Assumptions parse_ast_render.
Print Assumptions parse_ast_render_full.
Print Assumptions render_is_text.
Print Assumptions tighter_operator_groups_right.
Print Assumptions tighter_or_same_operator_groups_left.
Print Assumptions and_binds_tighter_than_or.
Print Assumptions comparison_binds_tighter_than_and.
Print Assumptions not_binds_tightest.
Print Assumptions binary_operators_left_associative.
Print Assumptions not_nests.
Print Assumptions chained_comparison_rejected.
Print Assumptions comparison_of_negation_rejected.
Print Assumptions precedence_matters.
Print Assumptions parse_if_render_nonvacuous.
