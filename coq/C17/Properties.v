(* C17 — property theorems of the substitution parser, with non-vacuity
   examples: quoting (single quotes, backslash) on the transliteration Model.v;
   conditions in infix and in call form; the documented language as a whole on
   the character-level machine Machine.v; the two models are one function, so
   what is proved of one holds of the other. *)
From Coq Require Import List NArith Bool.
Require BobV.Common.ListFacts.
Require Import BobV.Gen.Consts BobV.C17.Model BobV.C17.Proofs BobV.C17.Machine BobV.C17.Spec BobV.C17.MachineProofs BobV.C17.Equiv.
Import ListNotations.
Open Scope N_scope.

(* Text between single quotes comes back unchanged, whatever it contains. *)
Theorem single_quote_protect : forall c s,
  ~ In ch_sq s -> parse c (ch_sq :: s ++ [ch_sq]) = Ok s.
Proof.
  intros c s H.
  destruct (parse_special c ch_sq (ch_sq :: s ++ [ch_sq])) as [f ->]; [simpl; auto..|].
  rewrite getString_sq by (trivial; now apply mem_false_not_In). reflexivity.
Qed.

(* A backslash preserves the literal meaning of the following character, in
   every context (top level, inside double quotes, variable names, defaults,
   function arguments): with any set of additional delimiters active, escaped
   text is glued, verbatim, in front of the text token that follows it ... *)
Theorem escaped_text_is_literal_in_any_context : forall extra x s rest,
  mem ch_bs (TOKEN_DELIMS ++ extra) = false ->
  nextToken extra (esc (x :: s) ++ rest) =
  match scan (TOKEN_DELIMS ++ extra) rest [] with
  | Some (t, r) => Ok (TText ((x :: s) ++ t), r)
  | None => PErr
  end.
Proof.
  intros extra x s rest Hd. unfold nextToken.
  change (esc (x :: s) ++ rest) with (ch_bs :: x :: esc s ++ rest) at 1.
  cbv beta iota. rewrite Hd, scan_esc by exact Hd.
  now destruct (scan (TOKEN_DELIMS ++ extra) rest []) as [[t r]|].
Qed.

(* ... and when an active delimiter follows, parsing continues at that
   delimiter with the escaped text appended to the value built so far. *)
Theorem backslash_protect_in_context : forall f c extra top keep subst x s d rest acc,
  mem ch_bs (TOKEN_DELIMS ++ extra) = false ->
  mem d (TOKEN_DELIMS ++ extra) = true ->
  getString (S f) c extra top keep subst (esc (x :: s) ++ d :: rest) acc =
  getString f c extra top keep subst (d :: rest) (acc ++ x :: s).
Proof.
  intros f c extra top keep subst x s d rest acc Hb Hd.
  rewrite getString_S, escaped_text_is_literal_in_any_context by exact Hb.
  cbn [scan]. rewrite Hd. now rewrite app_nil_r.
Qed.

(* ... so any string with every character escaped comes back unchanged. *)
Theorem backslash_protect : forall c s, parse c (esc s) = Ok s.
Proof.
  intros c [|x s]; [reflexivity|].
  destruct (parse_special c ch_bs (esc (x :: s))) as [f ->]; [simpl; auto..|].
  rewrite <- (app_nil_r (esc (x :: s))).
  rewrite getString_S, escaped_text_is_literal_in_any_context by reflexivity.
  cbn. now rewrite app_nil_r.
Qed.

(* An infix condition (&& || ! == !=) has the truth value of the equivalent
   function-call form, including which errors are raised. *)
Theorem if_infix_equiv : forall c e fc,
  to_call e = Some fc -> truth (eval_s c fc) = eval_if c e.
Proof.
  intros c. induction e as [s|x IH|l IHl r IHr|l IHl r IHr|op l r]; intros fc H; cbn [to_call] in H.
  - now injection H as <-.
  - destruct (to_call x) as [a|]; [injection H as <-|discriminate].
    rewrite (truth_fn1 c n_not a isFalse) by reflexivity.
    cbn [eval_if]. rewrite <- (IH a eq_refl). unfold truth, isTrue.
    destruct (eval_s c a); cbn [bind]; trivial. now rewrite negb_involutive.
  - destruct (to_call l) as [a|], (to_call r) as [b|]; try discriminate. injection H as <-.
    rewrite (truth_fn2 c n_and a b _ (call_and c)).
    cbn [eval_if]. rewrite <- (IHl a eq_refl), <- (IHr b eq_refl).
    destruct (eval_s c a); trivial. now destruct (eval_s c b).
  - destruct (to_call l) as [a|], (to_call r) as [b|]; try discriminate. injection H as <-.
    rewrite (truth_fn2 c n_or a b _ (call_or c)).
    cbn [eval_if]. rewrite <- (IHl a eq_refl), <- (IHr b eq_refl).
    destruct (eval_s c a); trivial. now destruct (eval_s c b).
  - destruct op; try discriminate; injection H as <-; now apply truth_fn2.
Qed.

(* < is a strict total order on strings (code-point lexicographic), so
   <, <=, >, >= of cmp_eval are the comparisons of one order. *)
Theorem str_lt_strict_total :
  (forall a, str_ltb a a = false) /\
  (forall a b d, str_ltb a b = true -> str_ltb b d = true -> str_ltb a d = true) /\
  (forall a b, str_ltb a b = true \/ a = b \/ str_ltb b a = true).
Proof. exact (conj ListFacts.ltb_irrefl (conj ListFacts.ltb_trans ListFacts.ltb_total)). Qed.

Definition cx0 : ctx :=
  {| c_env := [([88], [118; 97; 108])]; c_nounset := true; c_sandbox := false; c_tools := [] |}.

(* Every expression tree of the documented grammar (literals with escapes,
   single and double quotes nested through variables and calls, bare and braced
   variables with default/alternate with and without colon, function calls),
   rendered to concrete syntax, yields exactly its documented value — including
   which error is raised, and including laziness: an untaken default/alternate
   is evaluated with substitution off. *)
Theorem parse_render : forall c e,
  wf_items e = true -> parseM c (r_items e) = e_items c true e.
Proof.
  intros c e W. unfold parseM. rewrite <- (app_nil_r (r_items e)).
  rewrite (proj1 (proj2 (machine_computes_documented_value c))) by (trivial; discriminate).
  rewrite <- (bind_ok_r (e_items c true e)) at 2. now apply bind_ext.
Qed.

(* the same inside any context: any activation kind, any surrounding stack, any following text *)
Theorem parse_render_in_context : forall c e sb k acc below rest,
  wf_items e = true -> (k = KDq -> no_top_dq e = true) -> (ends_bare e = true -> nsafe rest = true) ->
  exec c (FS k sb acc :: below) (r_items e ++ rest) =
  bind (e_items c sb e) (fun v => exec c (FS k sb (acc ++ v) :: below) rest).
Proof. intros c. exact (proj1 (proj2 (machine_computes_documented_value c))). Qed.

(* lazy evaluation of untaken branches: with substitution off nothing fails,
   whatever unset variables or unknown functions the branch mentions *)
Theorem untaken_branch_never_fails : forall c e, exists v, e_items c false e = Ok v.
Proof. intros c. exact (proj1 (proj2 (untaken_never_fails c))). Qed.

(* for arbitrary raw input the machine yields a value, a parse error or an
   unmodelled-function marker: it is total (structural recursion), there is no
   internal failure mode *)
Theorem machine_total : forall c t, parseM c t <> Fuel.
Proof. intros c t. apply exec_no_fuel. Qed.

(* Model.parse transliterates stringparser.py (recursive descent over tokens,
   one fuel argument for the mutual recursion getString / getVariable /
   getCommand); Machine.parseM is the character-level pushdown machine the
   theorems above are about.  The two functions agree on every context and
   every raw text: values, parse errors and the unmodelled-function marker
   alike; in particular the fuel [fuel_for t] always suffices (every call chain
   of the recursive descent consumes text: C17/Equiv.v carries that bound
   through its induction). *)
Theorem parse_is_parseM : forall c t, parse c t = parseM c t.
Proof.
  intros c t. unfold parse. destruct (existsb _ SPECIAL_CHARS) eqn:Es.
  - apply parseM_special.
  - symmetry. now apply parseM_plain.
Qed.

Theorem fuel_enough : forall c t, parse c t <> Fuel.
Proof. intros c t. rewrite parse_is_parseM. apply machine_total. Qed.

(* hence the documented-language theorem holds of the transliteration itself *)
Theorem parse_render_recursive_descent : forall c e,
  wf_items e = true -> parse c (r_items e) = e_items c true e.
Proof. intros c e H. rewrite parse_is_parseM. now apply parse_render. Qed.

Definition ex_ast : items :=     (* "a\$"'q'${Y:-d$X}$(eq,${X},val)$X *)
  ICons (IDq (ICons (ILit [97; 36]) INil))
  (ICons (ISq [113])
  (ICons (IVar (ICons (ILit [89]) INil) (OBody true false (ICons (ILit [100]) (ICons (IBare [88]) INil))))
  (ICons (ICall (WCons (ICons (ILit [101; 113]) INil) (WCons (ICons (IVar (ICons (ILit [88]) INil) ONone) INil)
                (WOne (ICons (ILit [118; 97; 108]) INil)))))
  (ICons (IBare [88]) INil)))).

Example parse_render_nonvacuous :
  wf_items ex_ast = true /\
  parseM cx0 (r_items ex_ast) = Ok [97; 36; 113; 100; 118; 97; 108; 116; 114; 117; 101; 118; 97; 108] /\
  parse cx0 (r_items ex_ast) = parseM cx0 (r_items ex_ast).
Proof. repeat apply conj; [vm_compute; reflexivity..|apply parse_is_parseM]. Qed.

Example single_quote_nonvacuous :   (* '$X"\' -> $X"\ *)
  parse cx0 [39; 36; 88; 34; 92; 39] = Ok [36; 88; 34; 92].
Proof. vm_compute. reflexivity. Qed.

Example escaped_quote_before_variable :   (* \"$X\" -> "val"  (the input of finding F1: an escaped delimiter is text) *)
  parse cx0 [92; 34; 36; 88; 92; 34] = Ok [34; 118; 97; 108; 34].
Proof. vm_compute. reflexivity. Qed.

Example if_infix_nonvacuous :
  let e := IAnd (INot (IStr (SLit [48] false))) (ICmp OEq (SLit [36; 88] true) (SLit [118; 97; 108] false)) in
  exists fc, to_call e = Some fc /\ eval_if cx0 e = Ok true.
Proof. eexists. split; [reflexivity| vm_compute; reflexivity]. Qed.
