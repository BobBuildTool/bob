(* C17 — the recursive-descent transliteration (Model.v) and the
   character-level machine (Machine.v) are the same function.  One relation,
   [ret n r K e]: a function of the model reads a text and yields [r]; the
   machine, run over the same text, yields [e].  Where [r] is a value and a
   rest, the rest is at most [n] long and [e] is how the machine goes on from
   there, [K value rest]; an error is the same error on both sides; [r] is
   never Fuel.  After getVariable, getCommand and [element], which the machine
   enters and leaves inside a step, it goes on in the activation around them
   ([resume]).  An activation of getString is an FS frame of the machine: it
   goes on with what [terminate] makes of the closing delimiter, in the frames
   below ([closeK]).  One induction on the fuel (G_all) shows this of every
   activation whose text the fuel covers: GS, GV, GC say it of the three
   functions at one fuel value, GE of [element]. *)
From Coq Require Import List NArith Bool Lia.
Require Import BobV.Gen.Consts BobV.C17.Model BobV.C17.Proofs BobV.C17.Machine BobV.C17.Spec BobV.C17.MachineProofs.
Import ListNotations.
Open Scope N_scope.

Definition is_top (k : skind) : bool := match k with KTop => true | _ => false end.
Definition keep_of (k : skind) : bool := match k with KVarName | KArg => true | _ => false end.

Section Equiv.
  Variable c : ctx.

  (* the side condition of the backslash theorems (Properties.v) holds in every activation *)
  Lemma bs_step k : mem ch_bs (TOKEN_DELIMS ++ extra_of k) = false.
  Proof. destruct k; reflexivity. Qed.

  Lemma bind_not_fuel {A B} (r : res A) (g : A -> res B) :
    bind r g <> Fuel -> r <> Fuel.
  Proof. destruct r; cbn; congruence. Qed.

  Lemma exec_scan k sb B t acc :
    exec c (FS k sb acc :: B) t =
    match scan (TOKEN_DELIMS ++ extra_of k) t [] with
    | Some (s, r) => exec c (FS k sb (acc ++ s) :: B) r
    | None => PErr
    end.
  Proof.
    enough (E : forall a acc, exec c (FS k sb (acc ++ rev a) :: B) t =
                match scan (TOKEN_DELIMS ++ extra_of k) t a with
                | Some (s, r) => exec c (FS k sb (acc ++ s) :: B) r
                | None => PErr
                end) by (specialize (E [] acc); now rewrite app_nil_r in E).
    induction t as [|x t IH IH2] using two_step_ind; intros a acc'; cbn [scan]; [reflexivity|].
    destruct (mem x (TOKEN_DELIMS ++ extra_of k)) eqn:Ed; [reflexivity|].
    destruct (N.eqb_spec x ch_bs) as [->|Eb].
    - destruct t as [|d t'].
      + now destruct k.
      + rewrite exec_bs, <- app_assoc. apply (IH2 d t' eq_refl (d :: a)).
    - rewrite exec_plain, <- app_assoc by (trivial; now apply N.eqb_neq). apply (IH (x :: a)).
  Qed.

  Lemma getSingleQuoted_none t : getSingleQuoted t = None -> forall a B, exec c (FSq a :: B) t = PErr.
  Proof.
    induction t as [|x t IH]; intros H a B; cbn [getSingleQuoted] in H; [reflexivity|].
    rewrite exec_cons. cbn [step].
    destruct (x =? ch_sq); [discriminate|].
    destruct (getSingleQuoted t) as [[s' r']|]; [discriminate|]. now apply IH.
  Qed.

  Lemma getRestOfName_spec t n r : getRestOfName t = (n, r) ->
    t = n ++ r /\ forallb (fun x => mem x NAME_CHARS) n = true /\ nsafe r = true.
  Proof.
    revert n r. induction t as [|x t IH]; intros n r H; cbn [getRestOfName] in H.
    - injection H as <- <-. auto.
    - destruct (mem x NAME_CHARS) eqn:E.
      + destruct (getRestOfName t) as [n' r'] eqn:G. injection H as <- <-.
        destruct (IH n' r' eq_refl) as (-> & Hn & Hr). cbn [app forallb]. rewrite E. auto.
      + injection H as <- <-. cbn [app forallb nsafe]. rewrite E. auto.
  Qed.

  Definition ret (n : nat) (r : res (str * str)) (K : str -> str -> res str) (e : res str) : Prop :=
    match r with
    | Ok (v, rest) => (length rest <= n)%nat /\ e = K v rest
    | PErr => e = PErr
    | Ext => e = Ext
    | Fuel => False
    end.

  Lemma ret_le n m r K e : (n <= m)%nat -> ret n r K e -> ret m r K e.
  Proof. destruct r as [[v rest]| | |]; cbn; intuition lia. Qed.

  Lemma ret_bind n m r K1 e (F : str * str -> res (str * str)) K :
    ret n r K1 e -> (forall v rest, (length rest <= n)%nat -> ret m (F (v, rest)) K (K1 v rest)) ->
    ret m (bind r F) K e.
  Proof. destruct r as [[v rest]| | |]; cbn [ret bind]; auto. intros [L ->] H. now apply H. Qed.

  Lemma ret_map n r (h : str -> str) K e :
    ret n r (fun v rest => K (h v) rest) e -> ret n (bind r (fun p => Ok (h (fst p), snd p))) K e.
  Proof. now destruct r as [[v rest]| | |]. Qed.

  Lemma ret_top n r e : ret n r (fun v _ => Ok v) e -> bind r (fun sr => Ok (fst sr)) = e.
  Proof. destruct r as [[v rest]| | |]; cbn; intuition congruence. Qed.

  Definition resume (k : skind) (sb : bool) (acc : str) (B : stack) (v rest : str) : res str :=
    exec c (FS k sb (acc ++ v) :: B) rest.

  (* How the machine goes on below an activation of kind [k] that has read [v]
     when getString hands back [rest].  At top level that is the end of the
     text.  With [keep] the delimiter heads [rest]; the kinds without it have a
     single delimiter, at which [terminate] does not look. *)
  Definition closeK (k : skind) (sb : bool) (B : stack) (v rest : str) : res str :=
    let close d r := bind (terminate c k sb v d B) (fun st => exec c st r) in
    match k with
    | KTop => exec c (FS KTop sb v :: B) []
    | KVarName | KArg => match rest with d :: r => close d r | [] => PErr end
    | KDq | KVarBody _ _ _ => close ch_dq rest
    end.

  (* The bounds are cut to the model's [fuel_for t = 2 * length t + 2]: getVariable
     and getCommand spend one unit before they call getString on the same text,
     so GV and GC ask one more than GS.  The factor two is [fuel_for]'s; the
     induction needs one unit per character. *)
  Definition GS (f : nat) : Prop := forall k sb t acc B, (2 * length t + 1 <= f)%nat ->
    ret (length t) (getString f c (extra_of k) (is_top k) (keep_of k) sb t acc)
        (closeK k sb B) (exec c (FS k sb acc :: B) t).

  Definition GV (f : nat) : Prop := forall sb t, (2 * length t + 2 <= f)%nat ->
    forall k sb' acc B,
      ret (length t) (getVariable f c sb t) (resume k sb' acc B)
          (exec c (FS KVarName sb [] :: FS k sb' acc :: B) t).

  Definition GC (f : nat) : Prop := forall sb t words, (2 * length t + 2 <= f)%nat ->
    forall k sb' acc B,
      ret (length t) (getCommand f c sb t words) (resume k sb' acc B)
          (exec c (FS KArg sb [] :: FCmd words sb :: FS k sb' acc :: B) t).

  Definition GE (f : nat) : Prop := forall k sb d r,
    mem d (TOKEN_DELIMS ++ extra_of k) = true -> mem d (extra_of k) = false ->
    (2 * length r + 2 <= f)%nat -> forall acc B,
      ret (length r) (element f c sb d r) (resume k sb acc B) (exec c (FS k sb acc :: B) (d :: r)).

  (* A second way to state GS's conclusion for one result of getString, with the
     closing delimiter named instead of read off the rest.  The induction below
     goes by [ret] and [closeK]; nothing uses [Concl] and [Concl_err]. *)
  Definition Concl (k : skind) (sb : bool) (t acc : str) (r : res (str * str)) : Prop :=
    match r with
    | Ok (v, rest) =>
      if is_top k then rest = [] /\ (k = KTop -> exec c [FS KTop sb acc] t = Ok v)
      else exists d rest', mem d (extra_of k) = true /\ rest = (if keep_of k then d :: rest' else rest') /\
           forall below, exec c (FS k sb acc :: below) t =
                         bind (terminate c k sb v d below) (fun st => exec c st rest')
    | PErr => forall below, exec c (FS k sb acc :: below) t = PErr
    | Ext => forall below, exec c (FS k sb acc :: below) t = Ext
    | Fuel => True
    end.

  Lemma Concl_err k sb t acc (e : res (str * str)) :
    (e = PErr \/ e = Ext) -> (forall below, exec c (FS k sb acc :: below) t = match e with PErr => PErr | _ => Ext end) ->
    Concl k sb t acc e.
  Proof. intros [->| ->] H; exact H. Qed.

  Lemma GE_of f : GS f -> GV f -> GC f -> GE f.
  Proof.
    intros HS HV HC k sb d t Ed Ex Hf acc B. unfold element.
    destruct (N.eqb_spec d ch_dq) as [->|Q1].
    { rewrite exec_dq by exact Ex. apply (HS KDq). lia. }
    destruct (N.eqb_spec d ch_sq) as [->|Q2].
    { rewrite exec_sq. destruct (getSingleQuoted t) as [[s r1]|] eqn:G; cbn.
      - apply getSingleQuoted_spec in G as [-> Hm]. rewrite app_length. cbn [length].
        split; [lia|]. now apply exec_quoted.
      - now apply getSingleQuoted_none. }
    assert (d = ch_dollar) as ->.
    { change ((d =? ch_dq) || ((d =? ch_sq) || ((d =? ch_dollar) || mem d (extra_of k))) = true) in Ed.
      rewrite Ex, orb_false_r, (proj2 (N.eqb_neq _ _) Q1), (proj2 (N.eqb_neq _ _) Q2) in Ed. now apply N.eqb_eq. }
    rewrite exec_dollar. destruct t as [|k0 r1]; [reflexivity|]. cbn [length] in Hf.
    rewrite exec_cons. cbn [step].
    destruct (k0 =? ch_lbrace). { apply (ret_le (length r1)), HV; cbn [length]; auto; lia. }
    destruct (k0 =? ch_lparen). { apply (ret_le (length r1)), HC; cbn [length]; auto; lia. }
    destruct (mem k0 NAME_START); [|reflexivity]. cbn [bind].
    destruct (getRestOfName r1) as [n r2] eqn:G. apply getRestOfName_spec in G as (-> & Hn & Hs).
    rewrite (exec_bare c n r2 k sb acc B [k0]) by assumption. cbn [app].
    unfold var_value. destruct (lookup (c_env c) (k0 :: n)); [|destruct (sb && c_nounset c); [reflexivity|]];
      (split; [cbn [length]; rewrite app_length; lia|reflexivity]).
  Qed.

  Lemma GS_step f : GS f -> GE f -> GS (S f).
  Proof.
    intros HS HE k sb t acc B Hf. rewrite getString_S. unfold nextToken. destruct t as [|x t].
    { cbn [bind]. destruct k; [now split|destruct B; reflexivity..]. }
    cbn [length] in Hf.
    destruct (mem x (TOKEN_DELIMS ++ extra_of k)) eqn:Ed; cbn [bind].
    - destruct (mem x (extra_of k)) eqn:Ex.
      + rewrite exec_close by exact Ex. destruct k; [discriminate Ex|split; [cbn [keep_of length]; auto|reflexivity]..].
      + apply (ret_bind _ _ _ _ _ _ _ (HE k sb x t Ed Ex ltac:(lia) acc B)).
        intros v rest L. cbn [fst snd]. apply (ret_le (length rest)), HS; [cbn [length]; auto|lia].
    - rewrite exec_scan.
      destruct (scan (TOKEN_DELIMS ++ extra_of k) (x :: t) []) as [[s r]|] eqn:G; cbn [bind]; [|reflexivity].
      pose proof (scan_shorter _ _ _ _ _ _ Ed G) as L.
      apply (ret_le (length r)), HS; [cbn [length]; auto|lia].
  Qed.

  (* getVariable from the operator character on *)
  Definition var_op (f : nat) (name : str) (sb unset : bool) (o : N) (r' : str) : res (str * str) :=
    if o =? ch_minus then
      bind (getString f c VARBODY_DELIMS false false (sb && unset) r' []) (fun dr =>
        Ok (if unset then fst dr else env_get (c_env c) name, snd dr))
    else if o =? ch_plus then
      bind (getString f c VARBODY_DELIMS false false (sb && negb unset) r' []) (fun ar =>
        Ok (if unset then [] else fst ar, snd ar))
    else if o =? ch_rbrace then
      match lookup (c_env c) name with
      | Some v => Ok (v, r')
      | None => if sb && c_nounset c then PErr else Ok ([], r')
      end
    else PErr.

  Lemma var_tail f : GS f -> forall name sb unset o r' k sb' acc B, (2 * length r' + 1 <= f)%nat ->
    ret (length r') (var_op f name sb unset o r') (resume k sb' acc B)
        (bind (dispatch_op c name sb unset o (FS k sb' acc :: B)) (fun st => exec c st r')).
  Proof.
    intros HS name sb unset o r' k sb' acc B Hf. unfold var_op, dispatch_op.
    destruct (o =? ch_minus).
    { apply (ret_map _ _ (fun v => if unset then v else env_get (c_env c) name)).
      apply (HS (KVarBody name unset false)), Hf. }
    destruct (o =? ch_plus).
    { apply (ret_map _ _ (fun v => if unset then [] else v)).
      apply (HS (KVarBody name unset true)), Hf. }
    destruct (o =? ch_rbrace); [|reflexivity].
    unfold var_value. destruct (lookup (c_env c) name) as [v|]; [now split|].
    destruct (sb && c_nounset c); [reflexivity|now split].
  Qed.

  Lemma GV_step f : GS f -> GV (S f).
  Proof.
    intros HS sb t Hf k sb' acc B. cbn [getVariable].
    apply (ret_bind _ _ _ _ _ _ _ (HS KVarName sb t [] _ ltac:(lia))).
    intros name [|d rest'] L; cbn [fst snd length terminate closeK] in *; [reflexivity|].
    destruct (d =? ch_colon).
    - cbn [bind]. destruct rest' as [|o2 r2]; [reflexivity|]. cbn [length] in L.
      rewrite exec_cons. cbn [step].
      rewrite if_negb.
      apply (ret_le (length r2)), var_tail; trivial; lia.
    - apply (ret_le (length rest')), var_tail; trivial; lia.
  Qed.

  Lemma GC_step f : GS f -> GC f -> GC (S f).
  Proof.
    intros HS HC sb t words Hf k sb' acc B. cbn [getCommand].
    apply (ret_bind _ _ _ _ _ _ _ (HS KArg sb t [] _ ltac:(lia))).
    intros w [|d rest'] L; cbn [fst snd length terminate closeK] in *; [reflexivity|].
    destruct (d =? ch_rparen).
    - destruct sb; [|cbn; split; [lia|reflexivity]].
      destruct (words ++ [w]) as [|cmd args]; [reflexivity|].
      destruct (call_fun c cmd args) as [v| | |] eqn:Cf; cbn; auto; [split; [lia|reflexivity]|].
      now apply (call_fun_no_fuel c cmd args).
    - apply (ret_le (length rest')), HC; lia.
  Qed.

  Lemma G_all f : GS f /\ GV f /\ GC f.
  Proof.
    induction f as [|f (HS & HV & HC)].
    - repeat split; red; intros; lia.
    - split; [|split]; [apply GS_step, GE_of| apply GV_step | apply GC_step]; assumption.
  Qed.

  Lemma parseM_special t :
    bind (getString (fuel_for t) c [] true false true t []) (fun sr => Ok (fst sr)) = parseM c t.
  Proof. apply (ret_top (length t)), (proj1 (G_all (fuel_for t)) KTop). unfold fuel_for. lia. Qed.

  Lemma exec_plain_text t : (forall x, In x t -> mem x SPECIAL_CHARS = false) ->
    forall acc, exec c [FS KTop true acc] t = Ok (acc ++ t).
  Proof.
    induction t as [|x t IH]; intros H acc.
    - now rewrite app_nil_r.
    - destruct (proj1 (orb_false_iff _ _) (H x (or_introl eq_refl))) as [Eb Ed].
      rewrite exec_plain, IH, <- app_assoc by (trivial; intros y Hy; apply H; now right).
      reflexivity.
  Qed.

  Lemma parseM_plain t : existsb (fun x => mem x t) SPECIAL_CHARS = false -> parseM c t = Ok t.
  Proof.
    intros Es. apply (exec_plain_text t). intros x Hx.
    destruct (mem x SPECIAL_CHARS) eqn:E; [|reflexivity].
    rewrite <- Es. symmetry. apply existsb_exists. exists x. split; now apply mem_In.
  Qed.
End Equiv.
