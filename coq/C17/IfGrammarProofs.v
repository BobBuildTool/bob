(* C17 — proofs about the concrete syntax model of if-expressions (IfGrammar.v).
   Fuel: every parser returns a rest at most as long as its input and lacks fuel
   only on inputs at least as long as the bound that goes with its fuel (fits),
   so the entry points never do.
   Round trip: the tower is read as numbered levels (tower rec k).  After a text of
   level i the parser of a level m >= i stands in the loop of level m with the
   tree as left operand (loopat), provided no operator of a lower level
   follows (stop); where none of level m follows either, that loop ends.  This
   is proved by induction on the texts of a tree (rend_parse_lv), and the
   renderers produce such texts. *)
From Coq Require Import List NArith Bool Lia PeanoNat.
Require Import BobV.Gen.Consts BobV.C17.Model BobV.C17.IfGrammar.
Import ListNotations.
Open Scope nat_scope.

Lemma all_ws_nil : all_ws [].
Proof. reflexivity. Qed.

Lemma all_ws_cons : forall c w, all_ws (c :: w) -> is_ws c = true /\ all_ws w.
Proof. intros c w H. apply andb_prop in H. exact H. Qed.

Lemma skip_ws_app_ws : forall w s, all_ws w -> skip_ws (w ++ s) = skip_ws s.
Proof.
  induction w as [|c w IH]; simpl; intros s H; [reflexivity|].
  apply all_ws_cons in H as [H1 H2]. rewrite H1. apply IH. exact H2.
Qed.

Lemma skip_ws_all : forall w, all_ws w -> skip_ws w = [].
Proof.
  intros w H. rewrite <- (app_nil_r w). rewrite skip_ws_app_ws by exact H. reflexivity.
Qed.

Lemma skip_ws_nonws : forall c s, is_ws c = false -> skip_ws (c :: s) = c :: s.
Proof. intros c s H. simpl. rewrite H. reflexivity. Qed.

Lemma skip_ws_len : forall s, length (skip_ws s) <= length s.
Proof. induction s as [|a s IH]; simpl; [apply le_n|]. destruct (is_ws a); [apply le_S, IH|apply le_n]. Qed.

Lemma skip_ws_idem : forall s, skip_ws (skip_ws s) = skip_ws s.
Proof.
  induction s as [|a s IH]; simpl; [reflexivity|].
  destruct (is_ws a) eqn:E; [exact IH|]. simpl. rewrite E. reflexivity.
Qed.

Lemma length_app_le : forall (a b : str) n, length (a ++ b) <= n -> length a <= n /\ length b <= n.
Proof. intros a b n H. rewrite app_length in H. lia. Qed.

Lemma lit_len : forall t s r, lit t s = Some r -> length s = length t + length r.
Proof.
  induction t as [|c t IH]; simpl; intros s r H.
  - inversion H. reflexivity.
  - destruct s as [|d s]; [discriminate|]. destruct (c =? d)%N; [|discriminate].
    apply IH in H. simpl. rewrite H. reflexivity.
Qed.

Lemma lit_app : forall t s, lit t (t ++ s) = Some s.
Proof. induction t as [|c t IH]; simpl; intros s; [reflexivity|]. rewrite N.eqb_refl. apply IH. Qed.

Lemma eat_len : forall c s r, eat c s = Some r -> length r < length s.
Proof.
  unfold eat. intros c s r H. pose proof (skip_ws_len s) as L.
  destruct (skip_ws s) as [|d r0]; [discriminate|]. destruct (d =? c)%N; [|discriminate].
  injection H as <-. exact L.
Qed.

Lemma eat_ws : forall c w s, all_ws w -> eat c (w ++ s) = eat c s.
Proof. intros c w s H. unfold eat. rewrite skip_ws_app_ws by exact H. reflexivity. Qed.

Lemma eat_hit : forall c s, is_ws c = false -> eat c (c :: s) = Some s.
Proof. intros c s H. unfold eat. rewrite skip_ws_nonws by exact H. rewrite N.eqb_refl. reflexivity. Qed.

Lemma eat_miss : forall c d s, is_ws d = false -> (d =? c)%N = false -> eat c (d :: s) = None.
Proof. intros c d s H1 H2. unfold eat. rewrite skip_ws_nonws by exact H1. rewrite H2. reflexivity. Qed.

Lemma op_len : forall op s r, lit (op_text op) (skip_ws s) = Some r -> length r < length s.
Proof.
  intros op s r H. apply lit_len in H. pose proof (skip_ws_len s).
  assert (1 <= length (op_text op)) by (destruct op; repeat constructor). lia.
Qed.

Lemma skip_ws_op : forall op x, skip_ws (op_text op ++ x) = op_text op ++ x.
Proof. destruct op; reflexivity. Qed.

Lemma scan_sq_lt : forall s b r, scan_sq s = Some (b, r) -> length r < length s.
Proof.
  induction s as [|a s IH]; intros b r H; [discriminate|]. cbn [scan_sq] in H.
  destruct (a =? 39)%N; [injection H as _ <-; apply Nat.lt_succ_diag_r|].
  destruct ((a =? 10)%N || (a =? 13)%N); [discriminate|].
  destruct (scan_sq s) as [[b' r']|]; [|discriminate].
  injection H as _ <-. apply Nat.lt_lt_succ_r, (IH b'). reflexivity.
Qed.

(* scan_dq recurses one or two characters further *)
Lemma scan_dq_lt : forall s b r, scan_dq s = Some (b, r) -> length r < length s.
Proof.
  fix IH 1. intros [|a s] b r H; [discriminate|]. cbn [scan_dq] in H.
  destruct (a =? 34)%N; [injection H as _ <-; apply Nat.lt_succ_diag_r|].
  destruct (a =? 92)%N.
  - destruct s as [|d s2]; [discriminate|]. destruct (d =? 10)%N; [discriminate|].
    destruct (scan_dq s2) as [[b' r']|] eqn:E; [|discriminate].
    injection H as _ <-. apply Nat.lt_lt_succ_r, Nat.lt_lt_succ_r, (IH _ _ _ E).
  - destruct ((a =? 10)%N || (a =? 13)%N); [discriminate|].
    destruct (scan_dq s) as [[b' r']|] eqn:E; [|discriminate].
    injection H as _ <-. apply Nat.lt_lt_succ_r, (IH _ _ _ E).
Qed.

Lemma span_name_le : forall s a b, span_name s = (a, b) -> length b <= length s.
Proof.
  induction s as [|c s IH]; cbn [span_name]; intros a b H; [injection H as _ <-; apply le_n|].
  destruct (is_namech c); [|injection H as _ <-; apply le_n].
  destruct (span_name s) as [a' b']. injection H as _ <-. apply le_S, (IH a'). reflexivity.
Qed.

Definition fit {A : Type} (L : nat) (s : str) (x : pres A) : Prop :=
  match x with
  | POk _ r => length r <= length s
  | PFail => True
  | PFuel => L <= length s
  end.

Definition fits {A : Type} (L : nat) (p : str -> pres A) : Prop := forall s, fit L s (p s).

Lemma fit_mono : forall {A : Type} {L s s'} {x : pres A}, fit L s x -> length s <= length s' -> fit L s' x.
Proof. intros A L s s' x. destruct x; cbn [fit]; eauto using Nat.le_trans. Qed.

Lemma fits_ok : forall {A : Type} {L} {p : str -> pres A} {s a r}, fits L p -> p s = POk a r -> length r <= length s.
Proof. intros A L p s a r F E. specialize (F s). rewrite E in F. exact F. Qed.

Lemma p_close_fits : forall name args L, fits L (p_close name args).
Proof.
  intros name args L s. unfold p_close.
  destruct (eat 41 s) as [r|] eqn:E; [apply eat_len, Nat.lt_le_incl in E; exact E|exact I].
Qed.

Lemma p_more_fits : forall arg L, fits L arg ->
  forall k acc s, length s < k -> fit L s (p_more arg k acc s).
Proof.
  intros arg L F. induction k as [|k IH]; intros acc s K; [inversion K|]. cbn [p_more].
  destruct (eat 44 s) as [r0|] eqn:E; [apply eat_len in E|apply le_n].
  specialize (F r0). destruct (arg r0) as [a r1| |]; cbn [fit] in *; [|apply le_n|lia].
  assert (K1 : length r1 < k) by lia. apply (fit_mono (IH (acc ++ [a]) r1 K1)); lia.
Qed.

Lemma p_call_fits : forall arg L, fits L arg -> fits (S L) (p_call arg).
Proof.
  intros arg L F s. unfold p_call, p_args.
  destruct (span_name s) as [name r1] eqn:ES. apply span_name_le in ES.
  destruct (eat 40 r1) as [r2|] eqn:E; [apply eat_len in E|exact I].
  pose proof (F r2) as F2. destruct (arg r2) as [a r3| |]; cbn [fit] in F2.
  - pose proof (p_more_fits arg L F (S (length r3)) [a] r3 (le_n _)) as FM.
    destruct (p_more arg (S (length r3)) [a] r3) as [args r4| |]; cbn [fit] in *; [|exact I|lia].
    apply (fit_mono (p_close_fits name args (S L) r4)); lia.
  - apply (fit_mono (p_close_fits name [] (S L) r2)); lia.
  - cbn [fit]. lia.
Qed.

Lemma p_sx_body_fits : forall arg L, fits L arg -> fits (S L) (p_sx_body arg).
Proof.
  intros arg L F s. unfold p_sx_body. pose proof (skip_ws_len s) as LS.
  destruct (skip_ws s) as [|c r0]; [exact I|]. simpl in LS.
  destruct (c =? 39)%N.
  { destruct (scan_sq r0) as [[b r']|] eqn:E; [apply scan_sq_lt in E; cbn [fit]; lia|exact I]. }
  destruct (c =? 34)%N.
  { destruct (scan_dq r0) as [[b r']|] eqn:E; [apply scan_dq_lt in E; cbn [fit]; lia|exact I]. }
  destruct (is_alpha c); [|exact I].
  apply (fit_mono (p_call_fits arg L F (c :: r0))); exact LS.
Qed.

Lemma p_sx_fits : forall n, fits n (p_sx n).
Proof.
  induction n as [|n IH]; cbn [p_sx].
  - intros s. apply Nat.le_0_l.
  - apply p_sx_body_fits. exact IH.
Qed.

(* parse_sx never runs out of fuel *)
Lemma parse_sx_fits : forall L, fits L parse_sx.
Proof.
  intros L s. unfold parse_sx. pose proof (p_sx_fits (S (length s)) s) as F.
  destruct (p_sx (S (length s)) s); [exact F|exact I|destruct (Nat.nle_succ_diag_l _ F)].
Qed.

Lemma p_atom_fits : forall rec L, fits L rec -> fits (S L) (p_atom rec).
Proof.
  intros rec L F s. unfold p_atom.
  destruct (eat 40 s) as [r0|] eqn:E.
  - apply eat_len in E. specialize (F r0). destruct (rec r0) as [e r1| |]; cbn [fit] in *; [|exact I|lia].
    destruct (eat 41 r1) as [r2|] eqn:E2; [apply eat_len in E2; cbn [fit]; lia|exact I].
  - pose proof (parse_sx_fits (S L) s) as FS. destruct (parse_sx s); exact FS.
Qed.

Lemma p_not_fits : forall atom L, fits L atom -> fits L (p_not atom).
Proof.
  intros atom L F s. induction s as [|c s IH]; cbn [p_not]; [apply F|].
  destruct (is_ws c); [apply (fit_mono IH), le_S, le_n|].
  destruct (c =? 33)%N; [|apply F].
  destruct (p_not atom s); cbn [fit] in *; simpl; auto.
Qed.

Lemma p_loop_fits : forall op last L, fits L last ->
  forall k acc s, length s < k -> fit L s (p_loop op last k acc s).
Proof.
  intros op last L F. induction k as [|k IH]; intros acc s K; [inversion K|]. cbn [p_loop].
  destruct (lit (op_text op) (skip_ws s)) as [r0|] eqn:E; [apply op_len in E|apply le_n].
  specialize (F r0). destruct (last r0) as [e r1| |]; cbn [fit] in *; [|apply le_n|lia].
  assert (K1 : length r1 < k) by lia. apply (fit_mono (IH (ABin op acc e) r1 K1)); lia.
Qed.

Lemma p_level_fits : forall op last L, fits L last -> fits L (p_level op last).
Proof.
  intros op last L F s. unfold p_level.
  pose proof (F s) as Fs. destruct (last s) as [e r| |]; [|exact I|exact Fs].
  apply (fit_mono (p_loop_fits op last L F (S (length r)) e r (le_n _))); exact Fs.
Qed.

Definition op_at (k : nat) : binop :=
  match k with
  | 2 => BLt | 3 => BLe | 4 => BGt | 5 => BGe | 6 => BEq | 7 => BNe | 8 => BAnd | _ => BOr
  end.

(* the tower up to level k (0 primary, 1 '!', 2..9 binary): p_tower rec is tower rec 9 *)
Fixpoint tower (rec : parser) (k : nat) : parser :=
  match k with
  | 0 => p_atom rec
  | S k' => match k' with
            | 0 => p_not (p_atom rec)
            | S _ => p_level (op_at k) (tower rec k')
            end
  end.

Lemma p_expr_S : forall n, p_expr (S n) = tower (p_expr n) 9.
Proof. intros n. cbv [tower op_at]. reflexivity. Qed.

Lemma tower_fits : forall rec L, fits L rec -> forall k, fits (S L) (tower rec k).
Proof.
  intros rec L F. induction k as [|k IH]; [apply p_atom_fits; exact F|].
  destruct k; [apply p_not_fits|apply p_level_fits]; exact IH.
Qed.

Lemma p_expr_fits : forall n, fits n (p_expr n).
Proof.
  induction n as [|n IH].
  - intros s. apply Nat.le_0_l.
  - rewrite p_expr_S. apply tower_fits. exact IH.
Qed.

Lemma p_expr_fuel : forall n s, length s < n -> p_expr n s <> PFuel.
Proof.
  intros n s L E. pose proof (p_expr_fits n s) as F. rewrite E in F. apply Nat.le_ngt in F. contradiction.
Qed.

Lemma scan_sq_body : forall b rest, sq_body b = true -> scan_sq (b ++ 39%N :: rest) = Some (b, rest).
Proof.
  induction b as [|a b IH]; intros rest H; [reflexivity|].
  apply andb_prop in H as [H1 H2].
  apply negb_true_iff, orb_false_iff in H1 as [H1 H3]. apply orb_false_iff in H1 as [H0 H1].
  cbn [app scan_sq]. rewrite H0, H1, H3, (IH rest H2). reflexivity.
Qed.

Lemma scan_dq_body : forall b rest, dq_body b = true -> scan_dq (b ++ 34%N :: rest) = Some (b, rest).
Proof.
  fix IH 1. intros [|a b] rest H; [reflexivity|]. cbn [dq_body] in H. cbn [app scan_dq].
  destruct (a =? 34)%N eqn:E34; [apply N.eqb_eq in E34 as ->; discriminate|].
  destruct (a =? 92)%N.
  - destruct b as [|d b2]; [discriminate|]. apply andb_prop in H as [H1 H2].
    apply negb_true_iff in H1. cbn [app]. rewrite H1, (IH b2 rest H2). reflexivity.
  - apply andb_prop in H as [H1 H2]. apply negb_true_iff in H1.
    cbn [orb] in H1. rewrite H1, (IH b rest H2). reflexivity.
Qed.

Lemma esc_dq_char_ok : forall c t,
  unq 0 (esc_dq_char c ++ t) = c :: unq 0 t /\ dq_body (esc_dq_char c ++ t) = dq_body t.
Proof.
  intros c t. unfold esc_dq_char.
  destruct (c =? 92)%N eqn:E92; [apply N.eqb_eq in E92 as ->; split; reflexivity|].
  destruct (c =? 34)%N eqn:E34; [apply N.eqb_eq in E34 as ->; split; reflexivity|].
  destruct (c =? 10)%N eqn:E10; [apply N.eqb_eq in E10 as ->; split; reflexivity|].
  destruct (c =? 13)%N eqn:E13; [apply N.eqb_eq in E13 as ->; split; reflexivity|].
  cbn [app unq dq_body]. rewrite E92, E34, E10, E13. split; reflexivity.
Qed.

Lemma unq_esc_dq : forall s, unq 0 (esc_dq s) = s.
Proof.
  induction s as [|c s IH]; [reflexivity|].
  cbn [esc_dq]. rewrite (proj1 (esc_dq_char_ok c _)), IH. reflexivity.
Qed.

Lemma dq_body_esc : forall s, dq_body (esc_dq s) = true.
Proof.
  induction s as [|c s IH]; [reflexivity|].
  cbn [esc_dq]. rewrite (proj2 (esc_dq_char_ok c _)). exact IH.
Qed.

(* letters lie above all the punctuation the grammar looks for *)
Lemma alpha_neq : forall c d, is_alpha c = true -> (d < 65)%N -> (c =? d)%N = false.
Proof.
  intros c d H D. apply N.eqb_neq. intros ->.
  apply orb_prop in H as [H|H]; apply andb_prop in H as [H _]; apply N.leb_le in H; lia.
Qed.

Lemma alpha_not_ws : forall c, is_alpha c = true -> is_ws c = false.
Proof. intros c H. unfold is_ws. rewrite !(alpha_neq c _ H) by reflexivity. reflexivity. Qed.

Lemma p_sx_body_ws : forall arg w s, all_ws w -> p_sx_body arg (w ++ s) = p_sx_body arg s.
Proof. intros arg w s H. unfold p_sx_body. rewrite skip_ws_app_ws by exact H. reflexivity. Qed.

Lemma p_sx_body_sq : forall arg b rest, sq_body b = true ->
  p_sx_body arg (39%N :: b ++ 39%N :: rest) = POk (SLit b false) rest.
Proof. intros arg b rest H. unfold p_sx_body. cbn. rewrite (scan_sq_body b rest H). reflexivity. Qed.

Lemma p_sx_body_dq : forall arg b rest, dq_body b = true ->
  p_sx_body arg (34%N :: b ++ 34%N :: rest) = POk (SLit (unq 0 b) true) rest.
Proof. intros arg b rest H. unfold p_sx_body. cbn. rewrite (scan_dq_body b rest H). reflexivity. Qed.

Lemma p_sx_body_alpha : forall arg c s, is_alpha c = true -> p_sx_body arg (c :: s) = p_call arg (c :: s).
Proof.
  intros arg c s H. unfold p_sx_body. rewrite skip_ws_nonws by (apply alpha_not_ws; exact H).
  rewrite !(alpha_neq c _ H) by reflexivity. rewrite H. reflexivity.
Qed.

Lemma p_sx_body_other : forall arg c s, is_ws c = false -> (c =? 39)%N = false -> (c =? 34)%N = false ->
  is_alpha c = false -> p_sx_body arg (c :: s) = PFail.
Proof.
  intros arg c s H1 H2 H3 H4. unfold p_sx_body. rewrite skip_ws_nonws by exact H1.
  rewrite H2, H3, H4. reflexivity.
Qed.

Lemma ws_not_namech : forall c, is_ws c = true -> is_namech c = false.
Proof.
  intros c H. repeat (apply orb_prop in H; destruct H as [H|H]); apply N.eqb_eq in H; subst c; reflexivity.
Qed.

Lemma span_name_app : forall name tail, forallb is_namech name = true -> span_name tail = ([], tail) ->
  span_name (name ++ tail) = (name, tail).
Proof.
  induction name as [|c name IH]; intros tail H T; [exact T|].
  apply andb_prop in H as [H1 H2].
  cbn [app span_name]. rewrite H1, (IH tail H2 T). reflexivity.
Qed.

Lemma span_name_ws_paren : forall w x, all_ws w -> span_name (w ++ 40%N :: x) = ([], w ++ 40%N :: x).
Proof.
  intros w x H. destruct w as [|d w]; [reflexivity|].
  apply all_ws_cons in H. cbn [app span_name]. rewrite (ws_not_namech d) by apply H. reflexivity.
Qed.

Lemma p_close_ok : forall name args w2 rest, all_ws w2 ->
  p_close name args (w2 ++ 41%N :: rest) = POk (SFn name args) rest.
Proof.
  intros name args w2 rest H. unfold p_close. rewrite eat_ws by exact H.
  rewrite eat_hit by reflexivity. reflexivity.
Qed.

Lemma p_call_text : forall arg c name w1 x, wf_name (c :: name) = true -> all_ws w1 ->
  p_call arg (c :: name ++ w1 ++ 40%N :: x) = p_args arg (c :: name) x.
Proof.
  intros arg c name w1 x Hn Hw1. apply andb_prop in Hn as [Hc Hr]. unfold p_call.
  change (c :: name ++ w1 ++ 40%N :: x) with ((c :: name) ++ w1 ++ 40%N :: x).
  rewrite span_name_app.
  - rewrite eat_ws by exact Hw1. rewrite eat_hit by reflexivity. reflexivity.
  - cbn [forallb]. rewrite Hr. unfold is_namech. rewrite Hc. reflexivity.
  - apply span_name_ws_paren. exact Hw1.
Qed.

Scheme rend_sx_mut := Minimality for rend_sx Sort Prop
  with rend_args_mut := Minimality for rend_args Sort Prop
  with rend_more_mut := Minimality for rend_more Sort Prop.
Combined Scheme rend_sx_args_more from rend_sx_mut, rend_args_mut, rend_more_mut.

Lemma rend_sx_parse_n :
  (forall e s, rend_sx e s ->
     forall n rest, length s <= S n -> p_sx (S n) (s ++ rest) = POk e rest) /\
  (forall es ss, rend_args es ss ->
     forall n name w2 rest, all_ws w2 -> length ss <= S n ->
       p_args (p_sx (S n)) name (ss ++ w2 ++ 41%N :: rest) = POk (SFn name es) rest) /\
  (forall es ss, rend_more es ss ->
     forall n k acc tail, length ss <= S n -> length (ss ++ tail) < k -> eat 44 tail = None ->
       p_more (p_sx (S n)) k acc (ss ++ tail) = POk (acc ++ es) tail).
Proof.
  apply rend_sx_args_more.
  - intros w b Hw Hb n rest _. cbn [p_sx]. repeat (rewrite <- app_assoc; cbn [app]).
    rewrite p_sx_body_ws by exact Hw. apply p_sx_body_sq, Hb.
  - intros w b Hw Hb n rest _. cbn [p_sx]. repeat (rewrite <- app_assoc; cbn [app]).
    rewrite p_sx_body_ws by exact Hw. apply p_sx_body_dq, Hb.
  - (* call: the arguments get one unit of fuel less *)
    intros w name w1 args sargs w2 Hw Hn Hw1 _ IHa Hw2 n rest L.
    destruct name as [|c name]; [discriminate|].
    repeat (rewrite app_length in L; simpl in L). destruct n as [|n]; [lia|].
    cbn [p_sx]. repeat (rewrite <- app_assoc; cbn [app]).
    rewrite p_sx_body_ws by exact Hw. rewrite p_sx_body_alpha by (apply andb_prop in Hn; apply Hn).
    rewrite p_call_text by assumption. apply IHa; [exact Hw2|lia].
  - intros n name w2 rest Hw2 _. unfold p_args. cbn [app p_sx].
    rewrite p_sx_body_ws, p_sx_body_other by (exact Hw2 || reflexivity).
    apply p_close_ok. exact Hw2.
  - intros e s es ss _ IHe Hm IHm n name w2 rest Hw2 L.
    apply length_app_le in L as [Ls Lss]. unfold p_args. rewrite <- app_assoc.
    rewrite (IHe n (ss ++ w2 ++ 41%N :: rest) Ls).
    rewrite (IHm n (S (length (ss ++ w2 ++ 41%N :: rest))) [e] (w2 ++ 41%N :: rest) Lss (le_n _)).
    + apply p_close_ok. exact Hw2.
    + rewrite eat_ws by exact Hw2. apply eat_miss; reflexivity.
  - intros n k acc tail _ K E. destruct k as [|k]; [inversion K|].
    cbn [app p_more]. rewrite E, app_nil_r. reflexivity.
  - intros w e s es ss Hw _ IHe _ IHm n k acc tail L K E.
    apply length_app_le in L as [_ L]. apply Nat.lt_le_incl, length_app_le in L as [Ls Lss].
    destruct k as [|k]; [inversion K|].
    assert (K' : length (ss ++ tail) < k) by (repeat (rewrite app_length in K; simpl in K); rewrite app_length; lia).
    cbn [p_more]. rewrite <- app_assoc, eat_ws by exact Hw. cbn [app].
    rewrite eat_hit by reflexivity. rewrite <- app_assoc.
    rewrite (IHe n (ss ++ tail) Ls), (IHm n k (acc ++ [e]) tail Lss K' E), <- app_assoc. reflexivity.
Qed.

Lemma rend_sx_parse : forall e s rest, rend_sx e s -> parse_sx (s ++ rest) = POk e rest.
Proof.
  intros e s rest H. apply (proj1 rend_sx_parse_n e s H). rewrite app_length. auto with arith.
Qed.

Definition andthen {A B : Type} (x : pres A) (f : A -> str -> pres B) : pres B :=
  match x with
  | POk a r => f a r
  | PFail => PFail
  | PFuel => PFuel
  end.

Definition loop (op : binop) (last : parser) (acc : ifast) (s : str) : pres ifast :=
  p_loop op last (S (length s)) acc s.

(* the loop the parser of level m stands in after its first operand; the levels 0 and 1 have none *)
Definition loopat (rec : parser) (m : nat) (a : ifast) (s : str) : pres ifast :=
  match m with
  | S (S m') => loop (op_at m) (tower rec (S m')) a s
  | _ => POk a s
  end.

Lemma tower_S : forall rec i x, 1 <= i -> tower rec (S i) x = andthen (tower rec i x) (loopat rec (S i)).
Proof. intros rec i x H. destruct i; [inversion H|reflexivity]. Qed.

Lemma p_loop_fuel_irrel : forall op last L, fits L last ->
  forall k1 k2 acc s, length s < k1 -> length s < k2 ->
  p_loop op last k1 acc s = p_loop op last k2 acc s.
Proof.
  intros op last L F. induction k1 as [|k1 IH]; intros k2 acc s L1 L2; [inversion L1|].
  destruct k2 as [|k2]; [inversion L2|]. cbn [p_loop].
  destruct (lit (op_text op) (skip_ws s)) as [r0|] eqn:E; [apply op_len in E|reflexivity].
  specialize (F r0). destruct (last r0) as [e r1| |]; [|reflexivity..].
  cbn [fit] in F. apply IH; lia.
Qed.

Lemma loop_step : forall op last L acc w y e r', fits L last -> all_ws w -> last y = POk e r' ->
  loop op last acc (w ++ op_text op ++ y) = loop op last (ABin op acc e) r'.
Proof.
  intros op last L acc w y e r' F Hw EL.
  assert (E : lit (op_text op) (skip_ws (w ++ op_text op ++ y)) = Some y)
    by (rewrite skip_ws_app_ws, skip_ws_op by exact Hw; apply lit_app).
  unfold loop at 1. cbn [p_loop]. rewrite E, EL.
  apply op_len in E. apply (fits_ok F) in EL.
  apply (p_loop_fuel_irrel op last L F); lia.
Qed.

(* the loop of operator op stops at rest: op does not follow, or it is `<` / `>`
   directly followed by `=` *)
Definition nostart (op : binop) (rest : str) : Prop :=
  match lit (op_text op) (skip_ws rest) with
  | None => True
  | Some r => exists r', r = 61%N :: r'
  end.

Lemma loop_nostart : forall op last acc rest,
  (forall r, last (61%N :: r) = PFail) -> nostart op rest -> loop op last acc rest = POk acc rest.
Proof.
  intros op last acc rest F H. unfold loop. cbn [p_loop]. unfold nostart in H.
  destruct (lit (op_text op) (skip_ws rest)) as [r|]; [|reflexivity].
  destruct H as [r' ->]. rewrite F. reflexivity.
Qed.

Lemma tower1_ws : forall rec w s, all_ws w -> tower rec 1 (w ++ s) = tower rec 1 s.
Proof.
  induction w as [|c w IH]; intros s H; [reflexivity|].
  apply all_ws_cons in H as [H1 H2]. cbn [app tower p_not]. rewrite H1. apply IH. exact H2.
Qed.

Lemma tower1_bang : forall rec s, tower rec 1 (33%N :: s) = andthen (tower rec 1 s) (fun e r => POk (ANot e) r).
Proof. reflexivity. Qed.

Lemma tower1_atom : forall rec c s, is_ws c = false -> (c =? 33)%N = false ->
  tower rec 1 (c :: s) = p_atom rec (c :: s).
Proof. intros rec c s H1 H2. cbn [tower p_not]. rewrite H1, H2. reflexivity. Qed.

Lemma tower_fails_at_eq : forall rec k r, tower rec k (61%N :: r) = PFail.
Proof.
  intros rec k r.
  assert (A : p_atom rec (61%N :: r) = PFail).
  { unfold p_atom. rewrite eat_miss by reflexivity. unfold parse_sx. cbn [p_sx].
    rewrite p_sx_body_other by reflexivity. reflexivity. }
  induction k as [|k IH]; [exact A|].
  destruct k as [|k].
  - rewrite tower1_atom by reflexivity. exact A.
  - rewrite tower_S, IH by lia. reflexivity.
Qed.

Lemma tower1_sx_head : forall rec e w c t rest, all_ws w -> rend_sx e (c :: t) ->
  is_ws c = false -> (c =? 33)%N = false -> (c =? 40)%N = false ->
  tower rec 1 ((w ++ c :: t) ++ rest) = POk (AStr e) rest.
Proof.
  intros rec e w c t rest Hw H H1 H2 H3.
  rewrite <- app_assoc, tower1_ws by exact Hw. cbn [app]. rewrite tower1_atom by assumption.
  unfold p_atom. rewrite eat_miss by assumption.
  rewrite (rend_sx_parse e (c :: t) rest H : parse_sx (c :: t ++ rest) = _). reflexivity.
Qed.

Lemma tower1_str : forall rec e s rest, rend_sx e s -> tower rec 1 (s ++ rest) = POk (AStr e) rest.
Proof.
  intros rec e s rest H. destruct H as [w b Hw Hb|w b Hw Hb|w name w1 args sargs w2 Hw Hn Hw1 Ha Hw2].
  - apply tower1_sx_head; try reflexivity; [exact Hw|exact (RSq [] b all_ws_nil Hb)].
  - apply tower1_sx_head; try reflexivity; [exact Hw|exact (RDq [] b all_ws_nil Hb)].
  - destruct name as [|c name]; [discriminate|].
    assert (Hc : is_alpha c = true) by (apply andb_prop in Hn; apply Hn).
    apply tower1_sx_head; [exact Hw| |apply alpha_not_ws; exact Hc|apply alpha_neq; [exact Hc|reflexivity]..].
    exact (RFn [] (c :: name) w1 args sargs w2 all_ws_nil Hn Hw1 Ha Hw2).
Qed.

Lemma tower1_not : forall rec w s x rest, all_ws w -> tower rec 1 (s ++ rest) = POk x rest ->
  tower rec 1 ((w ++ 33%N :: s) ++ rest) = POk (ANot x) rest.
Proof.
  intros rec w s x rest Hw H. rewrite <- app_assoc, tower1_ws by exact Hw.
  cbn [app]. rewrite tower1_bang, H. reflexivity.
Qed.

Lemma tower1_par : forall rec w s w2 a rest, all_ws w -> all_ws w2 ->
  rec (s ++ w2 ++ 41%N :: rest) = POk a (w2 ++ 41%N :: rest) ->
  tower rec 1 ((w ++ 40%N :: s ++ w2 ++ [41%N]) ++ rest) = POk a rest.
Proof.
  intros rec w s w2 a rest Hw Hw2 H. rewrite <- app_assoc, tower1_ws by exact Hw.
  cbn [app]. rewrite tower1_atom by reflexivity. unfold p_atom. rewrite eat_hit by reflexivity.
  repeat rewrite <- app_assoc. cbn [app]. rewrite H, eat_ws by exact Hw2.
  rewrite eat_hit by reflexivity. reflexivity.
Qed.

Lemma lvl_range : forall op, 2 <= lvl op <= 9.
Proof. destruct op; split; repeat constructor. Qed.

Lemma loopat_lvl : forall rec op, loopat rec (lvl op) = loop op (tower rec (lvl op - 1)).
Proof. destruct op; reflexivity. Qed.

Lemma lvl_op_at : forall j, 2 <= j -> lvl (op_at j) <= j.
Proof.
  intros j H. do 2 (destruct j as [|j]; [lia|]). do 7 (destruct j as [|j]; [repeat constructor|]).
  exact (Nat.le_add_r 9 j).
Qed.

Definition stop (c : nat) (rest : str) : Prop := forall op, lvl op < c -> nostart op rest.

Lemma stop_le : forall c' c rest, c' <= c -> stop c rest -> stop c' rest.
Proof. intros c' c rest H NS op L. apply NS. exact (Nat.lt_le_trans _ _ _ L H). Qed.

Lemma stop_1 : forall rest, stop 1 rest.
Proof. intros rest op H. pose proof (lvl_range op). lia. Qed.

Lemma stop_end : forall c w, all_ws w -> stop c w.
Proof.
  intros c w H op _. unfold nostart. rewrite skip_ws_all by exact H. destruct op; exact I.
Qed.

Lemma stop_close : forall c w x, all_ws w -> stop c (w ++ 41%N :: x).
Proof.
  intros c w x H op _. unfold nostart. rewrite skip_ws_app_ws by exact H.
  rewrite skip_ws_nonws by reflexivity. destruct op; exact I.
Qed.

(* an operator is no prefix of one of a higher level, except `<` of `<=` and `>` of `>=` *)
Lemma stop_lower : forall op w x, all_ws w -> stop (lvl op) (w ++ op_text op ++ x).
Proof.
  intros op w x H op' L. unfold nostart. rewrite skip_ws_app_ws by exact H. rewrite skip_ws_op.
  apply Nat.leb_le in L.
  destruct op', op; try exact I; try discriminate L; exists x; reflexivity.
Qed.

Lemma loopat_stop : forall rec m a rest, stop (S m) rest -> loopat rec m a rest = POk a rest.
Proof.
  intros rec [|[|m]] a rest NS; [reflexivity..|].
  apply loop_nostart; [apply tower_fails_at_eq|apply NS, le_n_S, lvl_op_at, le_n_S, le_n_S, Nat.le_0_l].
Qed.

(* from level j up to level m: the loops of the levels in between find no operator *)
Lemma tower_lift : forall rec x a rest j m, 1 <= j -> j <= m -> stop m rest ->
  tower rec j x = loopat rec j a rest -> tower rec m x = loopat rec m a rest.
Proof.
  intros rec x a rest j m J Hjm. induction Hjm as [|m Hjm IH]; intros NS H; [exact H|].
  rewrite tower_S by exact (Nat.le_trans _ _ _ J Hjm).
  rewrite (IH (stop_le _ _ _ (Nat.le_succ_diag_r m) NS) H), loopat_stop by exact NS. reflexivity.
Qed.

(* After a text of level i <= m the parser of level m stands in its own loop
   with the tree as left operand (a text of level m is the left operand of a
   further operator of level m), provided that no operator of a level below m
   starts behind the text. *)
Lemma rend_parse_lv : forall i a s, rend i a s ->
  forall n m rest, length s <= n -> 1 <= m /\ i <= m -> stop m rest ->
    tower (p_expr n) m (s ++ rest) = loopat (p_expr n) m a rest.
Proof.
  induction 1 as [k e s Hs
                 |k w x s Hk Hw Hx IH
                 |k op l r sl w sr Hop Hl IHl Hw Hr IHr
                 |k a w s w2 Hw Ha IH Hw2];
    intros n m rest L LV NS.
  1, 2, 4: apply (tower_lift _ _ _ _ 1 m); [apply le_n|apply LV|exact NS|].
  - apply tower1_str, Hs.
  - apply tower1_not; [exact Hw|]. apply length_app_le in L as [_ L].
    apply (IH n 1); [apply Nat.lt_le_incl, L|repeat constructor|apply stop_1].
  - apply length_app_le in L as [_ L]. destruct n as [|n]; [inversion L|].
    apply le_S_n, length_app_le in L as [L _].
    apply tower1_par; [exact Hw|exact Hw2|]. rewrite p_expr_S.
    rewrite (IH n 9); [apply loopat_stop|exact L|repeat constructor|]; apply stop_close, Hw2.
  - (* l leaves the loop of level lvl op open; it takes r, on which the lower levels end *)
    pose proof (lvl_range op) as [R2 _].
    apply length_app_le in L as [Ll L]. do 2 apply length_app_le in L as [_ L]. repeat rewrite <- app_assoc.
    apply (tower_lift _ _ _ _ (lvl op) m); [lia|lia|exact NS|].
    rewrite (IHl n (lvl op)); [|exact Ll|lia|apply stop_lower, Hw].
    rewrite loopat_lvl. apply (loop_step _ _ (S n)); [apply tower_fits, p_expr_fits|exact Hw|].
    rewrite (IHr n (lvl op - 1)); [apply loopat_stop|exact L|lia|]; (apply (stop_le _ m); [lia|exact NS]).
Qed.

(* the local fixpoint of render_sx *)
Definition render_more : list sexpr -> str :=
  fix go (l : list sexpr) : str :=
    match l with
    | [] => []
    | x :: r => 44%N :: 32%N :: render_sx x ++ go r
    end.

Lemma render_sx_fn : forall name args,
  render_sx (SFn name args) =
  name ++ 40%N :: match args with [] => [] | a :: more => render_sx a ++ render_more more end ++ [41%N].
Proof. intros name args. destruct args; reflexivity. Qed.

Lemma ws_blank : all_ws [32%N].
Proof. reflexivity. Qed.

(* structural recursion through the argument lists; the white space in front
   is the blank the renderers put before an argument or a right operand *)
Lemma render_sx_rend : forall e w, all_ws w -> wf_sx e = true -> rend_sx e (w ++ render_sx e).
Proof.
  fix IH 1. intros [s d|name args] w Hw W.
  - destruct d; cbn [render_sx render_lit].
    + pose proof (RDq w (esc_dq s) Hw (dq_body_esc s)) as R. rewrite unq_esc_dq in R. exact R.
    + exact (RSq w s Hw W).
  - apply andb_prop in W as [Wn Wa]. rewrite render_sx_fn.
    apply (RFn w name [] args _ [] Hw Wn all_ws_nil); [|apply all_ws_nil].
    destruct args as [|a more]; [apply RA_nil|]. apply andb_prop in Wa as [Wa Wm].
    apply RA_cons; [exact (IH a [] all_ws_nil Wa)|]. clear Wa.
    induction more as [|x more IHm]; [apply RM_nil|]. apply andb_prop in Wm as [Wx Wm].
    exact (RM_cons [] x _ more _ all_ws_nil (IH x [32%N] ws_blank Wx) (IHm Wm)).
Qed.

(* the let-bound body of render_at *)
Definition render_body (a : ifast) : str :=
  match a with
  | AStr e => render_sx e
  | ANot x => 33%N :: render_at 1 x
  | ABin op l r => render_at (lvl op) l ++ 32%N :: op_text op ++ 32%N :: render_at (lvl op - 1) r
  end.

Lemma render_at_eq : forall k a,
  render_at k a = if Nat.leb (lvl_ast a) k then render_body a else 40%N :: render_body a ++ [41%N].
Proof. intros k a. destruct a; reflexivity. Qed.

Lemma lvl_ast_range : forall a, lvl_ast a <= 9.
Proof. destruct a; [repeat constructor..|apply lvl_range]. Qed.

Lemma rend_not : forall k x s, 1 <= k -> rend 1 x s -> rend k (ANot x) (33%N :: s).
Proof. intros k x s Hk H. exact (R_not k [] x s Hk all_ws_nil H). Qed.

Lemma rend_par : forall k a w s, all_ws w -> rend 9 a s -> rend k a (w ++ 40%N :: s ++ [41%N]).
Proof. intros k a w s Hw H. exact (R_par k a w s [] Hw H all_ws_nil). Qed.

Lemma render_at_wrap : forall a, (forall k w, all_ws w -> lvl_ast a <= k -> rend k a (w ++ render_body a)) ->
  forall k w, all_ws w -> rend k a (w ++ render_at k a).
Proof.
  intros a B k w Hw. rewrite render_at_eq. destruct (Nat.leb (lvl_ast a) k) eqn:E.
  - apply B; [exact Hw|apply Nat.leb_le, E].
  - exact (rend_par k a w _ Hw (B 9 [] all_ws_nil (lvl_ast_range a))).
Qed.

Lemma render_at_rend : forall a, wf_ast a = true -> forall k w, all_ws w -> rend k a (w ++ render_at k a).
Proof.
  induction a as [e|x IH|op l IHl r IHr]; intros W; apply render_at_wrap; intros k w Hw Hk; cbn [render_body].
  - apply R_str, render_sx_rend; assumption.
  - exact (R_not k w x _ Hk Hw (IH W 1 [] all_ws_nil)).
  - apply andb_prop in W as [Wl Wr]. rewrite app_assoc.
    exact (R_bin k op l r _ [32%N] _ Hk (IHl Wl _ w Hw) ws_blank (IHr Wr _ [32%N] ws_blank)).
Qed.

Lemma render_full_rend : forall a, wf_ast a = true -> rend 9 a (render_full a).
Proof.
  induction a as [e|x IH|op l IHl r IHr]; intros W; cbn [render_full].
  - apply R_str, (render_sx_rend e []); [apply all_ws_nil|exact W].
  - apply rend_not; [repeat constructor|]. apply (rend_par 1 x []); [apply all_ws_nil|apply IH, W].
  - apply andb_prop in W as [Wl Wr].
    change (41%N :: 32%N :: ?y) with ([41%N] ++ 32%N :: y). rewrite app_assoc.
    exact (R_bin 9 op l r _ [32%N] _ (proj2 (lvl_range op)) (rend_par _ l [] _ all_ws_nil (IHl Wl)) ws_blank
             (rend_par _ r [32%N] _ ws_blank (IHr Wr))).
Qed.
