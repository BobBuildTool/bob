(* C17 — lemmas about the parser model (Model.v).  [getString] is unfolded once
   as "a token, then what the token stands for" (getString_S): the quoting
   theorems and C17/Equiv.v work from that equation. *)
From Coq Require Import List NArith Bool Lia.
Require BobV.Common.ListFacts.
Require Import BobV.Gen.Consts BobV.C17.Model.
Import ListNotations.
Open Scope N_scope.

Lemma bind_assoc {A B C} (r : res A) (f : A -> res B) (g : B -> res C) :
  bind (bind r f) g = bind r (fun a => bind (f a) g).
Proof. destruct r; reflexivity. Qed.

Lemma bind_ext {A B} (r : res A) (f g : A -> res B) : (forall a, f a = g a) -> bind r f = bind r g.
Proof. destruct r; cbn; auto. Qed.

Lemma bind_ok_r {A} (r : res A) : bind r (fun a => Ok a) = r.
Proof. destruct r; reflexivity. Qed.

Lemma str_eqb_eq a b : str_eqb a b = true <-> a = b.
Proof. exact (ListFacts.list_eqb_eq _ _ N.eqb_spec a b). Qed.

Lemma mem_In c l : mem c l = true <-> In c l.
Proof. exact (ListFacts.mem_In _ _ N.eqb_spec c l). Qed.

Lemma mem_false_not_In c l : mem c l = false <-> ~ In c l.
Proof. rewrite <- mem_In. destruct (mem c l); split; congruence. Qed.

Lemma getSingleQuoted_spec t s r :
  getSingleQuoted t = Some (s, r) <-> t = s ++ ch_sq :: r /\ mem ch_sq s = false.
Proof.
  split.
  - revert s r. induction t as [|x t IH]; intros s r H; cbn [getSingleQuoted] in H; [discriminate|].
    destruct (N.eqb_spec x ch_sq) as [->|E].
    + now injection H as <- <-.
    + destruct (getSingleQuoted t) as [[s' r']|]; [|discriminate]. injection H as <- <-.
      destruct (IH s' r' eq_refl) as [-> Hm]. split; [reflexivity|].
      cbn [mem]. rewrite Hm, orb_false_r. apply N.eqb_neq. congruence.
  - intros [-> H]. induction s as [|x s IH]; [reflexivity|].
    apply orb_false_iff in H as [H1 H2]. cbn [app getSingleQuoted]. now rewrite N.eqb_sym, H1, IH.
Qed.

(* After a backslash [scan] goes on two characters further: its lemmas go by
   this induction. *)
Lemma two_step_ind (P : str -> Prop) :
  P [] -> (forall x t, P t -> (forall y t', t = y :: t' -> P t') -> P (x :: t)) -> forall t, P t.
Proof.
  intros H0 HS t. enough (P t /\ forall y t', t = y :: t' -> P t') by tauto.
  induction t as [|x t [IH1 IH2]]; split; auto; try discriminate.
  now intros y t' [= _ <-].
Qed.

Lemma scan_acc delim t : forall a b,
  scan delim t (a ++ b) =
  match scan delim t a with Some (s, r) => Some (rev b ++ s, r) | None => None end.
Proof.
  induction t as [|x t IH IH2] using two_step_ind; intros a b; cbn [scan].
  - now rewrite rev_app_distr.
  - destruct (mem x delim); [now rewrite rev_app_distr|].
    destruct (x =? ch_bs); [|apply (IH (x :: a))].
    destruct t as [|d t']; [reflexivity|]. apply (IH2 d t' eq_refl (d :: a)).
Qed.

Lemma scan_len delim t : forall a s r, scan delim t a = Some (s, r) -> (length r <= length t)%nat.
Proof.
  induction t as [|x t IH IH2] using two_step_ind; intros a s r H; cbn [scan] in H.
  - injection H as _ <-. reflexivity.
  - destruct (mem x delim); [injection H as _ <-; reflexivity|]. cbn [length].
    destruct (x =? ch_bs); [|apply IH in H; auto].
    destruct t as [|d t']; [discriminate|]. apply (IH2 d t' eq_refl) in H. cbn [length]. auto.
Qed.

Lemma scan_shorter delim x t a s r :
  mem x delim = false -> scan delim (x :: t) a = Some (s, r) -> (length r <= length t)%nat.
Proof.
  intros E H. cbn [scan] in H. rewrite E in H. destruct (x =? ch_bs); [|now apply scan_len in H].
  destruct t as [|y t']; [discriminate|]. apply scan_len in H. cbn [length]. auto.
Qed.

Definition esc (s : str) : str := flat_map (fun x => [ch_bs; x]) s.

Lemma scan_esc delim s rest :
  mem ch_bs delim = false ->
  scan delim (esc s ++ rest) [] =
  match scan delim rest [] with Some (t, r) => Some (s ++ t, r) | None => None end.
Proof.
  intros Hd. enough (E : forall acc, scan delim (esc s ++ rest) acc = scan delim rest (rev s ++ acc)).
  { now rewrite E, app_nil_r, (scan_acc delim rest [] (rev s) : scan delim rest (rev s) = _), rev_involutive. }
  induction s as [|x s IH]; intros acc; [reflexivity|].
  simpl. rewrite Hd, IH. now rewrite <- app_assoc.
Qed.

(* The part of getString's body for a delimiter that does not close the
   activation: a quoted string or a dollar form. *)
Definition element (f : nat) (c : ctx) (sb : bool) (d : N) (r : str) : res (str * str) :=
  if d =? ch_dq then getString f c [ch_dq] false false sb r []
  else if d =? ch_sq then match getSingleQuoted r with Some p => Ok p | None => PErr end
  else match r with
       | [] => PErr
       | k :: r1 =>
         if k =? ch_lbrace then getVariable f c sb r1
         else if k =? ch_lparen then getCommand f c sb r1 []
         else if mem k NAME_START then
           let (n, r2) := getRestOfName r1 in
           match lookup (c_env c) (k :: n) with
           | Some v => Ok (v, r2)
           | None => if sb && c_nounset c then PErr else Ok ([], r2)
           end
         else PErr
       end.

Lemma getString_S f c extra top keep sb t acc :
  getString (S f) c extra top keep sb t acc =
  bind (nextToken extra t) (fun tr =>
    match tr with
    | (TEOS, _) => if top then Ok (acc, []) else PErr
    | (TText s, r) => getString f c extra top keep sb r (acc ++ s)
    | (TDelim d, r) =>
      if mem d extra then Ok (acc, if keep then d :: r else r)
      else bind (element f c sb d r) (fun sr => getString f c extra top keep sb (snd sr) (acc ++ fst sr))
    end).
Proof.
  cbn [getString]. apply bind_ext. intros [[d|s|] r]; try reflexivity.
  destruct (mem d extra); [reflexivity|]. unfold element.
  destruct (d =? ch_dq); [reflexivity|].
  destruct (d =? ch_sq). { now destruct (getSingleQuoted r) as [[s r']|]. }
  destruct r as [|k r1]; [reflexivity|].
  destruct (k =? ch_lbrace); [reflexivity|]. destruct (k =? ch_lparen); [reflexivity|].
  destruct (mem k NAME_START); [|reflexivity]. destruct (getRestOfName r1) as [n r2].
  destruct (lookup (c_env c) (k :: n)); [reflexivity|].
  destruct (sb && c_nounset c); [reflexivity|]. cbn [bind fst snd]. now rewrite app_nil_r.
Qed.

Lemma getString_sq f c extra top keep sb s rest acc :
  mem ch_sq extra = false -> mem ch_sq s = false ->
  getString (S f) c extra top keep sb (ch_sq :: s ++ ch_sq :: rest) acc =
  getString f c extra top keep sb rest (acc ++ s).
Proof.
  intros He Hs. rewrite getString_S. unfold nextToken.
  change (mem ch_sq (TOKEN_DELIMS ++ extra)) with true. cbn [bind]. rewrite He.
  change (element f c sb ch_sq (s ++ ch_sq :: rest))
    with (match getSingleQuoted (s ++ ch_sq :: rest) with Some p => Ok p | None => PErr end).
  now rewrite (proj2 (getSingleQuoted_spec _ s rest) (conj eq_refl Hs)).
Qed.

(* [S (S f)]: the quoting theorems unfold getString twice and do not care how
   much of [fuel_for t] is left. *)
Lemma parse_special c x t : In x SPECIAL_CHARS -> In x t -> exists f,
  parse c t = bind (getString (S (S f)) c [] true false true t []) (fun sr => Ok (fst sr)).
Proof.
  intros H1 H2. exists (2 * length t)%nat. unfold parse.
  replace (existsb _ _) with true by (symmetry; apply existsb_exists; exists x; now rewrite mem_In).
  now replace (fuel_for t) with (S (S (2 * length t))) by (unfold fuel_for; lia).
Qed.

Definition truth (r : res str) : res bool := bind r (fun v => Ok (isTrue v)).

Lemma isTrue_of_bool b : isTrue (of_bool b) = b.
Proof. destruct b; vm_compute; reflexivity. Qed.

Lemma call_and c a b : call_fun c n_and [a; b] = Ok (of_bool (isTrue a && isTrue b)).
Proof. unfold call_fun. cbn [str_eqb n_and n_eq n_ne n_not n_or N.eqb Pos.eqb andb forallb]. now rewrite andb_true_r. Qed.
Lemma call_or c a b : call_fun c n_or [a; b] = Ok (of_bool (isTrue a || isTrue b)).
Proof. unfold call_fun. cbn [str_eqb n_and n_eq n_ne n_not n_or N.eqb Pos.eqb andb existsb]. now rewrite orb_false_r. Qed.

Lemma truth_fn1 c n a (op : str -> bool) :
  (forall y, call_fun c n [y] = Ok (of_bool (op y))) ->
  truth (eval_s c (SFn n [a])) = bind (eval_s c a) (fun y => Ok (op y)).
Proof.
  intros H. unfold truth. cbn [eval_s]. destruct (eval_s c a); cbn [bind]; trivial.
  rewrite H. cbn [bind]. now rewrite isTrue_of_bool.
Qed.

Lemma truth_fn2 c n a b (op : str -> str -> bool) :
  (forall y z, call_fun c n [y; z] = Ok (of_bool (op y z))) ->
  truth (eval_s c (SFn n [a; b])) = bind (eval_s c a) (fun y => bind (eval_s c b) (fun z => Ok (op y z))).
Proof.
  intros H. unfold truth. cbn [eval_s]. destruct (eval_s c a); cbn [bind]; trivial.
  destruct (eval_s c b); cbn [bind]; trivial.
  rewrite H. cbn [bind]. now rewrite isTrue_of_bool.
Qed.

