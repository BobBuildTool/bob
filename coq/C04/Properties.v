(* C04 — property theorems about the in-memory caches of the package
   calculation (touched-key memoisation, merge by result id) and the YAML
   cache, most of them instances of the general theorems of Proofs.v, and
   non-vacuity examples. *)
From Coq Require Import List NArith Bool.
Require Import BobV.Common.Cases BobV.C04.Model BobV.C04.Proofs BobV.C04.Examples.
Import ListNotations.
Open Scope N_scope.

(* P1. A tracked computation depends on its environment only through the keys
   it touched: an environment that agrees on them gives the same result AND
   the same touched set. *)
Theorem read_determinacy : forall (A : Type) (c : comp A) (e e' : env) (t : list key),
  agree_on (snd (run c e t)) e e' -> run c e' t = run c e t.
Proof.
  intros A c e e'. induction c as [a|k f IH]; intros t Hag; cbn in *; [reflexivity|].
  rewrite <- (Hag k); [now apply IH|]. apply run_mono, In_add. auto.
Qed.

(* Env.touched is a stack of sets and every lookup touches all of them: each
   outer set receives exactly the keys the innermost one receives. *)
Theorem touch_stack_is_union : forall (A : Type) (c : comp A) (e : env) (ts : list (list key)),
  run_stack c e ts = (fst (run c e []), map (fun s => union s (snd (run c e []))) ts).
Proof. intros A c e ts. rewrite <- (run_stack_union c e [] ts). cbn. now rewrite map_id. Qed.

(* P1. The same for whole package calculations with nested dependency
   calculations (environment derived with overrides, or not inherited): result,
   touched set and sub-tree set depend on the input only through touched keys. *)
Theorem prepare_determinacy : forall (R : Type) (genv : env) (body : str -> prog R)
    (m : nat) (st : list str) (r : str) (e e' : env) (a : R) (t : list key) (sub : list str),
  call R genv body m st r e = Ok (a, t, sub) -> agree_on t e e' ->
  call R genv body m st r e' = Ok (a, t, sub).
Proof.
  intros R genv body m st r e e' a t sub Hc Hag.
  pose proof (call_frame R genv body Hc m st) as F.
  rewrite (F e' Hag), <- (F e (fun k _ => eq_refl)) by (left; reflexivity). exact Hc.
Qed.

(* ... and on the package stack only through the cycle check that
   Recipe.prepare repeats on a memo hit (stack.intersects(m.subTreePackages)). *)
Theorem stack_only_through_cycle_check : forall (R : Type) (genv : env) (body : str -> prog R)
    (m : nat) (st : list str) (r : str) (e : env) (a : R) (t : list key) (sub : list str),
  call R genv body m st r e = Ok (a, t, sub) ->
  forall (st' : list str) (e' : env), agree_on t e e' -> smem r st' = false ->
  call R genv body m st' r e' = if sintersects (r :: st') sub then Err else Ok (a, t, sub).
Proof.
  intros R genv body m st r e a t sub Hc st' e' Hag Hr'.
  rewrite (call_frame R genv body Hc m st' e' Hag (or_introl eq_refl)), Hr'. reflexivity.
Qed.

(* P1. Transparency of the memo table of Recipe.prepare, with touch
   propagation on a hit, WITHOUT the merge by result id: for every history of
   calculations, started from an empty table, every answer (package, touched
   set, sub-tree set, or the cyclic/parse error) is the answer of the
   calculation with every cache disabled.  [fp_determines]: what the matcher
   stores of a value (for tools and the sandbox: their result id) determines
   the value — C02's territory, named here as a hypothesis. *)
Theorem memo_transparent_without_merge : forall (R : Type) (rid : R -> idt) (fp : key -> idt -> idt)
    (genv : env) (body : str -> prog R),
  fp_determines fp ->
  forall (n : nat) (cs : list (str * env)),
  (forall o, In o (history_plain R genv body n cs) -> o <> OutOfFuel) ->
  history_memo R rid fp genv body true false n mempty cs = history_plain R genv body n cs.
Proof.
  intros R rid fp genv body Hfp n cs Hne.
  exact (history_memo_plain R rid fp genv body false Hfp (fun H => False_ind _ (diff_false_true H))
           n cs mempty (inv_empty R fp genv body) Hne).
Qed.

(* P1. ... and WITH the merge (__corePackagesById.setdefault), as implemented:
   transparent provided the result id determines the calculated package among
   the packages of one recipe ([rid_determines_subtree]).  The implementation
   does NOT satisfy this hypothesis (known findings "merge-by-result-id"); see
   merge_needs_rid_determines below. *)
Theorem memo_transparent : forall (R : Type) (rid : R -> idt) (fp : key -> idt -> idt)
    (genv : env) (body : str -> prog R),
  fp_determines fp -> rid_determines_subtree R rid genv body ->
  forall (n : nat) (cs : list (str * env)),
  (forall o, In o (history_plain R genv body n cs) -> o <> OutOfFuel) ->
  history_memo R rid fp genv body true true n mempty cs = history_plain R genv body n cs.
Proof.
  intros R rid fp genv body Hfp Hrid n cs Hne.
  exact (history_memo_plain R rid fp genv body true Hfp (fun _ => Hrid)
           n cs mempty (inv_empty R fp genv body) Hne).
Qed.

(* P2. YAML cache: under the stat assumption every cached load returns the
   parsed data and the content digest of the uncached load, for every history
   of sessions (including Bob updates, which purge the table). *)
Theorem yaml_cache_transparent : forall (data : Type) (parse : list N -> list N -> data)
    (H : list N -> list N) (evs : list yevent) (cur : list N),
  stat_faithful (y_loads evs) ->
  y_run data parse H cur (yempty data) evs = y_plain data parse H cur evs.
Proof.
  intros data parse H evs cur Hsf.
  exact (y_run_plain data parse H _ Hsf evs cur _ (yinv_empty _ _ _ _ _) (incl_refl _)).
Qed.

(* P2. The file list whose digest enters the key of the persisted package tree
   (YamlCache.__files) covers ALL files loaded in the invocation, each with the
   digest of its current content — files served from the hot table included,
   not only the re-parsed ones.  (__files is a dict keyed by name and
   YamlCache.close sorts it: with one entry per name and sorted by name this
   list is the [ki_files] input of cache_key_complete in KeyProperties.v.) *)
Theorem files_cover_all_loads : forall (data : Type) (parse : list N -> list N -> data)
    (H : list N -> list N) (evs : list yevent) (cur : list N),
  stat_faithful (y_loads evs) ->
  y_files data evs (y_run data parse H cur (yempty data) evs) [] = y_session H evs [].
Proof.
  intros data parse H evs cur Hsf. rewrite (yaml_cache_transparent data parse H evs cur Hsf).
  apply y_files_plain.
Qed.

Example read_determinacy_nonvacuous :
  let e := env_of [(kX, v1); (kY, v2); (kZ, v1)] in
  let e' := env_of [(kX, v1); (kY, v2); (kZ, v2)] in
  agree_on (snd (run c_xy e [])) e e' /\ run c_xy e [] = (Nd [v1; v2], [kX; kY]) /\ e kZ <> e' kZ.
Proof.
  cbv zeta. split; [|split; [vm_compute; reflexivity | vm_compute; discriminate]].
  intros k Hk. vm_compute in Hk. destruct Hk as [<-|[<-|[]]]; reflexivity.
Qed.

(* three reaches of "p" (X=1, X=2, X=1 with an unrelated Z): the third one is
   a memo hit, the second one is not, and all answers are the plain ones *)
Example memo_transparent_nonvacuous :
  history_memo idt rid_id fp_id e_empty body1 true true 5 mempty [(nRoot, e_empty)]
  = history_plain idt e_empty body1 5 [(nRoot, e_empty)]
  /\ history_plain idt e_empty body1 5 [(nRoot, e_empty)]
     = [Ok (Nd [Nd [L nC; v1]; Nd [L nP; Nd [L nC; v1]]; Nd [L nP; Nd [L nC; v2]]; Nd [L nP; Nd [L nC; v1]]],
            [kX], [nC; nP])]
  /\ length (ms_match (snd (callm idt rid_id fp_id e_empty body1 true true 5 [] mempty nRoot e_empty))) = 5%nat.
Proof. vm_compute. repeat split. Qed.

Example memo_transparent_hypotheses_satisfiable :
  fp_determines fp_id /\ rid_determines_subtree idt rid_id e_empty body1.
Proof.
  split.
  - intros k a b H. exact H.
  - intros r m st e a t s m' st' e' a' t' s' _ _ H. exact H.
Qed.

(* P1 guard: WITHOUT m.touch on a memo hit the snapshot of "p" misses X (read
   only by the memoised "c"), so "p" under X=2 is answered with the package of
   X=1: transparency fails. *)
Example touch_propagation_needed :
  history_memo idt rid_id fp_id e_empty body1 false true 5 mempty [(nRoot, e_empty)]
  <> history_plain idt e_empty body1 5 [(nRoot, e_empty)].
Proof. intro H. vm_compute in H. discriminate H. Qed.

(* the merge by result id is NOT transparent when the result id does not
   determine the package (here: a part the id does not cover, like
   metaEnvironment or the dependency list in the implementation) *)
Example merge_needs_rid_determines :
  history_memo idt rid_first fp_id e_empty body2 true true 5 mempty [(nRoot, e_empty)]
  <> history_plain idt e_empty body2 5 [(nRoot, e_empty)]
  /\ ~ rid_determines_subtree idt rid_first e_empty body2.
Proof.
  split.
  - intro H. vm_compute in H. discriminate H.
  - intro Hd.
    assert (E : Nd [L nLib; v1] = Nd [L nLib; v2]).
    { apply (Hd nLib 2%nat [] (env_of [(kX, v1)]) (Nd [L nLib; v1]) [kX] []
                     2%nat [] (env_of [(kX, v2)]) (Nd [L nLib; v2]) [kX] []); vm_compute; reflexivity. }
    discriminate E.
Qed.

Example merge_off_is_transparent :
  history_memo idt rid_first fp_id e_empty body2 true false 5 mempty [(nRoot, e_empty)]
  = history_plain idt e_empty body2 5 [(nRoot, e_empty)].
Proof. vm_compute. reflexivity. Qed.

Example fp_needs_determines :
  history_memo idt rid_id fp_const e_empty body1 true true 5 mempty [(nRoot, e_empty)]
  <> history_plain idt e_empty body1 5 [(nRoot, e_empty)].
Proof. intro H. vm_compute in H. discriminate H. Qed.

(* the cycle check: "p" reaches itself when X is set; the error is the same
   with and without the memo table, also when the table already knows "p" *)
Example cycle_error_is_transparent :
  let h := [(nP, e_empty); (nP, env_of [(kX, v1)])] in
  history_memo idt rid_id fp_id e_empty body3 true true 5 mempty h = history_plain idt e_empty body3 5 h
  /\ history_plain idt e_empty body3 5 h = [Ok (L nP, [kX], []); Err].
Proof. vm_compute. split; reflexivity. Qed.

Example yaml_cache_nonvacuous :
  stat_faithful (y_loads y_hist_ok)
  /\ y_run (list N) y_parse y_hash [0] (yempty (list N)) y_hist_ok = y_plain (list N) y_parse y_hash [0] y_hist_ok
  /\ length (yc_tab (list N) (snd (fst (fold_left
        (fun s ev => y_step (list N) y_parse y_hash (fst (fst s)) (snd (fst s)) ev)
        (firstn 6 y_hist_ok) ([0], yempty (list N), None))))) = 2%nat.
Proof.
  split; [|split; vm_compute; reflexivity].
  apply (stat_faithful_fun (fun ns => match snd ns with [10] => [5; 5] | [11] => [6] | _ => [7] end)).
  vm_compute. repeat constructor.
Qed.

Example yaml_stat_assumption_needed :
  ~ stat_faithful (y_loads y_hist_bad)
  /\ y_run (list N) y_parse y_hash [0] (yempty (list N)) y_hist_bad <> y_plain (list N) y_parse y_hash [0] y_hist_bad.
Proof.
  split.
  - intro Hs. assert (E : [5; 5] = [5; 6]).
    { apply (Hs [97] [10]); vm_compute; auto. }
    discriminate E.
  - intro H. vm_compute in H. discriminate H.
Qed.

Example files_cover_all_loads_nonvacuous :
  y_files (list N) y_hist_two (y_run (list N) y_parse y_hash [0] (yempty (list N)) y_hist_two) []
  = [([97], [5; 5]); ([98], [7])].
Proof. vm_compute. reflexivity. Qed.

(* guard: a cache that forgets the digest of hot hits does not satisfy the statement
   (then the key would cover the re-parsed files only) *)
Example hot_hit_digest_needed :
  y_files (list N) y_hist_two (y_run_forget [0] (yempty (list N)) y_hist_two) [] <> y_session y_hash y_hist_two [].
Proof. intro H. vm_compute in H. discriminate H. Qed.
