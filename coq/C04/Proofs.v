(* C04 — proofs about the tracked reader, the package calculation with and
   without its memo table, and the YAML cache.
   Plain calculation: a finished calculation depends on the environment only
   through the keys it touched, on the stack only through the cycle check and
   not on the fuel ([call_frame]).  Memo table: every entry is the answer of some plain
   calculation ([inv]), and while the plain calculation finishes the memoised
   one follows it call by call ([callm_sound]).  YAML cache: every table
   entry answers as the current Bob version would parse any content that the
   history has under the entry's name and stat record ([yinv]). *)
From Coq Require Import List NArith Bool.
Require BobV.Common.ListFacts.
Require Import BobV.Common.Cases BobV.C04.Model.
Import ListNotations.
Open Scope N_scope.

Lemma eqb_str_spec (a b : str) : eqb_str a b = true <-> a = b.
Proof. exact (ListFacts.eqb_str_eq a b). Qed.

Lemma eqb_str_refl a : eqb_str a a = true.
Proof. now apply eqb_str_spec. Qed.

Lemma keyb_spec (a b : key) : keyb a b = true <-> a = b.
Proof.
  destruct a as [t s], b as [t' s']. unfold keyb. cbn. rewrite andb_true_iff, N.eqb_eq, eqb_str_spec.
  split; [intros [-> ->]; reflexivity | intro Hx; injection Hx; auto].
Qed.

Lemma keyb_refl a : keyb a a = true.
Proof. now apply keyb_spec. Qed.

Lemma idt_eqb_spec : forall a b, idt_eqb a b = true <-> a = b.
Proof.
  (* [idt] recurs through the list of children: [IH] is applied to elements of [l] only *)
  fix IH 1. intros [s|l] [s'|l']; cbn; try (split; congruence).
  - rewrite eqb_str_spec. split; congruence.
  - revert l'. induction l as [|x l IHl]; intros [|y l']; cbn; try (split; congruence).
    rewrite andb_true_iff, IH, IHl. split; [intros [-> [= ->]]; reflexivity | intros [= -> ->]; auto].
Qed.

Lemma idt_eqb_refl a : idt_eqb a a = true.
Proof. now apply idt_eqb_spec. Qed.

Lemma kmem_In k t : kmem k t = true <-> In k t.
Proof. exact (ListFacts.mem_In _ _ (fun x y => iff_reflect _ _ (iff_sym (keyb_spec x y))) k t). Qed.

Lemma In_add_if {A} (b : bool) (x k : A) t :
  (b = true -> In k t) -> In x (if b then t else t ++ [k]) <-> In x t \/ k = x.
Proof.
  destruct b; intros Hb.
  - split; [auto | intros [Hx| <-]; auto].
  - rewrite in_app_iff. cbn [In]. tauto.
Qed.

Lemma In_fold_add {A} (f : list A -> A -> list A) :
  (forall x k t, In x (f t k) <-> In x t \/ k = x) ->
  forall s t x, In x (fold_left f s t) <-> In x t \/ In x s.
Proof.
  intros Hf. induction s as [|k s IH]; intros t x; cbn [fold_left In]; [tauto|].
  rewrite IH, Hf. apply or_assoc.
Qed.

Lemma In_add x k t : In x (add k t) <-> In x t \/ k = x.
Proof. apply In_add_if, kmem_In. Qed.

Lemma In_union x t s : In x (union t s) <-> In x t \/ In x s.
Proof. apply (In_fold_add (fun acc k => add k acc)). intros. apply In_add. Qed.

Lemma add_union k s t : add k (union s t) = union s (add k t).
Proof.
  unfold add at 2. destruct (kmem k t) eqn:E.
  - unfold add. assert (kmem k (union s t) = true) as ->; [|reflexivity].
    apply kmem_In, In_union. right. now apply kmem_In.
  - unfold union. now rewrite fold_left_app.
Qed.

Lemma smem_In r l : smem r l = true <-> In r l.
Proof. exact (ListFacts.mem_In _ _ (fun x y => iff_reflect _ _ (iff_sym (eqb_str_spec x y))) r l). Qed.

Lemma In_sadd (x : str) r l : In x (sadd r l) <-> In x l \/ r = x.
Proof. apply In_add_if, smem_In. Qed.

Lemma In_sunion (x : str) a b : In x (sunion a b) <-> In x a \/ In x b.
Proof. apply (In_fold_add (fun acc r => sadd r acc)). intros. apply In_sadd. Qed.

Lemma sintersects_true a b : sintersects a b = true <-> exists r, In r a /\ In r b.
Proof.
  unfold sintersects. rewrite existsb_exists.
  split; intros [r [H1 H2]]; exists r; split; auto; now apply smem_In.
Qed.

Lemma sintersects_nil_r a : sintersects a [] = false.
Proof. induction a; cbn; auto. Qed.

Lemma sintersects_cons_l r a b : sintersects (r :: a) b = smem r b || sintersects a b.
Proof. reflexivity. Qed.

Lemma sintersects_cons_r a r b : sintersects a (r :: b) = smem r a || sintersects a b.
Proof.
  apply eq_iff_eq_true. rewrite orb_true_iff, !sintersects_true, smem_In. split.
  - intros (x & Ha & [<-|Hb]); eauto.
  - intros [Ha|(x & Ha & Hb)]; [exists r|exists x]; cbn; auto.
Qed.

Lemma sintersects_sunion a b c : sintersects a (sunion b c) = sintersects a b || sintersects a c.
Proof.
  apply eq_iff_eq_true. rewrite orb_true_iff, !sintersects_true. split.
  - intros (x & Ha & Hx). apply In_sunion in Hx as [Hx|Hx]; eauto.
  - intros [(x & Ha & Hx)|(x & Ha & Hx)]; exists x; split; auto; apply In_sunion; auto.
Qed.

Lemma sintersects_incl a b b' : incl b b' -> sintersects a b = true -> sintersects a b' = true.
Proof.
  intros Hi Hx. apply sintersects_true in Hx as (x & Ha & Hb). apply sintersects_true. eauto.
Qed.

(* the two shapes of the cycle check: as Recipe.prepare tests it, "[r] is on
   the stack, or the stack with [r] pushed meets the tree below [r]", and "the
   stack meets the tree below and including [r]" *)
Lemma sintersects_swap_head r a b :
  smem r b = false -> smem r a || sintersects (r :: a) b = sintersects a (r :: b).
Proof. intros Hb. now rewrite sintersects_cons_r, sintersects_cons_l, Hb. Qed.

Lemma run_mono {A} (c : comp A) e : forall t k, In k t -> In k (snd (run c e t)).
Proof.
  induction c as [a|k' f IH]; intros t k Hk; cbn; [exact Hk|].
  apply IH. apply In_add. auto.
Qed.

Lemma run_stack_union {A} (c : comp A) e : forall t ts,
  run_stack c e (map (fun s => union s t) ts) =
  (fst (run c e t), map (fun s => union s (snd (run c e t))) ts).
Proof.
  induction c as [a|k f IH]; intros t ts; cbn; [reflexivity|].
  rewrite map_map, (map_ext _ _ (fun s => add_union k s t)). apply IH.
Qed.

Section SemProofs.
  Variable R : Type.
  Variable genv : env.
  Variable body : str -> prog R.

  Notation res := (res R).
  Notation runp := (runp R genv).
  Notation call := (call R genv body).

  Lemma runp_mono {cf p e t sub a t' sub'} :
    runp cf p e t sub = Ok (a, t', sub') -> incl t t' /\ incl sub sub'.
  Proof.
    revert t sub. induction p as [a0| |k f IH|r inh ov f IH]; intros t sub Hr; cbn [Model.runp] in Hr.
    - injection Hr as -> -> ->. split; apply incl_refl.
    - discriminate.
    - apply IH in Hr as [H1 H2]. split; [|exact H2]. intros x Hx. apply H1, In_add. auto.
    - destruct (cf r (callee_env genv inh ov e)) as [[[a1 tc] subc]| |]; try discriminate.
      apply IH in Hr as [H1 H2]. split.
      + intros x Hx. apply H1. destruct inh; [apply In_union; auto | exact Hx].
      + intros x Hx. apply H2, In_sunion. auto.
  Qed.

  (* the conclusion is [True]: nothing is stated.  That the touched set of an
     inheriting dependency lands in the own set is [runp_mono] with [In_union],
     as [runp_frame] uses them. *)
  Lemma runp_callee_touch cf p e : forall t sub a t' sub',
    runp cf p e t sub = Ok (a, t', sub') -> True.
  Proof. trivial. Qed.

  Lemma callee_env_agree inh ov e e' tc :
    (inh = true -> agree_on tc e e') ->
    agree_on tc (callee_env genv inh ov e) (callee_env genv inh ov e').
  Proof.
    intros Hag k Hk. unfold callee_env. destruct (ov_lookup k ov); [reflexivity|].
    destruct inh; [apply Hag; auto | reflexivity].
  Qed.

  (* [cf], [cf']: two ways of calculating the dependencies of one body; [sub0]:
     the trees met so far.  [same_fuel]: with another fuel [cf'] is followed only
     while it finishes; with the same fuel it finishes because [cf] did. *)
  Lemma runp_frame (cf cf' : str -> env -> res) (same_fuel : Prop) st e e' :
    (forall r1 e1 e1' a1 t1 sub1, cf r1 e1 = Ok (a1, t1, sub1) -> agree_on t1 e1 e1' ->
       same_fuel \/ cf' r1 e1' <> OutOfFuel ->
       cf' r1 e1' = if sintersects st (r1 :: sub1) then Err else Ok (a1, t1, sub1)) ->
    forall p t0 sub0 a t sub,
      runp cf p e t0 sub0 = Ok (a, t, sub) -> agree_on t e e' -> sintersects st sub0 = false ->
      same_fuel \/ runp cf' p e' t0 sub0 <> OutOfFuel ->
      runp cf' p e' t0 sub0 = if sintersects st sub then Err else Ok (a, t, sub).
  Proof.
    intros Hcf. induction p as [a0| |k f IH|r1 inh ov f IH]; intros t0 sub0 a t sub Hr Hag Hd Hn;
      cbn [Model.runp] in Hr, Hn |- *.
    - injection Hr as <- <- <-. now rewrite Hd.
    - discriminate.
    - rewrite <- (Hag k) in Hn |- *; [apply IH; assumption|..]; apply (runp_mono Hr), In_add; auto.
    - destruct (cf r1 (callee_env genv inh ov e)) as [[[a1 t1] sub1]| |] eqn:E; try discriminate.
      destruct (runp_mono Hr) as [Ht Hs].
      assert (Ec : cf' r1 (callee_env genv inh ov e') =
                   if sintersects st (r1 :: sub1) then Err else Ok (a1, t1, sub1)).
      { apply (Hcf _ _ _ _ _ _ E).
        - apply callee_env_agree. intros -> k Hk. apply Hag, Ht, In_union. auto.
        - destruct Hn as [Hf|Hn]; [left; exact Hf | right; intro Eo; now rewrite Eo in Hn]. }
      rewrite Ec in Hn |- *. destruct (sintersects st (r1 :: sub1)) eqn:Ei.
      + rewrite (sintersects_incl _ _ _ Hs); [reflexivity|]. rewrite sintersects_sunion, Ei. apply orb_true_r.
      + apply IH; auto. now rewrite sintersects_sunion, Hd.
  Qed.

  (* The two tests of the conclusion are the two cycle checks of Recipe.prepare
     ([r] on the stack; the stack with [r] pushed meets the tree below [r]).
     The fuel: with the same fuel the other calculation finishes too, with
     another one it gives the same answer if it finishes. *)
  Theorem call_frame {m st r e a t sub} :
    call m st r e = Ok (a, t, sub) ->
    forall m' st' e', agree_on t e e' -> m' = m \/ call m' st' r e' <> OutOfFuel ->
      call m' st' r e' = if smem r st' || sintersects (r :: st') sub then Err else Ok (a, t, sub).
  Proof.
    revert st r e a t sub. induction m as [|m IH]; intros st r e a t sub Hc; [discriminate|].
    intros [|m'] st' e' Hag Hn; [destruct Hn as [Hn|Hn]; [discriminate | now destruct Hn]|].
    cbn [Model.call] in Hc, Hn |- *. destruct (smem r st); [discriminate|].
    destruct (smem r st'); [reflexivity|].
    apply (runp_frame (call m (r :: st)) _ (m' = m) _ e); trivial using sintersects_nil_r.
    - intros r1 e1 e1' a1 t1 sub1 E Hag1 Hn1.
      rewrite (IH _ _ _ _ _ _ E _ _ _ Hag1 Hn1), sintersects_swap_head; [reflexivity|].
      (* on the stack it was calculated on the dependency was not cyclic: it is not in its own tree *)
      pose proof (IH _ _ _ _ _ _ E m (r :: st) e1 (fun k _ => eq_refl) (or_introl eq_refl)) as D.
      rewrite E, sintersects_cons_l in D.
      destruct (smem r1 sub1); [|reflexivity]. rewrite orb_true_r in D. discriminate D.
    - destruct Hn as [[= ->]|Hn]; auto.
  Qed.
End SemProofs.

Section MemoProofs.
  Variable R : Type.
  Variable rid : R -> idt.
  Variable fp : key -> idt -> idt.
  Variable genv : env.
  Variable body : str -> prog R.
  Variable merge : bool.

  Notation runp := (runp R genv).
  Notation call := (call R genv body).
  Notation res := (res R).
  Notation mres := (mres R).
  Notation runm := (runm R genv).
  Notation callm := (callm R rid fp genv body true merge).
  Notation mstate := (mstate R).
  Notation entry := (entry R).

  Definition fp_determines : Prop := forall k a b, fp k a = fp k b -> a = b.

  Definition rid_determines_subtree : Prop :=
    forall r m st e a t s m' st' e' a' t' s',
      call m st r e = Ok (a, t, s) -> call m' st' r e' = Ok (a', t', s') -> rid a = rid a' -> a = a'.

  Hypothesis Hfp : fp_determines.
  Hypothesis Hrid : merge = true -> rid_determines_subtree.

  Lemma find_match_spec r e l x :
    find_match R fp r e l = Some x -> In x l /\ en_recipe x = r /\ snap_matches fp (en_snap x) e = true.
  Proof.
    induction l as [|y q IH]; cbn; [discriminate|].
    destruct (eqb_str (en_recipe y) r && snap_matches fp (en_snap y) e) eqn:E.
    - intros [= <-]. apply andb_true_iff in E as [E1 E2]. apply eqb_str_spec in E1. auto.
    - intro Hx. apply IH in Hx as [H1 H2]. auto.
  Qed.

  Lemma find_byid_spec r i l a :
    find_byid R rid r i l = Some a -> In (r, a) l /\ rid a = i.
  Proof.
    induction l as [|[r' a'] q IH]; cbn; [discriminate|].
    destruct (eqb_str r' r && idt_eqb (rid a') i) eqn:E.
    - intros [= <-]. apply andb_true_iff in E as [E1 E2].
      apply eqb_str_spec in E1. apply idt_eqb_spec in E2. subst. auto.
    - intro Hx. apply IH in Hx as [H1 H2]. auto.
  Qed.

  Lemma mksnap_keys t e : map fst (mksnap fp t e) = t.
  Proof. unfold mksnap. rewrite map_map. apply map_id. Qed.

  Lemma snap_matches_agree t e0 e : snap_matches fp (mksnap fp t e0) e = true -> agree_on t e0 e.
  Proof.
    unfold snap_matches, mksnap. rewrite forallb_forall. intros Hx k Hk.
    specialize (Hx _ (in_map (fun k0 => (k0, option_map (fp k0) (e0 k0))) _ _ Hk)). cbn in Hx.
    destruct (e0 k) as [a|], (e k) as [b|]; cbn in Hx; try discriminate; [|reflexivity].
    apply idt_eqb_spec in Hx. exact (f_equal Some (Hfp k a b Hx)).
  Qed.

  Definition entry_ok (x : entry) : Prop :=
    exists m st e t, call m st (en_recipe x) e = Ok (en_res x, t, en_sub x) /\ en_snap x = mksnap fp t e.
  Definition byid_ok (ra : str * R) : Prop :=
    exists m st e t s, call m st (fst ra) e = Ok (snd ra, t, s).
  Definition inv (M : mstate) : Prop := Forall entry_ok (ms_match M) /\ Forall byid_ok (ms_byid M).

  Lemma inv_empty : inv mempty.
  Proof. split; constructor. Qed.

  Lemma hit_sound {M x r e st n} :
    inv M -> find_match R fp r e (ms_match M) = Some x -> smem r st = false ->
    call n st r e <> OutOfFuel ->
    call n st r e =
    if sintersects (r :: st) (en_sub x) then Err else Ok (en_res x, map fst (en_snap x), en_sub x).
  Proof.
    intros [HM _] Ef Hst Hn. apply find_match_spec in Ef as (Hin & <- & Hm).
    destruct (proj1 (Forall_forall _ _) HM _ Hin) as (m & st0 & e0 & t & Hc & Hs).
    rewrite Hs in Hm |- *. rewrite mksnap_keys.
    rewrite (call_frame _ _ _ Hc n st e (snap_matches_agree _ _ _ Hm) (or_intror Hn)), Hst. reflexivity.
  Qed.

  Lemma merge_same {M r a m st e t sub a0} :
    inv M -> call m st r e = Ok (a, t, sub) ->
    (if merge then find_byid R rid r (rid a) (ms_byid M) else None) = Some a0 -> a0 = a.
  Proof.
    intros [_ HM] Hc Ho. destruct merge eqn:Emg; [|discriminate].
    apply find_byid_spec in Ho as [Hin Hid].
    destruct (proj1 (Forall_forall _ _) HM _ Hin) as (m0 & st0 & e0 & t0 & s0 & H0).
    symmetry. eapply (Hrid eq_refl); [exact Hc | exact H0 | now symmetry].
  Qed.

  (* [f], a memoised computation as a function of the table, gives the plain answer [o] *)
  Definition sound (o : res) (f : mstate -> mres) : Prop :=
    o <> OutOfFuel -> forall M, inv M -> exists M', f M = (o, M') /\ inv M'.

  Lemma runm_sound cf cfm e : (forall r' e', sound (cf r' e') (fun M => cfm M r' e')) ->
    forall p t sub, sound (runp cf p e t sub) (runm cfm p e t sub).
  Proof.
    intros Hcf. induction p as [a0| |k f IHp|r' inh ov f IHp]; intros t sub Hn M HM;
      cbn [Model.runm Model.runp] in *.
    1, 2: exists M; exact (conj eq_refl HM).
    - apply IHp; assumption.
    - assert (Hc : cf r' (callee_env genv inh ov e) <> OutOfFuel) by (intro E; now rewrite E in Hn).
      destruct (Hcf r' _ Hc M HM) as (M1 & -> & I1).
      destruct (cf r' (callee_env genv inh ov e)) as [[[a1 tc] subc]| |];
        [apply IHp; assumption | exists M1; exact (conj eq_refl I1) ..].
  Qed.

  Lemma callm_sound : forall n st r e, sound (call n st r e) (fun M => callm n st M r e).
  Proof.
    induction n as [|n IH]; intros st r e Hn M HM; [now destruct Hn|].
    cbn [Model.callm]. destruct (smem r st) eqn:Er.
    { exists M. cbn [Model.call]. rewrite Er. exact (conj eq_refl HM). }
    assert (Hcall : call (S n) st r e = runp (call n (r :: st)) (body r) e [] []).
    { cbn [Model.call]. now rewrite Er. }
    destruct (find_match R fp r e (ms_match M)) as [x|] eqn:Ef.
    - exists M. rewrite (hit_sound HM Ef Er Hn).
      destruct (sintersects (r :: st) (en_sub x)); exact (conj eq_refl HM).
    - rewrite Hcall in Hn.
      destruct (runm_sound _ (fun M' => callm n (r :: st) M') e (IH (r :: st)) (body r) [] [] Hn M HM)
        as (M1 & -> & I1).
      rewrite <- Hcall.
      destruct (call (S n) st r e) as [[[a t] sub]| |] eqn:Hplain; [|exists M1; exact (conj eq_refl I1) ..].
      (* the plain calculation just followed is what justifies the new entries *)
      assert (Hent : entry_ok {| en_recipe := r; en_snap := mksnap fp t e; en_res := a; en_sub := sub |}).
      { exists (S n), st, e, t. split; [exact Hplain|reflexivity]. }
      destruct (if merge then find_byid R rid r (rid a) (ms_byid M1) else None) as [a0|] eqn:Ho;
        [rewrite (merge_same I1 Hplain Ho)|]; (eexists; split; [reflexivity|]).
      + split; [constructor; [exact Hent|]|]; apply I1.
      + split; (constructor; [|apply I1]); [exact Hent|]. exists (S n), st, e, t, sub. exact Hplain.
  Qed.

  Theorem history_memo_plain n : forall cs M,
    inv M ->
    (forall o, In o (history_plain R genv body n cs) -> o <> OutOfFuel) ->
    history_memo R rid fp genv body true merge n M cs = history_plain R genv body n cs.
  Proof.
    induction cs as [|[r e] q IH]; intros M HM Hne; [reflexivity|].
    cbn [Model.history_memo history_plain map fst snd] in *.
    destruct (callm_sound n [] r e (Hne _ (or_introl eq_refl)) M HM) as (M' & -> & I1).
    apply f_equal, IH; [exact I1|]. intros o' Ho'. apply Hne. now right.
  Qed.
End MemoProofs.

Section YamlProofs.
  Variable data : Type.
  Variable parse : list N -> list N -> data.
  Variable H : list N -> list N.

  (* the stat assumption: within the history, a file name with an unchanged
     stat record (ctime, mtime, dev, inode, mode, size, schema tag) has unchanged content *)
  Definition stat_faithful (l : list (str * list N * list N)) : Prop :=
    forall n s c c', In (n, s, c) l -> In (n, s, c') l -> c = c'.

  Lemma stat_faithful_fun (g : str * list N -> list N) l :
    Forall (fun x => snd x = g (fst x)) l -> stat_faithful l.
  Proof.
    rewrite Forall_forall. intros Hg n s c c' H1 H2. apply Hg in H1, H2. cbn in *. congruence.
  Qed.

  Definition yinv (all : list (str * list N * list N)) (cur : list N) (c : ycache data) : Prop :=
    (forall v, yc_vsn data c = Some v -> v = cur) /\
    forall x content, In x (yc_tab data c) -> In (y_name data x, y_stat data x, content) all ->
      y_digest data x = H content /\ y_data data x = parse cur content.

  Lemma yinv_empty all cur : yinv all cur (yempty data).
  Proof. split; [discriminate|intros x content []]. Qed.

  Lemma yinv_purged all vsn : yinv all vsn {| yc_vsn := Some vsn; yc_tab := [] |}.
  Proof. split; [now intros v [= <-] | intros x content []]. Qed.

  Lemma y_find_spec name stat l x :
    y_find data name stat l = Some x -> In x l /\ y_name data x = name /\ y_stat data x = stat.
  Proof.
    induction l as [|y q IH]; cbn; [discriminate|].
    destruct (eqb_str (y_name data y) name && eqb_str (y_stat data y) stat) eqn:E.
    - intros [= <-]. apply andb_true_iff in E as [E1 E2].
      apply eqb_str_spec in E1. apply eqb_str_spec in E2. auto.
    - intro Hx. apply IH in Hx as (H1 & H2 & H3). auto.
  Qed.

  Theorem y_run_plain all : stat_faithful all -> forall evs cur c,
    yinv all cur c -> incl (y_loads evs) all ->
    y_run data parse H cur c evs = y_plain data parse H cur evs.
  Proof.
    intro Hsf. induction evs as [|[vsn|name stat content] q IH]; intros cur c [Hv Ht] Hin; [reflexivity| |];
      cbn [y_run y_step y_plain y_loads] in *.
    - (* the table survives only if it already belongs to [vsn] *)
      apply f_equal, IH; [|exact Hin].
      destruct (yc_vsn data c) as [v|] eqn:Ev; [destruct (eqb_str v vsn) eqn:E|]; [|apply yinv_purged..].
      apply eqb_str_spec in E. rewrite <- E, (Hv v eq_refl). split; [now rewrite Ev|exact Ht].
    - apply incl_cons_inv in Hin as [Hl Hin].
      destruct (y_find data name stat (yc_tab data c)) as [x|] eqn:Ef.
      + apply y_find_spec in Ef as (Hx & <- & <-). destruct (Ht _ _ Hx Hl) as [-> ->].
        apply f_equal, IH; [split|]; assumption.
      + apply f_equal, IH; [|exact Hin]. split; [exact Hv|]. cbn. intros y c' [<-|Hy].
        * (* the stat assumption is used when the entry is made *)
          cbn. intro Hc'. rewrite (Hsf _ _ _ _ Hl Hc'). auto.
        * apply filter_In in Hy. apply Ht, Hy.
  Qed.

  Lemma y_files_plain : forall evs cur acc,
    y_files data evs (y_plain data parse H cur evs) acc = y_session H evs acc.
  Proof.
    induction evs as [|[vsn|name stat content] q IH]; intros cur acc; [reflexivity| |];
      cbn [y_plain y_files y_session]; apply IH.
  Qed.
End YamlProofs.
