(* C04 — property theorems about the key of the persisted package cache
   (.bob-packages*.pickle) and of the query graph cache (.bob-tree.sqlite3),
   with a non-vacuity example. *)
From Coq Require Import List NArith Bool.
Require Import BobV.Ids.Model BobV.Ids.Proofs BobV.C04.KeyModel BobV.C04.KeyProofs.
Import ListNotations.
Open Scope N_scope.

(* P2. The cache key determines everything it is computed from — the Bob source
   hash, the set of files the parser read with the digests of their contents,
   the root environment (defaults, config files, -D) and the sandbox switch —
   or the two keys exhibit a SHA-1 collision (collision-extraction form; SHA-1
   is never assumed injective). *)
Theorem cache_key_complete : forall (H : bytes -> bytes),
  (forall x, length (H x) = 20%nat) ->
  forall a b : keyin, wf_keyin a -> wf_keyin b -> cache_key H a = cache_key H b ->
  a = b \/ collision H (key_bytes H a) (key_bytes H b)
        \/ collision H (files_bytes (ki_files a)) (files_bytes (ki_files b)).
Proof.
  intros H Hlen a b Ha Hb E.
  destruct (hash_eq H _ _ E) as [Ek|C]; [|right; left; exact C].
  destruct (key_bytes_eq H Hlen a b Ha Hb Ek) as [Eab|C]; [left; exact Eab | right; right; exact C].
Qed.

(* the list of (file name, content digest) pairs is encoded injectively: a file
   appearing, disappearing or changing its digest changes the hashed bytes *)
Theorem files_digest_input_injective : forall a b : list (str * bytes),
  Forall wf_file a -> Forall wf_file b -> files_bytes a = files_bytes b -> a = b.
Proof. exact (flat_map_injective _ _ _ p_file_rt enc_file_nonempty). Qed.

Definition k0 : keyin :=
  {| ki_bobhash := repeat 7 20;
     ki_files := [([100; 46; 121], repeat 1 20); ([114; 47; 233; 46; 121], repeat 2 20)];
     ki_rootenv := [([65], [49]); ([66], [8364; 32])];
     ki_sandbox := true |}.
Definition k1 : keyin :=       (* the same without the second file *)
  {| ki_bobhash := repeat 7 20;
     ki_files := [([100; 46; 121], repeat 1 20)];
     ki_rootenv := [([65], [49]); ([66], [8364; 32])];
     ki_sandbox := true |}.

Example cache_key_nonvacuous :
  wf_keyin k0 /\ wf_keyin k1 /\ k0 <> k1
  /\ dec_key (key_bytes (fun _ => repeat 0 20) k0)
     = Some (ki_bobhash k0, repeat 0 20, ki_rootenv k0, [1]).
Proof.
  split; [|split; [|split; [discriminate | vm_compute; reflexivity]]]; repeat constructor.
Qed.
