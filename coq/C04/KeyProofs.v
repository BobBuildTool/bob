(* C04 — the bytes whose digest is the cache key can be read back: a parser for
   one file entry ([p_file]) and one for the whole ([dec_key]), each with its
   round trip.  Hence [key_bytes] determines its input, except that the file
   list enters through a digest of its own ([key_bytes_eq]). *)
From Coq Require Import List NArith Bool.
Require Import BobV.Ids.Model BobV.Ids.Proofs BobV.C04.KeyModel.
Import ListNotations.
Open Scope N_scope.

Lemma flat_map_injective {A} (enc : A -> bytes) (p : bytes -> option (A * bytes)) (wf : A -> Prop) :
  (forall x r, wf x -> p (enc x ++ r) = Some (x, r)) -> (forall x, enc x <> []) ->
  forall a b, Forall wf a -> Forall wf b -> flat_map enc a = flat_map enc b -> a = b.
Proof.
  intros Hp Hne. induction a as [|x a IH]; intros [|y b] Ha Hb E; cbn [flat_map] in E.
  - reflexivity.
  - symmetry in E. apply app_eq_nil in E as [E _]. now apply Hne in E.
  - apply app_eq_nil in E as [E _]. now apply Hne in E.
  - pose proof (Hp x (flat_map enc a) (Forall_inv Ha)) as P. rewrite E, (Hp y _ (Forall_inv Hb)) in P.
    injection P as -> E'. apply f_equal, IH; eauto using Forall_inv_tail.
Qed.

Definition wf_file (f : str * bytes) : Prop := wf_str (fst f) /\ length (snd f) = 20%nat.

Definition p_file (l : bytes) : option ((str * bytes) * bytes) :=
  obind (p_lstr l) (fun n r => obind (p_take 20 r) (fun d r' => Some ((n, d), r'))).

Lemma p_file_rt f r : wf_file f -> p_file (enc_file f ++ r) = Some (f, r).
Proof.
  intros [Hn Hd]. unfold p_file.
  replace (enc_file f ++ r) with (enc_lstr (fst f) ++ snd f ++ r)
    by (unfold enc_file, enc_lstr; now rewrite <- !app_assoc).
  rewrite (p_lstr_rt _ _ Hn). cbn [obind]. rewrite (p_take_len _ _ _ Hd). now destruct f.
Qed.

Lemma enc_file_nonempty f : enc_file f <> [].
Proof. unfold enc_file, le32. discriminate. Qed.

(* 20: BOB_INPUT_HASH of a development checkout is a SHA-1 digest (getBobInputHash,
   pym/bob/__init__.py) and [key_bytes] writes it without a length, so [dec_key]
   splits it off by size.  A pip-installed Bob takes its version string instead: left out. *)
Definition wf_keyin (k : keyin) : Prop :=
  length (ki_bobhash k) = 20%nat /\ Forall wf_file (ki_files k)
  /\ Forall wf_ent (ki_rootenv k) /\ small (llen (ki_rootenv k)).

Section KeyHash.
  Variable H : bytes -> bytes.
  Hypothesis Hlen : forall x, length (H x) = 20%nat.

  Definition dec_key (l : bytes) :=
    obind (p_take 20 l) (fun bh r1 =>
    obind (p_take 20 r1) (fun fd r2 =>
    obind (de32 r2) (fun n r3 =>
    obind (p_many p_ent (N.to_nat n) r3) (fun ents r4 => Some (bh, fd, ents, r4))))).

  Lemma dec_key_rt k : wf_keyin k ->
    dec_key (key_bytes H k) =
    Some (ki_bobhash k, H (files_bytes (ki_files k)), ki_rootenv k, [if ki_sandbox k then 1 else 0]).
  Proof.
    intros (Hb & _ & He & Hs). unfold dec_key, key_bytes.
    rewrite (p_take_len _ _ _ Hb). cbn [obind]. rewrite (p_take_len _ _ _ (Hlen _)). cbn [obind].
    rewrite (p_counted_rt enc_envent (fun x => x) p_ent wf_ent _ p_ent_rt _ _ _ Hs He eq_refl).
    now rewrite map_id.
  Qed.

  Lemma key_bytes_eq a b : wf_keyin a -> wf_keyin b -> key_bytes H a = key_bytes H b ->
    a = b \/ collision H (files_bytes (ki_files a)) (files_bytes (ki_files b)).
  Proof.
    intros Ha Hb E. pose proof (dec_key_rt b Hb) as D. rewrite <- E, (dec_key_rt a Ha) in D.
    injection D as E1 E2 E3 E4.
    destruct (hash_eq H _ _ E2) as [Ef|C]; [left | right; exact C].
    apply (flat_map_injective _ _ _ p_file_rt enc_file_nonempty) in Ef; [|apply Ha|apply Hb].
    assert (E5 : ki_sandbox a = ki_sandbox b) by (destruct (ki_sandbox a), (ki_sandbox b); congruence).
    clear - E1 Ef E3 E5. destruct a, b; cbn in *. congruence.
  Qed.
End KeyHash.
