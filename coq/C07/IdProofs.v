(* C07 — the id side: what an equal Build-Id says about the inputs of two steps.
   The encoder itself (Ids/Model.v build_id) and its round-trip parsers
   (Ids/Proofs.v) are imported, not copied. *)
From Coq Require Import List NArith Bool Permutation.
Require Import BobV.Common.Sha1 BobV.Ids.Model BobV.Ids.Proofs BobV.Gen.ConstsC07.
Import ListNotations.
Open Scope N_scope.

Lemma sha1_length x : length (sha1 x) = 20%nat.
Proof. unfold sha1. destruct (blocks _ _ _) as [[[[h0 h1] h2] h3] h4]. reflexivity. Qed.

(* the step a Build-Id describes, with the weak flags dropped *)
Definition strip_tool (nt : str * (tool * bool)) : str * tool := (fst nt, fst (snd nt)).

Definition strip_bid (s : bidin) : stepin :=
  {| si_fp_sandbox := None; si_script := bi_script s; si_tools := map strip_tool (bi_tools s);
     si_env := bi_env s; si_args := bi_args s |}.

Definition no_weak (s : bidin) : Prop := Forall (fun nt => snd (snd nt) = false) (bi_tools s).
Definition platform_ok (p : bytes) : Prop := Forall (fun c => c <> 0) p.
Definition wf_bidin (s : bidin) : Prop := wf_stepin (strip_bid s) /\ platform_ok (bi_platform s).

Lemma enc_btool_strong nt : snd (snd nt) = false -> enc_btool nt = enc_tool (snd (strip_tool nt)).
Proof. destruct nt as [n [t w]]. cbn [snd]. intros ->. reflexivity. Qed.

Lemma bid_recipes_strip s :
  no_weak s -> bid_recipes s = bi_platform s ++ enc_recipes (strip_bid s).
Proof.
  intros NW.
  assert (E : flat_map enc_tool (sorted_tools (strip_bid s)) = flat_map enc_btool (sort_by fst (bi_tools s))).
  { unfold sorted_tools, strip_bid. cbn [si_tools].
    rewrite <- (sort_by_map strip_tool fst fst (fun z => eq_refl)), !flat_map_concat_map, !map_map. apply f_equal.
    apply map_ext_in. intros nt Hin. symmetry. apply enc_btool_strong.
    apply (proj1 (Forall_forall _ _) NW).
    eapply Permutation_in; [apply sort_by_perm | exact Hin]. }
  unfold bid_recipes, enc_recipes. rewrite E. unfold strip_bid, sorted_env, llen. cbn [si_script si_tools si_env si_args].
  now rewrite map_length.
Qed.

(* nothing marks the end of the platform tag in bid_recipes but the twenty zero bytes of the former sandbox
   slot that follow it (intermediate.py getDigestCoro): a tag without a zero byte ends where they begin *)
Lemma split_platform p1 p2 x y :
  platform_ok p1 -> platform_ok p2 -> p1 ++ zeros20 ++ x = p2 ++ zeros20 ++ y -> p1 = p2 /\ x = y.
Proof.
  revert p2. induction p1 as [|c p1 IH]; intros [|d p2] H1 H2 E.
  - cbn [app] in E. apply app_inv_head in E. auto.
  - exfalso. injection E as E0 _. exact (Forall_inv H2 (eq_sym E0)).
  - exfalso. injection E as E0 _. exact (Forall_inv H1 E0).
  - injection E as -> E. destruct (IH p2 (Forall_inv_tail H1) (Forall_inv_tail H2) E) as [-> ->]. auto.
Qed.

(* Steps with weakly used tools are excluded: their names are hashed without delimiter
   (Properties.weak_tool_names_ambiguous) and their variants not at all
   (Ids.Properties_C03.build_id_relaxes_weak_tools). *)
Lemma bid_recipes_injective a b :
  no_weak a -> no_weak b -> wf_bidin a -> wf_bidin b -> bid_recipes a = bid_recipes b ->
  bi_platform a = bi_platform b /\ core (strip_bid a) = core (strip_bid b).
Proof.
  intros Na Nb [Wa Pa] [Wb Pb] E. rewrite (bid_recipes_strip a Na), (bid_recipes_strip b Nb) in E.
  repeat rewrite <- app_assoc in E.
  apply split_platform in E; auto. destruct E as [E1 E2]. split; [exact E1|].
  apply enc_recipes_injective_proof; auto. unfold enc_recipes. repeat rewrite <- app_assoc. apply f_equal, E2.
Qed.

(* the names of weakly used tools enter the Build-Id without any delimiter *)
Definition wk (n : str) : str * (tool * bool) := (n, ({| t_vid := repeat 7 20; t_path := []; t_libs := [] |}, true)).
Definition weak_a : bidin :=
  {| bi_sandbox := None; bi_script := [120]; bi_tools := [wk [97]; wk [98; 99]]; bi_env := []; bi_args := [];
     bi_platform := []; bi_fingerprint := [] |}.
Definition weak_b : bidin :=
  {| bi_sandbox := None; bi_script := [120]; bi_tools := [wk [97; 98]; wk [99]]; bi_env := []; bi_args := [];
     bi_platform := []; bi_fingerprint := [] |}.
