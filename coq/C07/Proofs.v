(* C07 — proofs about the download decision logic.

   What a phase of one package step may change is said by a relation between the state before and
   after, closed under composition: [calm] for the Build-Id phase (workspaces, marks and archive stay,
   source ids are only added, no package event), [upd id] for prepare, download and package step of
   node id (other workspaces, the marks and the source ids stay), [eff S] for a whole traversal
   (workspaces and marks outside S stay, marks only accumulate).  [cook_rules] is the
   induction over cook / cook_items, done once: a relation between start state and result that is
   reflexive, closed under sequencing and holds of every phase holds of the traversal.  The effect
   [eff], the restart measure and the audit property are instances; [invoke_rule] does the same for the
   restart loop.  What a traversal marks ([cook_marks]) and what it leaves alone are thus known without
   any hypothesis.  Correctness is the invariant [Inv], with two flags and the set [ids] of ids a node
   may be filed under, and [invoke_inv]; there the package step of a node needs what the earlier phases
   of the same node established, so [cook_post] is an induction of its own over the same phase lemmas,
   carrying nothing but the invariant.  The last section runs the root's step in a fresh workspace for
   the uploader / downloader pair. *)
From Coq Require Import List NArith Bool Lia.
Require BobV.Common.ListFacts.
Require Import BobV.Common.Cases BobV.C07.Model BobV.C07.Spec.
Import ListNotations.
Open Scope N_scope.

Lemma eqb_list_eq {A} (e : A -> A -> bool) :
  (forall x y, e x y = true <-> x = y) -> forall a b, eqb_list e a b = true <-> a = b.
Proof.
  intros He a b. rewrite ListFacts.eqb_list_is. apply ListFacts.list_eqb_eq.
  intros x y. apply iff_reflect. symmetry. apply He.
Qed.

Lemma beqb_eq a b : beqb a b = true <-> a = b.
Proof. apply eqb_list_eq, N.eqb_eq. Qed.

Lemma beqb_refl a : beqb a a = true.
Proof. now apply beqb_eq. Qed.

Lemma beqb_neq a b : beqb a b = false <-> a <> b.
Proof. rewrite <- beqb_eq. destruct (beqb a b); split; congruence. Qed.

Lemma eqb_option_N a v : eqb_option N.eqb a (Some v) = true -> a = Some v.
Proof. destruct a as [x|]; cbn; [|discriminate]. intros H. apply N.eqb_eq in H. now subst. Qed.

Lemma memN_In k l : memN k l = true <-> In k l.
Proof. exact (ListFacts.mem_In _ _ N.eqb_spec k l). Qed.

Lemma memN_cons k x l : memN k (x :: l) = true <-> k = x \/ memN k l = true.
Proof. cbn. now rewrite orb_true_iff, N.eqb_eq. Qed.

Lemma lookupB_cons_same {A} k (v : A) l : lookupB k ((k, v) :: l) = Some v.
Proof. cbn. now rewrite beqb_refl. Qed.

Lemma lookupB_cons_other {A} k k' (v : A) l : k <> k' -> lookupB k ((k', v) :: l) = lookupB k l.
Proof. intros H. cbn. apply beqb_neq in H. now rewrite H. Qed.

Lemma lookupN_cons_same {A} k (v : A) l : lookupN k ((k, v) :: l) = Some v.
Proof. cbn. now rewrite N.eqb_refl. Qed.

Lemma lookupN_cons_other {A} k k' (v : A) l : k <> k' -> lookupN k ((k', v) :: l) = lookupN k l.
Proof. intros H. cbn. apply N.eqb_neq in H. now rewrite H. Qed.

Lemma getws_putws_same id w st : getws id (putws id w st) = w.
Proof. unfold getws, putws. cbn [ws set_ws]. now rewrite lookupN_cons_same. Qed.

Lemma getws_putws_other id id' w st : id' <> id -> getws id' (putws id w st) = getws id' st.
Proof. intros H. unfold getws, putws. cbn [ws set_ws]. now rewrite lookupN_cons_other. Qed.

Lemma getws_ev id e st : getws id (ev e st) = getws id st.
Proof. reflexivity. Qed.

Scheme pkg_mind := Induction for pkg Sort Prop
  with items_mind := Induction for items Sort Prop.
Combined Scheme pkg_items_mutind from pkg_mind, items_mind.

Fixpoint kids (its : items) : list pkg :=
  match its with
  | INil => []
  | ISrc rest => kids rest
  | IDep q _ _ rest => q :: kids rest
  end.

Lemma nodes_self p : In p (nodes p).
Proof. destruct p. now left. Qed.

Lemma nodes_trans :
  (forall p q x, In q (nodes p) -> In x (nodes q) -> In x (nodes p)) /\
  (forall its q x, In q (nodes_items its) -> In x (nodes q) -> In x (nodes_items its)).
Proof.
  apply pkg_items_mutind.
  - intros r its IH q x Hq Hx. destruct Hq as [<-|Hq]; [exact Hx|].
    right. eapply IH; eauto.
  - intros q x [].
  - intros rest IH q x Hq Hx. eauto.
  - intros p IHp weak dd rest IHr q x Hq Hx. cbn in *. apply in_app_iff in Hq. apply in_app_iff.
    destruct Hq as [Hq|Hq]; [left; eapply IHp; eauto | right; eapply IHr; eauto].
Qed.

Lemma kids_in_nodes its q : In q (kids its) -> In q (nodes_items its).
Proof.
  induction its as [|rest IH|p weak dd rest IH]; cbn; [auto..|].
  intros [<-|H]; apply in_app_iff; [left; apply nodes_self | right; auto].
Qed.

Lemma items_in_pkg r its q : In q (nodes_items its) -> In q (nodes (Pkg r its)).
Proof. intros H. now right. Qed.

Fixpoint psize (p : pkg) : nat :=
  match p with Pkg _ its => S (isize its) end
with isize (its : items) : nat :=
  match its with
  | INil => O
  | ISrc rest => isize rest
  | IDep q _ _ rest => (psize q + isize rest)%nat
  end.

Lemma nodes_size :
  (forall p q, In q (nodes p) -> (psize q <= psize p)%nat) /\
  (forall its q, In q (nodes_items its) -> (psize q <= isize its)%nat).
Proof.
  apply pkg_items_mutind.
  - intros r its IH q [<-|H]; [lia|]. apply IH in H. cbn. lia.
  - intros q [].
  - intros rest IH q H. auto.
  - intros p IHp weak dd rest IHr q H. cbn in *. apply in_app_iff in H. destruct H as [H|H].
    + apply IHp in H. lia.
    + apply IHr in H. lia.
Qed.

Lemma not_own_descendant r its : ~ In (Pkg r its) (nodes_items its).
Proof. intros H. apply (proj2 nodes_size) in H. cbn in H. lia. Qed.

Section Steps.
  Variable hashW : bytes -> bytes.
  Variable bidf : recipe -> option bytes -> list bytes -> bytes.
  Variable run_build : recipe -> list bytes -> bytes.
  Variable run_pkg : recipe -> bytes -> bytes.
  Variable c : cfg.

  Local Notation cook := (cook hashW bidf run_build run_pkg c).
  Local Notation cook_items := (cook_items hashW bidf run_build run_pkg c).
  Local Notation get_bid := (get_bid bidf c).
  Local Notation get_bid_items := (get_bid_items bidf c).
  Local Notation download := (download hashW c).
  Local Notation local_step := (local_step hashW run_build run_pkg c).
  Local Notation L := (local run_build run_pkg).

  Definition dl_phase (r : recipe) (d : N) (b : bytes) (st2 : state) : dlres :=
    if memN (r_id r) (tried st2) then DlDone false st2
    else match download r d b st2 with
         | DlDone g s => DlDone g (set_tried s (r_id r :: tried s))
         | e => e
         end.

  Definition finish (r : recipe) (its : items) (d : N) (b : bytes) (s1 : state) : res :=
    if memN (r_id r) (wasrun s1) then Ok s1 else
    let '(built, s2) := local_step r its b s1 in
    let s3 := set_wasrun s2 (r_id r :: wasrun s2) in
    Ok (if built then upload c r d b s3 else s3).

  Definition pkg_step (r : recipe) (its : items) (d : N) (b : bytes) (st2 : state) : res :=
    match dl_phase r d b st2 with
    | DlErr e s => Err e s
    | DlDone true s => Ok (set_wasrun s (r_id r :: wasrun s))
    | DlDone false s =>
      match cook_items d r its s with
      | Ok s1 => finish r its d b s1
      | other => other
      end
    end.

  Lemma cook_eq d r its st :
    cook d (Pkg r its) st =
    if memN (r_id r) (wasrun st) then Ok st else
    let '(b, st2) := get_bid (Pkg r its) (unshare r (prepare r st)) in pkg_step r its d b st2.
  Proof. reflexivity. Qed.

  Lemma cook_items_nil d r st : cook_items d r INil st = Ok st.
  Proof. reflexivity. Qed.

  Lemma cook_items_src d r rest st :
    cook_items d r (ISrc rest) st =
    match cook_checkout c r st with Ok s => cook_items d r rest s | other => other end.
  Proof. reflexivity. Qed.

  Lemma cook_items_dep d r q weak dd rest st :
    cook_items d r (IDep q weak dd rest) st =
    match cook (d + dd) q st with Ok s => cook_items d r rest s | other => other end.
  Proof. reflexivity. Qed.

  Lemma get_bid_eq r its st :
    get_bid (Pkg r its) st =
    match lookupN (r_id r) (bdids st) with
    | Some b => (b, st)
    | None =>
      let '(sb, kb, st1) := get_bid_items r its st in
      (bidf r sb kb, set_bdids st1 ((r_id r, bidf r sb kb) :: bdids st1))
    end.
  Proof. reflexivity. Qed.

  Lemma get_bid_items_src r rest st :
    get_bid_items r (ISrc rest) st =
    let '(b, st1) := src_bid c r st in
    let '(_, kb, st2) := get_bid_items r rest st1 in (Some b, kb, st2).
  Proof. reflexivity. Qed.

  Lemma get_bid_items_dep r q weak dd rest st :
    get_bid_items r (IDep q weak dd rest) st =
    let '(b, st1) := get_bid q st in
    let '(sb, kb, st2) := get_bid_items r rest st1 in
    (sb, if weak then kb else b :: kb, st2).
  Proof. reflexivity. Qed.

  Definition keeps (st st' : state) : Prop :=
    ws st' = ws st /\ wasrun st' = wasrun st /\ tried st' = tried st /\ arch st' = arch st.

  Definition grows (st s : state) : Prop :=
    forall id v, lookupN id (srcids st) = Some v -> lookupN id (srcids s) = Some v.

  Definition src_step (st s : state) : Prop :=
    keeps st s /\ grows st s /\ bdids s = bdids st.

  Definition nopkg (st : state) : Prop := forall e, In e (trace st) -> is_package_event e = false.

  Definition calm (st s : state) : Prop := keeps st s /\ grows st s /\ (nopkg st -> nopkg s).

  Lemma grows_refl st : grows st st.
  Proof. intros id v H. exact H. Qed.

  Lemma grows_trans a b d : grows a b -> grows b d -> grows a d.
  Proof. intros A B id v H. apply B, A, H. Qed.

  Lemma calm_refl st : calm st st.
  Proof. split; [repeat split | split; [apply grows_refl | auto]]. Qed.

  Lemma calm_trans a b d : calm a b -> calm b d -> calm a d.
  Proof.
    intros ((A1 & A2 & A3 & A4) & G1 & N1) ((B1 & B2 & B3 & B4) & G2 & N2).
    split; [repeat split; congruence | split; [eapply grows_trans; eauto | auto]].
  Qed.

  Lemma calm_same st s s' :
    calm st s -> ws s' = ws s -> wasrun s' = wasrun s -> tried s' = tried s -> arch s' = arch s ->
    srcids s' = srcids s -> trace s' = trace s -> calm st s'.
  Proof. intros C E1 E2 E3 E4 E5 E6. unfold calm, keeps, grows, nopkg in *. now rewrite E1, E2, E3, E4, E5, E6. Qed.

  Lemma calm_ev e st s : is_package_event e = false -> calm st s -> calm st (ev e s).
  Proof.
    intros He (K & G & N). split; [exact K | split; [exact G|]]. intros H x [<-|Hx]; [exact He | now apply N].
  Qed.

  Lemma calm_add_srcid st s k v : lookupN k (srcids s) = None -> calm st s -> calm st (set_srcids s ((k, v) :: srcids s)).
  Proof.
    intros E (K & G & N). split; [exact K | split; [|exact N]]. intros id w H. apply G in H. cbn.
    destruct (N.eqb id k) eqn:B; [|exact H]. apply N.eqb_eq in B. congruence.
  Qed.

  Lemma do_checkout_calm r st : calm st (do_checkout c r st) /\ srcids (do_checkout c r st) = srcids st.
  Proof.
    unfold do_checkout. destruct (memN (r_src r) (corun st)); [split; [apply calm_refl | reflexivity]|].
    assert (H : calm st (ev (ECheckout (r_src r)) (set_srcx st (r_src r :: srcx st)))).
    { apply calm_ev; [reflexivity|]. now apply (calm_same _ _ _ (calm_refl st)). }
    destruct (negb (memN (r_src r) (srcx st)) && c_can_upload c && r_haslive r); [destruct (r_livecalc r)|];
      (split; [|reflexivity]); now apply (calm_same _ _ _ H).
  Qed.

  Lemma live_calm r st :
    let q := match r_live r with Some l => translate c l st | None => (None, st) end in
    calm st (snd q) /\ srcids (snd q) = srcids st.
  Proof.
    destruct (r_live r) as [l|]; cbn zeta; [unfold translate|split; [apply calm_refl | reflexivity]].
    destruct (lookupB l (trc st)); [split; [apply calm_refl | reflexivity]|].
    destruct (c_can_download c); [destruct (lookupB l (archl st))|]; (split; [apply (calm_same _ _ _ (calm_refl st))|]; reflexivity).
  Qed.

  Lemma src_bid_calm r st : calm st (snd (src_bid c r st)).
  Proof.
    unfold src_bid. destruct (lookupN (r_src r) (srcids st)) as [[b0 pr]|] eqn:E; [apply calm_refl|].
    pose proof (do_checkout_calm r st) as [C0 S0].
    destruct (negb (memN (r_src r) (srcx st)) && r_haslive r && c_can_download c).
    - pose proof (live_calm r st) as [C1 S1].
      destruct (match r_live r with Some l => translate c l st | None => (None, st) end) as [t s0]. cbn [snd] in C1, S1.
      destruct t; cbn [snd].
      + apply calm_add_srcid; [cbn; congruence | now apply calm_ev].
      + destruct (do_checkout_calm r (ev (EQuery (r_src r) false) s0)) as [C2 S2].
        apply calm_add_srcid; [rewrite S2; cbn; congruence|]. eapply calm_trans; [|exact C2]. now apply calm_ev.
    - apply calm_add_srcid; [congruence | exact C0].
  Qed.

  Lemma get_bid_calm :
    (forall p st, calm st (snd (get_bid p st))) /\
    (forall its r st, calm st (snd (get_bid_items r its st))).
  Proof.
    apply pkg_items_mutind.
    - intros r its IH st. rewrite get_bid_eq. destruct (lookupN (r_id r) (bdids st)); [apply calm_refl|].
      specialize (IH r st). destruct (get_bid_items r its st) as [[sb kb] s1]. cbn [snd] in *.
      now apply (calm_same _ _ _ IH).
    - intros r st. apply calm_refl.
    - intros rest IH r st. rewrite get_bid_items_src.
      pose proof (src_bid_calm r st) as C1. destruct (src_bid c r st) as [b s1]. specialize (IH r s1).
      destruct (get_bid_items r rest s1) as [[sb kb] s2]. eapply calm_trans; eauto.
    - intros p IHp weak dd rest IHr r st. rewrite get_bid_items_dep.
      specialize (IHp st). destruct (get_bid p st) as [b s1]. specialize (IHr r s1).
      destruct (get_bid_items r rest s1) as [[sb kb] s2]. eapply calm_trans; eauto.
  Qed.

  Definition upd (id : label) (st s : state) : Prop :=
    (forall id', id' <> id -> getws id' s = getws id' st) /\ wasrun s = wasrun st /\ srcids s = srcids st.

  Lemma upd_refl id st : upd id st st.
  Proof. repeat split. Qed.

  Lemma upd_putws id w st s : upd id st s -> upd id st (putws id w s).
  Proof. intros [U0 U1]. split; [intros id' H; rewrite <- (U0 id' H); now apply getws_putws_other | exact U1]. Qed.

  Lemma upd_ev id e st s : upd id st s -> upd id st (ev e s).
  Proof. intros U. exact U. Qed.

  Lemma upd_wasrun id st s : upd id st s -> wasrun s = wasrun st.
  Proof. intros U. apply U. Qed.

  Lemma upd_srcids id st s : upd id st s -> srcids s = srcids st.
  Proof. intros U. apply U. Qed.

  Lemma prepare_upd r st : upd (r_id r) st (prepare r st).
  Proof.
    unfold prepare.
    destruct (w_exists (getws (r_id r) st) && negb (eqb_option N.eqb (s_vid (getws (r_id r) st)) (Some (r_vid r)))).
    - apply upd_putws, upd_ev, upd_refl.
    - destruct (w_exists (getws (r_id r) st)); [|apply upd_putws]; apply upd_refl.
  Qed.

  Lemma pre_upd r st : upd (r_id r) st (unshare r (prepare r st)).
  Proof.
    unfold unshare. destruct (d_shared _); [apply upd_putws, upd_ev|]; apply prepare_upd.
  Qed.

  Lemma dl_fetch_upd r d b wd w1 st st1 :
    upd (r_id r) st st1 ->
    match dl_fetch hashW c r d b wd w1 st1 with DlDone _ s | DlErr _ s => upd (r_id r) st s end.
  Proof.
    intros U. unfold dl_fetch, dl_check. destruct (s_result w1).
    - destruct wd; [apply upd_ev|]; apply upd_putws, U.
    - destruct (if c_can_download c then lookupB b (arch st1) else None) as [a|].
      + destruct (a_audit a) as [h|]; [destruct (beqb h (hashW (a_content a)))|]; apply upd_putws, upd_ev, U.
      + destruct (c_force_depth c <=? d); destruct (c_can_download c); apply upd_putws; try apply upd_ev; exact U.
  Qed.

  Lemma dl_phase_upd r d b st :
    match dl_phase r d b st with DlDone _ s | DlErr _ s => upd (r_id r) st s end.
  Proof.
    unfold dl_phase. destruct (memN (r_id r) (tried st)); [apply upd_refl|].
    assert (D : match download r d b st with DlDone _ s | DlErr _ s => upd (r_id r) st s end).
    { unfold Model.download. destruct (negb (try_download c r d)); [apply upd_refl|].
      destruct (bid_differs _ b || c_force c); apply dl_fetch_upd; [apply upd_ev|]; apply upd_refl. }
    destruct (download r d b st); exact D.
  Qed.

  Lemma local_step_upd r its b st : upd (r_id r) st (snd (local_step r its b st)).
  Proof.
    unfold Model.local_step.
    destruct (negb (c_force c) && _); apply upd_ev, upd_putws, upd_refl.
  Qed.

  Lemma upload_same r d b st :
    ws (upload c r d b st) = ws st /\ wasrun (upload c r d b st) = wasrun st /\ srcids (upload c r d b st) = srcids st.
  Proof.
    unfold upload. destruct (c_can_upload c && (d <=? c_upload_depth c)); [|auto].
    destruct (lookupB b (arch st)); auto.
  Qed.

  Definition sub_ids_items (its : items) : list label := map pid (nodes_items its).

  Definition frame (S : list label) (st st' : state) : Prop :=
    (forall id, ~ In id S -> getws id st' = getws id st) /\
    (forall id, ~ In id S -> memN id (wasrun st') = true -> memN id (wasrun st) = true).

  Lemma frame_putws id w st : frame [id] st (putws id w st).
  Proof.
    split; intros id' H; [|auto]. apply getws_putws_other. intros E. apply H. now left.
  Qed.

  Lemma frame_ev S e st : frame S st (ev e st).
  Proof. split; auto. Qed.

  Definition eff (S : list label) (st s : state) : Prop :=
    frame S st s /\ (forall id, memN id (wasrun st) = true -> memN id (wasrun s) = true).

  Lemma eff_refl S st : eff S st st.
  Proof. split; [split|]; auto. Qed.

  Lemma eff_trans S a b d : eff S a b -> eff S b d -> eff S a d.
  Proof.
    intros ([A1 A2] & A3) ([B1 B2] & B3). split; [split; intros id H; [rewrite B1, A1 | intros M]|]; auto.
  Qed.

  Lemma eff_same S st s : ws s = ws st -> wasrun s = wasrun st -> eff S st s.
  Proof. intros E1 E2. unfold eff, frame, getws. rewrite E1, E2. auto. Qed.

  Lemma calm_eff S st s : calm st s -> eff S st s.
  Proof. intros ((K1 & K2 & _) & _). now apply eff_same. Qed.

  Lemma upd_eff id S st s : In id S -> upd id st s -> eff S st s.
  Proof.
    intros Hi (U0 & U1 & _). unfold eff, frame. rewrite U1. split; [split|]; auto.
    intros id' H. apply U0. intros E. apply H. now subst.
  Qed.

  Lemma eff_mark id S st : In id S -> eff S st (set_wasrun st (id :: wasrun st)).
  Proof.
    intros Hi. split; [split; intros id' H; [reflexivity|] | intros id']; cbn [wasrun set_wasrun]; intros M.
    - apply memN_cons in M. destruct M as [->|M]; [contradiction | exact M].
    - apply memN_cons. now right.
  Qed.

  Definition res_eff (S : list label) (st : state) (x : res) : Prop :=
    match x with Ok s => eff S st s | _ => True end.

  (* [Q st x] relates the state before a traversal to its result; [ok] says which nodes may take
     package steps, [oks] which may run their checkout step *)
  Section Rule.
    Variable Q : state -> res -> Prop.
    Variables ok oks : recipe -> Prop.
    Hypothesis Q_refl : forall st, Q st (Ok st).
    Hypothesis Q_seq : forall st s x, Q st (Ok s) -> Q s x -> Q st x.
    Hypothesis Q_pre : forall r st, ok r -> Q st (Ok (unshare r (prepare r st))).
    Hypothesis Q_bid : forall p st, Q st (Ok (snd (get_bid p st))).
    Hypothesis Q_dl : forall r d b st, ok r ->
      Q st (match dl_phase r d b st with DlDone _ s => Ok s | DlErr e s => Err e s end).
    Hypothesis Q_mark : forall r st, ok r -> Q st (Ok (set_wasrun st (r_id r :: wasrun st))).
    Hypothesis Q_local : forall r its b st, ok r -> Q st (Ok (snd (local_step r its b st))).
    Hypothesis Q_upload : forall r d b st, ok r -> Q st (Ok (upload c r d b st)).
    Hypothesis Q_checkout : forall r st, oks r -> Q st (Ok (do_checkout c r st)).
    Hypothesis Q_changed : forall r st b, oks r -> lookupN (r_src r) (srcids st) = Some (b, true) ->
      Q st (Restart (handle_changed r st)).
    Hypothesis Q_internal : forall st, Q st Internal.

    Definition allowed (l : list pkg) : Prop :=
      forall q, In q l -> ok (recipe_of q) /\ (has_src (items_of q) = true -> oks (recipe_of q)).

    Lemma Q_bind st x (k : state -> res) :
      Q st x -> (forall s, Q s (k s)) ->
      Q st (match x with
            | Ok s => k s
            | Restart s => Restart s | Err e s => Err e s | Internal => Internal | OutOfFuel => OutOfFuel
            end).
    Proof. intros X K. destruct x; try exact X. exact (Q_seq _ _ _ X (K _)). Qed.

    Lemma cook_rules :
      (forall p d st, allowed (nodes p) -> Q st (cook d p st)) /\
      (forall its d r st, (has_src its = true -> oks r) -> allowed (nodes_items its) -> Q st (cook_items d r its st)).
    Proof.
      apply pkg_items_mutind.
      - intros r its IH d st A. rewrite cook_eq. destruct (memN (r_id r) (wasrun st)); [apply Q_refl|].
        destruct (A (Pkg r its) (nodes_self _)) as [Hok Hs]. cbn [recipe_of items_of] in Hok, Hs.
        apply (Q_seq _ _ _ (Q_pre r st Hok)).
        pose proof (Q_bid (Pkg r its) (unshare r (prepare r st))) as B.
        destruct (get_bid (Pkg r its) (unshare r (prepare r st))) as [b st2]. cbn [snd] in B.
        apply (Q_seq _ _ _ B). unfold pkg_step. pose proof (Q_dl r d b st2 Hok) as D.
        destruct (dl_phase r d b st2) as [[|] s|e s]; [|apply (Q_seq _ _ _ D)|exact D].
        + apply (Q_seq _ _ _ D). now apply Q_mark.
        + apply Q_bind; [apply IH; [exact Hs | intros q Hq; apply A, items_in_pkg, Hq] | intros s1].
          unfold finish. destruct (memN (r_id r) (wasrun s1)); [apply Q_refl|].
          pose proof (Q_local r its b s1 Hok) as Lc. destruct (local_step r its b s1) as [built s2]. cbn [snd] in Lc.
          apply (Q_seq _ _ _ Lc), (Q_seq _ _ _ (Q_mark r s2 Hok)). destruct built; [now apply Q_upload | apply Q_refl].
      - intros d r st _ _. apply Q_refl.
      - intros rest IH d r st Hs A. rewrite cook_items_src.
        apply Q_bind; [|intros s; apply IH; [intros _; now apply Hs | exact A]].
        unfold cook_checkout. destruct (memN (r_src r) (corun st)); [apply Q_refl|].
        apply (Q_seq _ _ _ (Q_checkout r st (Hs eq_refl))). unfold verify_src.
        destruct (lookupN (r_src r) (srcids (do_checkout c r st))) as [[b pr]|] eqn:E; [|apply Q_refl].
        destruct (beqb b (r_srcid r)); [apply Q_refl|].
        destruct pr; [apply (Q_changed r _ b (Hs eq_refl) E) | apply Q_internal].
      - intros p IHp weak dd rest IHr d r st Hs A. rewrite cook_items_dep.
        apply Q_bind; [apply IHp | intros s; apply IHr; [exact Hs|]];
          intros q Hq; apply A; cbn; apply in_app_iff; [now left | now right].
    Qed.

    Definition cook_rule := proj1 cook_rules.
    Definition cook_items_rule := proj2 cook_rules.
  End Rule.

  Lemma cook_items_eff its d r st : res_eff (sub_ids_items its) st (cook_items d r its st).
  Proof.
    set (S := sub_ids_items its).
    apply cook_items_rule with (ok := fun r => In (r_id r) S) (oks := fun _ => True).
    - intros st0. apply eff_refl.
    - intros st0 s x F G. destruct x; cbn in *; auto. eapply eff_trans; eauto.
    - intros r0 st0 H. apply (upd_eff (r_id r0)); [exact H | apply pre_upd].
    - intros p st0. apply calm_eff, (proj1 get_bid_calm).
    - intros r0 d0 b st0 H. pose proof (dl_phase_upd r0 d0 b st0) as U.
      destruct (dl_phase r0 d0 b st0); [now apply (upd_eff (r_id r0)) | exact I].
    - intros r0 st0. apply eff_mark.
    - intros r0 its0 b st0 H. apply (upd_eff (r_id r0)); [exact H | apply local_step_upd].
    - intros r0 d0 b st0 _. apply eff_same; apply (upload_same r0 d0 b st0).
    - intros r0 st0 _. apply calm_eff, do_checkout_calm.
    - intros; exact I.
    - intros st0. exact I.
    - auto.
    - intros q Hq. split; [exact (in_map pid _ _ Hq) | auto].
  Qed.

  Lemma cook_marks d p st : match cook d p st with Ok s => memN (pid p) (wasrun s) = true | _ => True end.
  Proof.
    destruct p as [r its]. change (pid (Pkg r its)) with (r_id r). rewrite cook_eq.
    destruct (memN (r_id r) (wasrun st)) eqn:M; [exact M|].
    destruct (get_bid _ _) as [b st2]. unfold pkg_step.
    assert (MK : forall x, memN (r_id r) (r_id r :: wasrun x) = true) by (intros x; apply memN_cons; now left).
    destruct (dl_phase r d b st2) as [[|] s0|e s0]; [apply MK | | exact I].
    destruct (cook_items d r its s0) as [s1|s1|e s1| |]; try exact I. unfold finish.
    destruct (memN (r_id r) (wasrun s1)) eqn:M1; [exact M1|].
    destruct (local_step r its b s1) as [[|] s2]; [rewrite (proj1 (proj2 (upload_same _ _ _ _)))|]; apply MK.
  Qed.

  Lemma cook_items_marks its d r st s :
    cook_items d r its st = Ok s -> forall q, In q (kids its) -> memN (pid q) (wasrun s) = true.
  Proof.
    revert st. induction its as [|rest IH|p weak dd rest IH]; intros st E q Hq; [destruct Hq | |].
    - rewrite cook_items_src in E. destruct (cook_checkout c r st); try discriminate. eauto.
    - rewrite cook_items_dep in E. pose proof (cook_marks (d + dd) p st) as K.
      destruct (cook (d + dd) p st) as [s1|s1|e s1| |]; try discriminate.
      destruct Hq as [<-|Hq]; [|eauto]. pose proof (cook_items_eff rest d r s1) as F. rewrite E in F. apply F, K.
  Qed.

  Definition verified (id : label) (st : state) : bool :=
    match lookupN id (srcids st) with Some (_, false) => true | _ => false end.

  Definition vmono (st s : state) : Prop := forall id, verified id st = true -> verified id s = true.

  Lemma grows_vmono st s : grows st s -> vmono st s.
  Proof.
    intros G id. unfold verified. destruct (lookupN id (srcids st)) as [v|] eqn:E; [|discriminate].
    now rewrite (G _ _ E).
  Qed.

  (* the checkout steps of a project; every restart verifies one more of them *)
  Definition srcs (root : pkg) : list label :=
    map (fun q => r_src (recipe_of q)) (filter (fun q => has_src (items_of q)) (nodes root)).

  Definition unverified (S : list label) (st : state) : nat :=
    length (filter (fun id => negb (verified id st)) S).

  Lemma unverified_mono S st s :
    vmono st s ->
    (unverified S s <= unverified S st)%nat /\
    (forall id, In id S -> verified id st = false -> verified id s = true -> (unverified S s < unverified S st)%nat).
  Proof.
    intros V. induction S as [|x S [IH1 IH2]]; cbn; [split; [apply le_n | intros id []]|].
    destruct (verified x st) eqn:E.
    - rewrite (V _ E). cbn. split; [exact IH1|]. intros id [->|Hi] F T0; [congruence | now apply (IH2 id)].
    - destruct (verified x s) eqn:E'; cbn.
      + split; [apply le_S, IH1 | intros _ _ _ _; apply le_n_S, IH1].
      + split; [apply le_n_S, IH1|]. intros id [->|Hi] F T0; [congruence | apply le_n_S, (IH2 id Hi F T0)].
  Qed.

  Lemma unverified_same S st s : srcids s = srcids st -> (unverified S s <= unverified S st)%nat.
  Proof. intros E. unfold unverified, verified. rewrite E. apply le_n. Qed.

  Definition rpost (S : list label) (st : state) (x : res) : Prop :=
    match x with
    | Ok s | Err _ s => (unverified S s <= unverified S st)%nat
    | Restart s => (unverified S s < unverified S st)%nat
    | Internal => True
    | OutOfFuel => False
    end.

  Lemma cook_rpost root d st : rpost (srcs root) st (cook d root st).
  Proof.
    set (S := srcs root).
    apply cook_rule with (ok := fun _ => True) (oks := fun r => In (r_src r) S).
    - intros st0. apply le_n.
    - intros st0 s [s'|s'|e s'| |]; cbn; lia.
    - intros r st0 _. apply unverified_same, (upd_srcids _ _ _ (pre_upd r st0)).
    - intros p st0. apply unverified_mono, grows_vmono, (proj1 get_bid_calm).
    - intros r d0 b st0 _. pose proof (dl_phase_upd r d0 b st0) as U.
      destruct (dl_phase r d0 b st0); apply unverified_same, (upd_srcids _ _ _ U).
    - intros r st0 _. now apply unverified_same.
    - intros r its b st0 _. apply unverified_same, (upd_srcids _ _ _ (local_step_upd r its b st0)).
    - intros r d0 b st0 _. apply unverified_same, (upload_same r d0 b st0).
    - intros r st0 _. apply unverified_same, do_checkout_calm.
    - (* a restart: the predicted id of this checkout step is replaced by the verified one *)
      intros r st0 b Hi E. apply (unverified_mono S st0) with (id := r_src r); [|exact Hi| |].
      + intros id H. unfold verified in *. cbn. destruct (N.eqb id (r_src r)); [reflexivity | exact H].
      + unfold verified. now rewrite E.
      + unfold verified. cbn. now rewrite N.eqb_refl.
    - intros st0. exact I.
    - intros q Hq. split; [exact I|]. intros Hs. apply (in_map (fun x => r_src (recipe_of x))), filter_In. now split.
  Qed.

  Lemma srcs_length :
    (forall p, (length (filter (fun q => has_src (items_of q)) (nodes p)) <= n_srcs p)%nat) /\
    (forall its, (length (filter (fun q => has_src (items_of q)) (nodes_items its)) + (if has_src its then 1 else 0)
                  <= n_srcs_items its)%nat).
  Proof.
    apply pkg_items_mutind.
    - intros r its IH. cbn [nodes filter items_of n_srcs]. destruct (has_src its); cbn [length]; lia.
    - cbn. lia.
    - intros rest IH. cbn [nodes_items has_src n_srcs_items]. destruct (has_src rest); lia.
    - intros p IHp weak dd rest IHr. cbn [nodes_items has_src n_srcs_items]. rewrite filter_app, app_length. lia.
  Qed.

  Lemma unverified_bound root st : (unverified (srcs root) st < S (n_srcs root))%nat.
  Proof.
    unfold unverified, srcs.
    pose proof (ListFacts.filter_length_le _ (fun id => negb (verified id st))
                  (map (fun q => r_src (recipe_of q)) (filter (fun q => has_src (items_of q)) (nodes root)))) as H.
    rewrite map_length in H. pose proof (proj1 srcs_length root). lia.
  Qed.

  (* an invocation is a chain of passes, each but the last asking for a restart, and the chain has at most
     n_srcs root restarts; so what holds of the last pass of every such chain holds of the invocation *)
  Lemma invoke_rule root (P : state -> Prop) (R : res -> Prop) :
    (forall st, P st -> match cook 0 root st with Restart s => P s | OutOfFuel => True | x => R x end) ->
    forall st0, P (begin_invocation st0) -> R (invoke hashW bidf run_build run_pkg c root st0).
  Proof.
    intros H st0. unfold invoke. pose proof (unverified_bound root (begin_invocation st0)) as B. revert B.
    generalize (begin_invocation st0). generalize (S (n_srcs root)).
    induction n as [|f IH]; intros st B Pst; [lia|]. cbn [cook_loop].
    specialize (H st Pst). pose proof (cook_rpost root 0 st) as M.
    destruct (cook 0 root st) as [s|s|e s| |]; try exact H; [|contradiction M].
    apply IH; [cbn in M; lia | exact H].
  Qed.

  Lemma download_checks r d b st a :
    try_download c r d = true -> c_can_download c = true -> lookupB b (arch st) = Some a ->
    s_result (getws (r_id r) st) = None \/
      bid_differs (dissect (s_inputs (getws (r_id r) st))) b = true \/ c_force c = true ->
    exists w1 st2, download r d b st = dl_check hashW r b a w1 st2 /\ s_result w1 = None /\
                   In (EDownload (r_id r) true) (trace st2) /\ (nopkg st -> nopkg st2).
  Proof.
    intros TRY CD LK H. unfold download. rewrite TRY. cbn [negb].
    destruct (bid_differs (dissect (s_inputs (getws (r_id r) st))) b || c_force c) eqn:PR.
    - unfold dl_fetch. cbn [pruned_pws reset_pws s_result]. rewrite CD. cbn [arch ev]. rewrite LK.
      eexists. eexists. split; [reflexivity|]. split; [reflexivity|]. split; [now left|].
      intros N e [<-|[<-|He]]; auto.
    - apply orb_false_iff in PR. destruct PR as [P1 P2]. destruct H as [H|[H|H]]; try congruence.
      unfold dl_fetch. cbn [touch_pws s_result]. rewrite H, CD, LK.
      eexists. eexists. split; [reflexivity|]. split; [exact H|]. split; [now left|].
      intros N e [<-|He]; auto.
  Qed.

  Lemma dl_check_rejects r b a w1 st2 :
    ~ wellformed hashW a ->
    exists e, dl_check hashW r b a w1 st2 = DlErr e (putws (r_id r) (extracted_pws a w1) st2) /\
              (e = ErrNoAudit \/ e = ErrCorrupt).
  Proof.
    intros NW. unfold dl_check, wellformed in *. destruct (a_audit a) as [h|]; [|eauto].
    destruct (beqb h (hashW (a_content a))) eqn:B; [|eauto].
    apply beqb_eq in B. subst. now contradiction NW.
  Qed.

  Lemma dl_check_accepts r b a w1 st2 :
    wellformed hashW a -> dl_check hashW r b a w1 st2 = DlDone true (putws (r_id r) (accepted_pws hashW r b a) st2).
  Proof. intros W. unfold dl_check. now rewrite W, beqb_refl. Qed.

  (* whatever is marked "downloaded" carries an audit trail that records the hash of exactly the tree in the workspace *)
  Definition audit_ok (st : state) : Prop :=
    forall id, match s_inputs (getws id st) with
               | PvBytes _ => w_audit (getws id st) = Some (hashW (w_content (getws id st)))
               | _ => True
               end.

  (* one workspace's share of audit_ok: [audit_ok st] is [forall id, pws_ok (getws id st)] by conversion,
     which is how the lemmas below pass from one to the other *)
  Definition pws_ok (w : pws) : Prop :=
    match s_inputs w with PvBytes _ => w_audit w = Some (hashW (w_content w)) | _ => True end.

  Lemma audit_ok_putws id w st : audit_ok st -> pws_ok w -> audit_ok (putws id w st).
  Proof.
    intros A W id'. destruct (N.eq_dec id' id) as [->|NE].
    - rewrite getws_putws_same. exact W.
    - rewrite getws_putws_other by exact NE. apply A.
  Qed.

  Lemma audit_ok_same st s : ws s = ws st -> audit_ok st -> audit_ok s.
  Proof. intros E A id. unfold getws. rewrite E. apply A. Qed.

  Lemma dl_fetch_audit r d b wd w1 st1 :
    audit_ok st1 -> pws_ok w1 ->
    match dl_fetch hashW c r d b wd w1 st1 with DlDone _ s => audit_ok s | DlErr _ _ => True end.
  Proof.
    intros A W. unfold dl_fetch. destruct (s_result w1).
    - destruct wd; apply audit_ok_putws; auto.
    - destruct (if c_can_download c then lookupB b (arch st1) else None) as [a|].
      + unfold dl_check. destruct (a_audit a) as [h|] eqn:AU; [|exact I].
        destruct (beqb h (hashW (a_content a))) eqn:B; [|exact I].
        apply beqb_eq in B. apply audit_ok_putws; [exact A|]. cbn. now rewrite AU, B.
      + destruct (c_force_depth c <=? d); [exact I|]. apply audit_ok_putws; [|exact W].
        destruct (c_can_download c); exact A.
  Qed.

  Lemma download_audit r d b st :
    audit_ok st -> match download r d b st with DlDone _ s => audit_ok s | DlErr _ _ => True end.
  Proof.
    intros A. unfold download. destruct (negb (try_download c r d)); [exact A|].
    destruct (bid_differs (dissect (s_inputs (getws (r_id r) st))) b || c_force c).
    - apply dl_fetch_audit; [exact A | exact I].
    - apply dl_fetch_audit; [exact A | apply (A (r_id r))].
  Qed.

  Lemma cook_audit p d st :
    audit_ok st -> match cook d p st with Ok s | Restart s => audit_ok s | _ => True end.
  Proof.
    apply cook_rule with (ok := fun _ => True) (oks := fun _ => True)
                         (Q := fun st x => audit_ok st -> match x with Ok s | Restart s => audit_ok s | _ => True end).
    - auto.
    - intros st0 s x H1 H2 A. apply H2, H1, A.
    - intros r st0 _ A.
      assert (A1 : audit_ok (prepare r st0)).
      { unfold prepare. destruct (w_exists (getws (r_id r) st0) && _); [|destruct (w_exists (getws (r_id r) st0)); [exact A|]];
          (apply audit_ok_putws; [exact A | exact I]). }
      unfold unshare. destruct (d_shared _); [|exact A1]. apply audit_ok_putws; [exact A1 | exact I].
    - intros q st0. apply audit_ok_same, (proj1 get_bid_calm).
    - intros r d0 b st0 _ A. unfold dl_phase. destruct (memN (r_id r) (tried st0)); [exact A|].
      pose proof (download_audit r d0 b st0 A) as DA. destruct (download r d0 b st0); [exact DA | exact I].
    - intros r st0 _ A. exact A.
    - intros r its b st0 _ A. unfold local_step. destruct (negb (c_force c) && _);
        (apply audit_ok_putws; [exact A|]); [apply (A (r_id r)) | exact I].
    - intros r d0 b st0 _. apply audit_ok_same, (upload_same r d0 b st0).
    - intros r st0 _. apply audit_ok_same, do_checkout_calm.
    - intros r st0 b _ _ A. exact A.
    - intros st0 _. exact I.
    - intros q _. now split.
  Qed.

  (* A Build-Id function (f on nodes, g on items) that follows the recursion of tbid_sa with the source
     ids given by F is what tbid_sa computes under any belief that agrees with F.  Both tbid_sa under
     another belief and tbid are such functions. *)
  Lemma tbid_sa_unique (F : recipe -> bytes) (f : pkg -> bytes) (g : items -> list bytes) :
    (forall r its, f (Pkg r its) = bidf r (if has_src its then Some (F r) else None) (g its)) ->
    g INil = [] -> (forall rest, g (ISrc rest) = g rest) ->
    (forall q weak dd rest, g (IDep q weak dd rest) = if weak then g rest else f q :: g rest) ->
    (forall p sa, (forall x, In x (nodes p) -> has_src (items_of x) = true -> sa (r_src (recipe_of x)) = F (recipe_of x)) ->
                  tbid_sa bidf sa p = f p) /\
    (forall its sa, (forall x, In x (nodes_items its) -> has_src (items_of x) = true -> sa (r_src (recipe_of x)) = F (recipe_of x)) ->
                    tbid_sa_items bidf sa its = g its).
  Proof.
    intros Ef En Es Ed. apply pkg_items_mutind.
    - intros r its IH sa H. cbn [tbid_sa]. rewrite Ef. apply f_equal2.
      + destruct (has_src its) eqn:E; [|reflexivity]. apply f_equal, (H (Pkg r its)); [apply nodes_self | exact E].
      + apply IH. intros x Hx. apply H, items_in_pkg, Hx.
    - intros sa _. now rewrite En.
    - intros rest IH sa H. rewrite Es. apply IH. exact H.
    - intros p IHp weak dd rest IHr sa H. rewrite Ed. cbn [tbid_sa_items].
      assert (E1 : tbid_sa_items bidf sa rest = g rest).
      { apply IHr. intros x Hx. apply H. cbn. apply in_app_iff. now right. }
      destruct weak; [exact E1|]. apply f_equal2; [|exact E1].
      apply IHp. intros x Hx. apply H. cbn. apply in_app_iff. now left.
  Qed.

  Lemma tbid_sa_ext p sa1 sa2 :
    (forall x, In x (nodes p) -> has_src (items_of x) = true -> sa1 (r_src (recipe_of x)) = sa2 (r_src (recipe_of x))) ->
    tbid_sa bidf sa1 p = tbid_sa bidf sa2 p.
  Proof. now apply (tbid_sa_unique (fun r => sa2 (r_src r)) (tbid_sa bidf sa2) (tbid_sa_items bidf sa2)). Qed.

  Lemma tbid_sa_right p sa : right_on sa p -> tbid_sa bidf sa p = tbid bidf p.
  Proof. now apply (tbid_sa_unique r_srcid (tbid bidf) (tbid_items bidf)). Qed.
  Section Correct.
    Variable root : pkg.
    (* [strict]: the live build-id translations are known to be right.  With
       [strict := True] this gives download_equals_local, with [strict := False]
       the convergence after wrong predictions. *)
    Variable strict : Prop.
    (* [allwf]: switched on for the uploader of other_workspace_zero_builds only (uploader_publishes), so that
       the artifact it leaves is known to be well-formed when the downloader fetches it *)
    Variable allwf : Prop.
    (* [ids p b]: b is an id under which an artifact or a recorded download of node p has to hold p's result:
       every id derived from a belief that counts (under [strict]: one that is right below p), and equal
       ids mean equal results wherever uploads happen *)
    Variable ids : pkg -> bytes -> Prop.

    Local Notation Tsa := (tbid_sa bidf).
    Local Notation NN := (nodes root).
    Local Notation wellformed := (wellformed hashW).

    Hypothesis Huniq : uniq_ids root.
    Hypothesis Hsrc : src_consistent root.
    Hypothesis Hlive : strict -> live_consistent root.
    Hypothesis Hids : forall p sa, In p NN -> (strict -> right_on sa p) -> ids p (Tsa sa p).
    Hypothesis Hsound : strict -> forall p q b, In p NN -> In q NN -> ids p b -> ids q b -> L p = L q.
    (* under a wrong belief an upload would store the result under a wrong Build-Id *)
    Hypothesis Hup : strict \/ c_can_upload c = false.

    Definition sa_of (st : state) : label -> bytes :=
      fun id => match lookupN id (srcids st) with Some (b, _) => b | None => [] end.

    Definition covered (p : pkg) (st : state) : Prop :=
      forall q, In q (nodes p) -> has_src (items_of q) = true -> lookupN (r_src (recipe_of q)) (srcids st) <> None.

    (* what an entry of bdids promises: the memo invariant of the Build-Id phase.  It speaks of the belief of st and
       is used up to get_bid_inv only; the rest of a node's step knows [ids p b] (get_bid_ids) *)
    Definition is_bid (p : pkg) (b : bytes) (st : state) : Prop := b = Tsa (sa_of st) p /\ covered p st.

    Definition trusted_g (p : pkg) (w : pws) : Prop :=
      s_vid w = Some (r_vid (recipe_of p)) ->
      match s_inputs w with
      | PvList (b :: ins) => ins = true_ins hashW run_build run_pkg p -> w_content w = L p
      | PvBytes b => ids p b -> w_content w = L p
      | _ => True
      end.

    Record Inv (st : state) : Prop := {
      inv_run : forall p, In p NN -> memN (pid p) (wasrun st) = true -> w_content (getws (pid p) st) = L p;
      inv_trust : forall p, In p NN -> trusted_g p (getws (pid p) st);
      inv_src : forall p b pr, In p NN -> has_src (items_of p) = true ->
                               lookupN (r_src (recipe_of p)) (srcids st) = Some (b, pr) -> pr = false \/ strict ->
                               b = r_srcid (recipe_of p);
      inv_bd : forall p b, In p NN -> lookupN (pid p) (bdids st) = Some b -> is_bid p b st;
      inv_tr : strict -> translations_right root st;
      inv_arch : forall p b a, In p NN -> ids p b -> lookupB b (arch st) = Some a -> wellformed a -> a_content a = L p;
      inv_wf : allwf -> all_wellformed hashW (arch st)
    }.

    Lemma sub_in p q : In p NN -> In q (nodes p) -> In q NN.
    Proof. intros Hp Hq. eapply (proj1 nodes_trans); eauto. Qed.

    (* an item list met in a traversal of the project: a tail of the items of a node with recipe r *)
    Definition inside (r : recipe) (its : items) : Prop :=
      (has_src its = true -> exists its0, In (Pkg r its0) NN /\ has_src its0 = true) /\
      (forall q, In q (nodes_items its) -> In q NN).

    Lemma inside_node r its : In (Pkg r its) NN -> inside r its.
    Proof. intros Hp. split; [intros Hs; exists its; auto | intros q Hq; apply (sub_in _ _ Hp), items_in_pkg, Hq]. Qed.

    Lemma inside_dep r q weak dd rest : inside r (IDep q weak dd rest) -> In q NN /\ inside r rest.
    Proof.
      intros [Hs Hk]. split; [apply Hk; cbn; apply in_app_iff; left; apply nodes_self|].
      split; [exact Hs | intros x Hx; apply Hk; cbn; apply in_app_iff; now right].
    Qed.

    Lemma Inv_fields st s :
      Inv st -> ws s = ws st -> wasrun s = wasrun st -> srcids s = srcids st -> bdids s = bdids st ->
      trc s = trc st -> archl s = archl st -> arch s = arch st -> Inv s.
    Proof.
      intros I E1 E2 E3 E4 E5 E6 E7. destruct st, s. cbn in *. subst.
      destruct I. constructor; assumption.
    Qed.

    Lemma Inv_ev e st : Inv st -> Inv (ev e st).
    Proof. intros I. now apply (Inv_fields st). Qed.

    Lemma Inv_set_wasrun st p :
      Inv st -> In p NN -> w_content (getws (pid p) st) = L p -> Inv (set_wasrun st (pid p :: wasrun st)).
    Proof.
      intros I Hp Hc. destruct I. constructor; try assumption.
      intros q Hq M. apply memN_cons in M. destruct M as [M|M]; [|apply inv_run0; assumption].
      rewrite (Huniq q p Hq Hp M). exact Hc.
    Qed.

    Lemma Inv_set_bdids st p b :
      Inv st -> In p NN -> is_bid p b st -> Inv (set_bdids st ((pid p, b) :: bdids st)).
    Proof.
      intros I Hp Hb. destruct I. constructor; try assumption.
      intros q b0 Hq. cbn. destruct (N.eqb (pid q) (pid p)) eqn:B; [|now apply inv_bd0].
      apply N.eqb_eq in B. rewrite (Huniq q p Hq Hp B). now intros [= <-].
    Qed.

    Lemma Inv_set_trc st l b : Inv st -> lookupB l (archl st) = Some b -> Inv (set_trc st ((l, b) :: trc st)).
    Proof.
      intros I E. destruct I. constructor; try assumption.
      intros S p l' x Hp Hl. cbn. intros [H|H]; [|apply (inv_tr0 S p l' x Hp Hl); now right].
      destruct (beqb l' l) eqn:B; [|apply (inv_tr0 S p l' x Hp Hl); now left].
      apply beqb_eq in B. subst l'. apply (inv_tr0 S p l x Hp Hl). right. congruence.
    Qed.

    Lemma is_bid_grows p b st s : grows st s -> is_bid p b st -> is_bid p b s.
    Proof.
      (* for the id and for the coverage alike: a covered source id is known in st, and s keeps it *)
      intros G [-> C]. split; [apply tbid_sa_ext; unfold sa_of|]; intros q Hq Hs; specialize (C q Hq Hs);
        (destruct (lookupN (r_src (recipe_of q)) (srcids st)) as [v|] eqn:E; [|congruence]); now rewrite (G _ _ E).
    Qed.

    Section Source.
      Variables (r : recipe) (its0 : items).
      Hypothesis Hr : In (Pkg r its0) NN.
      Hypothesis Hs0 : has_src its0 = true.

      (* the uploader publishes the live build-id it computed from the checked-out sources *)
      Lemma Inv_set_archl st l :
        Inv st -> r_livecalc r = Some l -> Inv (set_archl st ((l, r_srcid r) :: archl st)).
      Proof.
        intros I LC. destruct I. constructor; try assumption.
        intros S p l' x Hp Hl. cbn. intros [H|H]; [apply (inv_tr0 S p l' x Hp Hl); now left|].
        destruct (beqb l' l) eqn:B; [|apply (inv_tr0 S p l' x Hp Hl); now right].
        apply beqb_eq in B. subst l'. injection H as <-. apply (Hlive S p (Pkg r its0) l Hp Hr LC Hl).
      Qed.

      Lemma do_checkout_inv st : Inv st -> Inv (do_checkout c r st).
      Proof.
        intros I. unfold do_checkout. destruct (memN (r_src r) (corun st)); [exact I|].
        assert (I1 : Inv (ev (ECheckout (r_src r)) (set_srcx st (r_src r :: srcx st)))) by (now apply (Inv_fields st)).
        assert (CR : forall s x, Inv s -> Inv (set_corun s x)) by (intros s x Is; now apply (Inv_fields s)).
        destruct (negb (memN (r_src r) (srcx st)) && c_can_upload c && r_haslive r); [destruct (r_livecalc r) as [l|] eqn:LC|];
          apply CR; [apply Inv_set_archl; assumption | exact I1 | exact I1].
      Qed.

      Lemma live_inv st :
        Inv st ->
        let q := match r_live r with Some l => translate c l st | None => (None, st) end in
        Inv (snd q) /\ (forall x, fst q = Some x -> strict -> x = r_srcid r).
      Proof.
        intros I. destruct (r_live r) as [l|] eqn:LV; cbn zeta; [unfold translate|split; [exact I | discriminate]].
        destruct (lookupB l (trc st)) as [b|] eqn:E1.
        - split; [exact I|]. intros x [= <-] S. apply (inv_tr st I S (Pkg r its0) l b Hr LV). now left.
        - destruct (c_can_download c); [destruct (lookupB l (archl st)) as [b|] eqn:E2|]; (split; [|cbn; try discriminate]); try exact I.
          + now apply Inv_set_trc.
          + intros x [= <-] S. apply (inv_tr st I S (Pkg r its0) l b Hr LV). now right.
      Qed.

      Lemma add_srcid_inv st b pr :
        Inv st -> lookupN (r_src r) (srcids st) = None ->
        (pr = false \/ strict -> b = r_srcid r) ->
        let s := set_srcids st ((r_src r, (b, pr)) :: srcids st) in
        Inv s /\ exists pr', lookupN (r_src r) (srcids s) = Some (b, pr').
      Proof.
        intros I E F. split; [|exists pr; apply lookupN_cons_same].
        destruct (calm_add_srcid st st (r_src r) (b, pr) E (calm_refl st)) as (_ & G & _).
        destruct I. constructor; try assumption.
        - intros p b0 pr0 Hp Hsp. cbn. destruct (N.eqb (r_src (recipe_of p)) (r_src r)) eqn:B; [|apply inv_src0; assumption].
          apply N.eqb_eq in B. destruct (Hsrc p (Pkg r its0) Hp Hr Hsp Hs0 B) as [-> _]. intros [= <- <-]. exact F.
        - intros p b0 Hp Hb. apply (is_bid_grows _ _ st); auto.
      Qed.

      Lemma src_bid_inv st :
        Inv st ->
        let '(b, s) := src_bid c r st in Inv s /\ exists pr, lookupN (r_src r) (srcids s) = Some (b, pr).
      Proof.
        intros I. unfold src_bid. destruct (lookupN (r_src r) (srcids st)) as [[b0 pr]|] eqn:E; [eauto|].
        destruct (negb (memN (r_src r) (srcx st)) && r_haslive r && c_can_download c).
        - pose proof (live_inv st I) as [I0 A]. pose proof (proj2 (live_calm r st)) as S0.
          destruct (match r_live r with Some l => translate c l st | None => (None, st) end) as [[x|] s0]; cbn [fst snd] in I0, A, S0.
          + apply add_srcid_inv; [now apply Inv_ev | cbn; congruence | intros [F|S]; [discriminate | now apply A]].
          + apply add_srcid_inv; [now apply do_checkout_inv, Inv_ev | | reflexivity].
            rewrite (proj2 (do_checkout_calm r _)). cbn. congruence.
        - apply add_srcid_inv; [now apply do_checkout_inv | | reflexivity]. now rewrite (proj2 (do_checkout_calm r st)).
      Qed.

    End Source.

    (* in the second part [Pkg r its] stands for the part of the node that [its] is a tail of *)
    Lemma get_bid_inv :
      (forall p st, In p NN -> Inv st ->
          let '(b, s) := get_bid p st in Inv s /\ is_bid p b s) /\
      (forall its r st, inside r its -> Inv st ->
          let '(sb, kb, s) := get_bid_items r its st in
          Inv s /\ sb = (if has_src its then Some (sa_of s (r_src r)) else None) /\
          kb = tbid_sa_items bidf (sa_of s) its /\ covered (Pkg r its) s).
    Proof.
      apply pkg_items_mutind.
      - intros r its IH st Hp I. rewrite get_bid_eq.
        destruct (lookupN (r_id r) (bdids st)) as [b0|] eqn:E; [exact (conj I (inv_bd st I _ _ Hp E))|].
        specialize (IH r st (inside_node r its Hp) I).
        destruct (get_bid_items r its st) as [[sb kb] s1]. destruct IH as (I1 & -> & -> & C).
        assert (B : is_bid (Pkg r its) (Tsa (sa_of s1) (Pkg r its)) s1) by (now split).
        split; [now apply (Inv_set_bdids s1 (Pkg r its)) | exact B].
      - intros r st _ I. split; [exact I|]. split; [reflexivity|]. split; [reflexivity|].
        intros q [<-|[]]. discriminate.
      - intros rest IH r st [Hs Hk] I. rewrite get_bid_items_src.
        destruct (Hs eq_refl) as (its0 & Hr & Hs0).
        pose proof (src_bid_inv r its0 Hr Hs0 st I) as X. destruct (src_bid c r st) as [b s1]. destruct X as (I1 & pr & L1).
        specialize (IH r s1 (conj (fun _ => Hs eq_refl) Hk) I1). pose proof (proj2 get_bid_calm rest r s1) as (_ & G & _).
        destruct (get_bid_items r rest s1) as [[sb kb] s]. cbn [snd] in G. destruct IH as (I2 & _ & Ekb & C).
        apply G in L1. split; [exact I2|]. split; [cbn [has_src]; unfold sa_of; now rewrite L1|].
        split; [exact Ekb|]. intros q [<-|Hq] Hsrc0; [cbn; congruence | apply C; [now right | exact Hsrc0]].
      - intros p IHp weak dd rest IHr r st Hin I. rewrite get_bid_items_dep.
        destruct (inside_dep _ _ _ _ _ Hin) as [Hp Hin'].
        specialize (IHp st Hp I). destruct (get_bid p st) as [b s1]. destruct IHp as (I1 & B1).
        specialize (IHr r s1 Hin' I1).
        pose proof (proj2 get_bid_calm rest r s1) as (_ & G & _).
        destruct (get_bid_items r rest s1) as [[sb kb] s]. cbn [snd] in G. destruct IHr as (I2 & Esb & -> & C).
        destruct (is_bid_grows p b s1 s G B1) as [-> C1].
        split; [exact I2|]. split; [exact Esb|]. split; [cbn [tbid_sa_items]; destruct weak; reflexivity|].
        intros q [<-|Hq] Hsrc0; [exact (C _ (or_introl eq_refl) Hsrc0)|]. cbn in Hq. apply in_app_iff in Hq.
        destruct Hq as [Hq|Hq]; [exact (C1 q Hq Hsrc0) | apply C; [now right | exact Hsrc0]].
    Qed.

    Lemma get_bid_ids p st : In p NN -> Inv st -> let '(b, s) := get_bid p st in Inv s /\ ids p b.
    Proof.
      intros Hp I0. pose proof (proj1 get_bid_inv p st Hp I0) as GI. destruct (get_bid p st) as [b s].
      destruct GI as (I & -> & C). split; [exact I|]. apply Hids; [exact Hp|]. intros S q Hq Hs. specialize (C q Hq Hs).
      unfold sa_of. destruct (lookupN (r_src (recipe_of q)) (srcids s)) as [[b pr]|] eqn:E; [|congruence].
      apply (inv_src s I q b pr); auto. eapply sub_in; eauto.
    Qed.

    Definition vid_ok (r : recipe) (st : state) : Prop := s_vid (getws (r_id r) st) = Some (r_vid r).

    Lemma trusted_none p w : s_inputs w = PvNone -> trusted_g p w.
    Proof. intros E _. now rewrite E. Qed.

    Lemma kid_contents_local its st :
      (forall q, In q (kids its) -> w_content (getws (pid q) st) = L q) ->
      kid_contents its st = local_items run_build run_pkg its /\
      tool_hashes hashW its st = tool_hashes_local hashW run_build run_pkg its.
    Proof.
      induction its as [|rest IH|q weak dd rest IH]; intros H; cbn; auto.
      destruct IH as [E1 E2]. { intros x Hx. apply H. now right. }
      rewrite (H q) by (cbn; now left). rewrite E1, E2. split; reflexivity.
    Qed.

    Definition post (x : res) : Prop :=
      match x with
      | Ok s => Inv s
      | Restart s => ~ strict /\ Inv s
      | Err _ _ => True
      | Internal | OutOfFuel => False
      end.

    Lemma cook_checkout_post r its0 st :
      In (Pkg r its0) NN -> has_src its0 = true -> Inv st -> post (cook_checkout c r st).
    Proof.
      intros Hr Hs0 I. unfold cook_checkout. destruct (memN (r_src r) (corun st)); [exact I|].
      pose proof (do_checkout_inv r its0 Hr st I) as I1.
      unfold verify_src. destruct (lookupN (r_src r) (srcids (do_checkout c r st))) as [[b pr]|] eqn:E; [|exact I1].
      destruct (beqb b (r_srcid r)) eqn:B; [exact I1|]. apply beqb_neq in B.
      pose proof (inv_src _ I1 (Pkg r its0) b pr Hr Hs0 E) as R. destruct pr; [|now apply B, R; left].
      (* a wrong prediction: the verified id replaces it, the marks of this invocation are dropped *)
      assert (NS : ~ strict) by (intros S; apply B, R; now right).
      split; [exact NS|]. apply Inv_ev. destruct I1.
      constructor; try assumption; cbn; try discriminate; try contradiction.
      intros p b0 pr Hp Hsp. destruct (N.eqb (r_src (recipe_of p)) (r_src r)) eqn:Q; [|apply inv_src0; assumption].
      apply N.eqb_eq in Q. destruct (Hsrc p (Pkg r its0) Hp Hr Hsp Hs0 Q) as [-> _]. now intros [= <- _].
    Qed.

    Section Node.
      Variables (r : recipe) (its : items).
      Hypothesis Hp : In (Pkg r its) NN.

      Lemma Inv_putws st w :
        Inv st -> memN (r_id r) (wasrun st) = false -> trusted_g (Pkg r its) w ->
        Inv (putws (r_id r) w st).
      Proof.
        intros I M Tw.
        assert (H : forall p, In p NN -> p = Pkg r its /\ getws (pid p) (putws (r_id r) w st) = w \/
                                          getws (pid p) (putws (r_id r) w st) = getws (pid p) st).
        { intros p Hq. destruct (N.eq_dec (pid p) (r_id r)) as [E|E].
          - left. rewrite E, getws_putws_same. split; [apply Huniq; assumption | reflexivity].
          - right. now apply getws_putws_other. }
        destruct I. constructor; try assumption.
        - intros p Hq Mp. destruct (H p Hq) as [[-> _]| ->]; [|auto].
          change (memN (r_id r) (wasrun st) = true) in Mp. congruence.
        - intros p Hq. destruct (H p Hq) as [[-> ->]| ->]; auto.
      Qed.

      Lemma desc_id_ne : ~ In (r_id r) (sub_ids_items its).
      Proof.
        intros H. unfold sub_ids_items in H. apply in_map_iff in H. destruct H as (q & E & Hq).
        assert (q = Pkg r its).
        { apply Huniq; auto. apply (sub_in _ _ Hp), items_in_pkg, Hq. }
        subst q. now apply (not_own_descendant r its).
      Qed.

      Lemma prepare_inv st :
        Inv st -> memN (r_id r) (wasrun st) = false ->
        Inv (unshare r (prepare r st)) /\ vid_ok r (unshare r (prepare r st)).
      Proof.
        intros I M.
        assert (P : Inv (prepare r st) /\ vid_ok r (prepare r st)).
        { unfold prepare, vid_ok. destruct (w_exists (getws (r_id r) st)); cbn [andb].
          - destruct (negb (eqb_option N.eqb (s_vid (getws (r_id r) st)) (Some (r_vid r)))) eqn:V.
            + split; [|now rewrite getws_putws_same].
              apply Inv_putws; try assumption. { now apply Inv_ev. } now apply trusted_none.
            + split; [exact I|]. apply negb_false_iff in V. now apply eqb_option_N.
          - split; [|now rewrite getws_putws_same]. apply Inv_putws; try assumption. now apply trusted_none. }
        destruct P as [I1 V1]. unfold unshare, vid_ok. destruct (d_shared _); [|auto].
        split; [|now rewrite getws_putws_same]. apply Inv_putws; try assumption.
        - now apply Inv_ev.
        - cbn. now rewrite (upd_wasrun _ _ _ (prepare_upd r st)).
        - now apply trusted_none.
      Qed.

      Definition dl_post (x : dlres) : Prop :=
        match x with
        | DlDone true s => Inv s /\ w_content (getws (r_id r) s) = L (Pkg r its)
        | DlDone false s => Inv s /\ vid_ok r s
        | DlErr _ _ => True
        end.

      Lemma dl_fetch_inv d b wd w1 st1 :
        Inv st1 -> memN (r_id r) (wasrun st1) = false ->
        ids (Pkg r its) b -> trusted_g (Pkg r its) w1 -> s_vid w1 = Some (r_vid r) ->
        (wd = true -> s_result w1 <> None -> s_inputs w1 = PvBytes b) ->
        dl_post (dl_fetch hashW c r d b wd w1 st1).
      Proof.
        intros I M Ad Tw V Hwd. unfold dl_fetch.
        destruct (s_result w1) as [rh|].
        - destruct wd.
          + split; [apply Inv_ev, Inv_putws; assumption|].
            rewrite getws_ev, getws_putws_same. specialize (Tw V). rewrite Hwd in Tw; [|reflexivity|discriminate].
            apply Tw, Ad.
          + split; [apply Inv_putws; assumption | unfold vid_ok; now rewrite getws_putws_same].
        - destruct (if c_can_download c then lookupB b (arch st1) else None) as [a|] eqn:LK.
          + unfold dl_check. destruct (a_audit a) as [h|] eqn:AU; [|exact Logic.I].
            destruct (beqb h (hashW (a_content a))) eqn:HB; [|exact Logic.I].
            apply beqb_eq in HB. subst h.
            assert (LK' : lookupB b (arch st1) = Some a) by (destruct (c_can_download c); [exact LK | discriminate]).
            assert (CL : a_content a = L (Pkg r its)).
            { exact (inv_arch st1 I (Pkg r its) b a Hp Ad LK' AU). }
            split; [|rewrite getws_putws_same; exact CL].
            apply Inv_putws; try assumption. { now apply Inv_ev. }
            intros _ _. exact CL.
          + destruct (c_force_depth c <=? d); [exact Logic.I|].
            split; [|unfold vid_ok; now rewrite getws_putws_same].
            apply Inv_putws; try assumption. destruct (c_can_download c); [now apply Inv_ev | exact I].
            destruct (c_can_download c); exact M.
      Qed.

      Lemma dl_phase_inv d b st :
        Inv st -> memN (r_id r) (wasrun st) = false -> vid_ok r st ->
        ids (Pkg r its) b -> dl_post (dl_phase r d b st).
      Proof.
        intros I M V Hb. unfold dl_phase. destruct (memN (r_id r) (tried st)); [cbn; auto|].
        assert (DI : dl_post (download r d b st)).
        { unfold Model.download. destruct (negb (try_download c r d)); [cbn [dl_post]; auto|].
          set (w0 := getws (r_id r) st). set (ds := dissect (s_inputs w0)).
          destruct (bid_differs ds b || c_force c) eqn:PR.
          - apply dl_fetch_inv; auto.
            + now apply Inv_ev.
            + now apply trusted_none.
            + intros _ H. now contradiction H.
          - apply dl_fetch_inv; auto.
            + apply (inv_trust st I (Pkg r its) Hp).
            + intros Wd _. apply orb_false_iff in PR. destruct PR as [PR _].
              cbn [touch_pws s_inputs]. subst ds.
              destruct (s_inputs w0) as [|[|b0 ins]|b0|b0 loc]; cbn in Wd, PR; try discriminate.
              apply negb_false_iff, beqb_eq in PR. now subst. }
        assert (ST : forall s x, Inv s -> Inv (set_tried s x)) by (intros s x Is; now apply (Inv_fields s)).
        destruct (download r d b st) as [[|] s|e s]; cbn [dl_post] in *; [| |exact Logic.I];
          (destruct DI as (J1 & J2); exact (conj (ST _ _ J1) J2)).
      Qed.

      Lemma local_step_inv b st :
        Inv st -> memN (r_id r) (wasrun st) = false -> vid_ok r st ->
        (forall q, In q (kids its) -> memN (pid q) (wasrun st) = true) ->
        let '(built, s) := local_step r its b st in
        Inv s /\ w_content (getws (r_id r) s) = L (Pkg r its) /\
        (built = true -> w_audit (getws (r_id r) s) = Some (hashW (L (Pkg r its)))).
      Proof.
        intros I M V Hk. unfold Model.local_step.
        assert (KL : forall q, In q (kids its) -> w_content (getws (pid q) st) = L q).
        { intros q Hq. apply (inv_run st I); [|now apply Hk].
          apply (sub_in _ _ Hp), items_in_pkg, kids_in_nodes, Hq. }
        destruct (kid_contents_local its st KL) as [E1 E2]. rewrite E1.
        assert (EI : pkg_ins hashW r its (run_build r (local_items run_build run_pkg its)) st
                     = true_ins hashW run_build run_pkg (Pkg r its)).
        { unfold pkg_ins, true_ins. now rewrite E2. }
        rewrite EI.
        pose proof (inv_trust st I (Pkg r its) Hp V) as Tw. change (pid (Pkg r its)) with (r_id r) in Tw.
        destruct (negb (c_force c) && _) eqn:SK.
        - apply andb_true_iff in SK. destruct SK as [_ SK].
          assert (CL : w_content (getws (r_id r) st) = L (Pkg r its)).
          { destruct (s_inputs (getws (r_id r) st)) as [|[|b0 ins]|b0|b0 loc]; cbn [dissect d_input] in SK; try discriminate.
            - apply (eqb_list_eq beqb beqb_eq) in SK. unfold true_ins in SK. destruct (has_src its); discriminate SK.
            - apply Tw. now apply (eqb_list_eq beqb beqb_eq). }
          split; [|split].
          + apply Inv_ev, Inv_putws; try assumption. intros _. exact Tw.
          + rewrite getws_ev, getws_putws_same. exact CL.
          + discriminate.
        - split; [|split].
          + apply Inv_ev, Inv_putws; try assumption. intros _ _. reflexivity.
          + rewrite getws_ev, getws_putws_same. reflexivity.
          + intros _. rewrite getws_ev, getws_putws_same. reflexivity.
      Qed.

      Lemma upload_inv d b st :
        Inv st -> w_content (getws (r_id r) st) = L (Pkg r its) ->
        w_audit (getws (r_id r) st) = Some (hashW (L (Pkg r its))) ->
        ids (Pkg r its) b -> Inv (upload c r d b st).
      Proof.
        intros I CL AU Ad. unfold upload.
        destruct (c_can_upload c && (d <=? c_upload_depth c)) eqn:U; [|exact I].
        destruct (lookupB b (arch st)); [now apply Inv_ev|].
        destruct Hup as [S|NU]; [|rewrite NU in U; discriminate].
        apply Inv_ev. destruct I. constructor; try assumption.
        - intros q b0 a Hq Aq. cbn. destruct (beqb b0 b) eqn:B; [|apply inv_arch0; assumption].
          apply beqb_eq in B. subst b0. intros [= <-] _. rewrite CL. exact (Hsound S (Pkg r its) q b Hp Hq Ad Aq).
        - intros W b0 a. cbn. destruct (beqb b0 b); [|now apply inv_wf0].
          intros [= <-]. now rewrite AU, CL.
      Qed.

      Lemma bid_phase_post st :
        Inv st -> memN (r_id r) (wasrun st) = false ->
        let '(b, st2) := get_bid (Pkg r its) (unshare r (prepare r st)) in
        Inv st2 /\ vid_ok r st2 /\ memN (r_id r) (wasrun st2) = false /\ ids (Pkg r its) b.
      Proof.
        intros I M. destruct (prepare_inv st I M) as [I1 V1].
        pose proof (get_bid_ids (Pkg r its) _ Hp I1) as GI.
        pose proof (proj1 get_bid_calm (Pkg r its) (unshare r (prepare r st))) as ((K1 & K2 & _) & _).
        destruct (get_bid (Pkg r its) _) as [b st2]. cbn [snd] in K1, K2. destruct GI as (I2 & B2).
        split; [exact I2|]. split; [unfold vid_ok, getws in *; now rewrite K1|].
        split; [now rewrite K2, (upd_wasrun _ _ _ (pre_upd r st)) | exact B2].
      Qed.

      Lemma finish_post d b st :
        Inv st -> vid_ok r st -> (forall q, In q (kids its) -> memN (pid q) (wasrun st) = true) ->
        ids (Pkg r its) b -> post (finish r its d b st).
      Proof.
        intros I V KR Hb. unfold finish. destruct (memN (r_id r) (wasrun st)) eqn:M; [exact I|].
        pose proof (local_step_inv b st I M V KR) as LS.
        destruct (local_step r its b st) as [built s2]. destruct LS as (R1 & R2 & R3).
        pose proof (Inv_set_wasrun s2 (Pkg r its) R1 Hp R2) as R4.
        cbn [post]. destruct built; [|exact R4]. exact (upload_inv d b _ R4 R2 (R3 eq_refl) Hb).
      Qed.

    End Node.

    Lemma cook_post :
      (forall p d st, In p NN -> Inv st -> post (cook d p st)) /\
      (forall its d r st, inside r its -> Inv st -> post (cook_items d r its st)).
    Proof.
      apply pkg_items_mutind.
      - intros r its IH d st Hp I. rewrite cook_eq.
        destruct (memN (r_id r) (wasrun st)) eqn:M; [exact I|].
        pose proof (bid_phase_post r its Hp st I M) as BP.
        destruct (get_bid (Pkg r its) (unshare r (prepare r st))) as [b st2]. destruct BP as (I2 & V2 & M2 & B2).
        unfold pkg_step. pose proof (dl_phase_inv r its Hp d b st2 I2 M2 V2 B2) as DP.
        destruct (dl_phase r d b st2) as [[|] s|e s]; [| |exact Logic.I]; destruct DP as (J1 & J2).
        + apply (Inv_set_wasrun s (Pkg r its)); assumption.
        + (* not downloaded: the dependencies, which leave this workspace alone, then the package step *)
          specialize (IH d r s (inside_node r its Hp) J1). pose proof (cook_items_eff its d r s) as EF.
          pose proof (cook_items_marks its d r s) as MK.
          destruct (cook_items d r its s) as [s1|s1|e s1| |]; try exact IH.
          destruct EF as ([F1 _] & _). apply finish_post; try assumption.
          * unfold vid_ok. rewrite (F1 _ (desc_id_ne r its Hp)). exact J2.
          * now apply MK.
      - intros d r st _ I. exact I.
      - intros rest IH d r st [Hs Hk] I. rewrite cook_items_src.
        destruct (Hs eq_refl) as (its0 & Hr & Hs0). pose proof (cook_checkout_post r its0 st Hr Hs0 I) as P.
        destruct (cook_checkout c r st); try exact P. exact (IH d r _ (conj (fun _ => Hs eq_refl) Hk) P).
      - intros p IHp weak dd rest IHr d r st Hin I. rewrite cook_items_dep.
        destruct (inside_dep _ _ _ _ _ Hin) as [Hp Hin']. specialize (IHp (d + dd) st Hp I).
        destruct (cook (d + dd) p st); try exact IHp. now apply IHr.
    Qed.

    Theorem invoke_inv st0 :
      Inv (begin_invocation st0) ->
      match invoke hashW bidf run_build run_pkg c root st0 with
      | Ok s => Inv s /\ content_of root s = L root /\
                (strict -> cook 0 root (begin_invocation st0) = Ok s)
      | Err _ _ => True
      | _ => False
      end.
    Proof.
      intros I0. pattern (invoke hashW bidf run_build run_pkg c root st0).
      apply invoke_rule with (P := fun st => Inv st /\ (strict -> st = begin_invocation st0)); [|auto].
      intros st [I B]. pose proof (proj1 cook_post root 0 st (nodes_self root) I) as P.
      pose proof (cook_marks 0 root st) as K.
      destruct (cook 0 root st) as [s|s|e s| |] eqn:E; cbn [post] in P; try assumption.
      - split; [exact P|]. split; [|intros S; now rewrite <- (B S)].
        exact (inv_run s P root (nodes_self root) K).
      - destruct P as [NS I1]. split; [exact I1 | intros S; contradiction].
    Qed.
  End Correct.

  Arguments inv_trust {root strict allwf ids st}.
  Arguments inv_tr {root strict allwf ids st}.
  Arguments inv_arch {root strict allwf ids st}.

  Section Theorems.
    Local Notation T := (tbid bidf).

    (* the two instances: Spec.trusted / archive_sound_for and Spec.trusted_any / archive_sound_all are
       what the invariant says with them *)
    Definition ids_true (p : pkg) (b : bytes) : Prop := b = T p.
    Definition ids_any (p : pkg) (b : bytes) : Prop := exists sa, b = tbid_sa bidf sa p.

    Lemma ids_true_right root p sa : In p (nodes root) -> (True -> right_on sa p) -> ids_true p (tbid_sa bidf sa p).
    Proof. intros _ R. apply tbid_sa_right, R, I. Qed.

    Lemma ids_true_sound root :
      ids_sound_in bidf run_build run_pkg root ->
      True -> forall p q b, In p (nodes root) -> In q (nodes root) -> ids_true p b -> ids_true q b -> L p = L q.
    Proof. intros IS _ p q b Hp Hq Ep Eq. apply (IS p q Hp Hq). exact (eq_trans (eq_sym Ep) Eq). Qed.

    Lemma Inv_begin_strict root st0 (allwf : Prop) :
      trusted_ws hashW bidf run_build run_pkg root st0 -> translations_right root st0 ->
      archive_sound_for hashW bidf run_build run_pkg root (arch st0) ->
      (allwf -> all_wellformed hashW (arch st0)) ->
      Inv root True allwf ids_true (begin_invocation st0).
    Proof.
      intros TW TR AS AW. constructor; cbn; try discriminate; try exact AW; [exact TW | intros _; exact TR |].
      intros p b a Hp ->. now apply AS.
    Qed.

    Lemma Inv_begin_loose root st0 :
      trusted_ws_all hashW bidf run_build run_pkg root st0 ->
      archive_sound_all hashW bidf run_build run_pkg root (arch st0) ->
      Inv root False False ids_any (begin_invocation st0).
    Proof.
      intros TW AS. constructor; cbn; try discriminate; try (intros F; exfalso; exact F); [exact TW|].
      intros p b a Hp [sa ->]. now apply AS.
    Qed.

    Lemma Inv_end_strict root s (allwf : Prop) :
      Inv root True allwf ids_true s ->
      trusted_ws hashW bidf run_build run_pkg root s /\ translations_right root s /\
      archive_sound_for hashW bidf run_build run_pkg root (arch s).
    Proof.
      intros I. split; [exact (inv_trust I) | split; [exact (inv_tr I Logic.I)|]].
      intros p a Hp. exact (inv_arch I p _ a Hp eq_refl).
    Qed.

    Lemma honest_archive_sound root ar :
      honest hashW bidf run_build run_pkg ar -> ids_sound bidf run_build run_pkg ->
      archive_sound_for hashW bidf run_build run_pkg root ar.
    Proof.
      intros Ho Is p a Hp LK WF. destruct (Ho _ _ LK WF) as (q & E & C). rewrite C. now apply Is.
    Qed.

    Lemma trusted_ws_fresh root st : ws st = [] -> trusted_ws hashW bidf run_build run_pkg root st.
    Proof. intros WS p _ V. unfold getws in V. rewrite WS in V. discriminate. Qed.

    Lemma fresh_prepared r st :
      getws (r_id r) st = fresh_pws -> unshare r (prepare r st) = putws (r_id r) (reset_pws r fresh_pws) st.
    Proof.
      intros E. unfold prepare. rewrite E. cbn [w_exists fresh_pws andb]. unfold unshare. now rewrite getws_putws_same.
    Qed.

    Lemma finish_publishes r its d b st s :
      finish r its d b st = Ok s -> memN (r_id r) (wasrun st) = false ->
      c_can_upload c = true -> (d <=? c_upload_depth c) = true -> s_inputs (getws (r_id r) st) = PvNone ->
      exists a, lookupB b (arch s) = Some a.
    Proof.
      unfold finish, Model.local_step. intros E M CU D PN. revert E. rewrite M, PN, andb_false_r.
      set (s3 := set_wasrun _ _). intros [= <-]. unfold upload. rewrite CU, D.
      destruct (lookupB b (arch s3)) as [a|] eqn:LK; [now exists a|].
      eexists. apply lookupB_cons_same.
    Qed.

    Section Pair.
      Variables (r : recipe) (its : items).
      Let root := Pkg r its.
      Hypothesis U : uniq_ids root.
      Hypothesis SC : src_consistent root.
      Hypothesis LC : live_consistent root.

      Section Fresh.
        Variables (st : state) (allwf : Prop).
        Hypothesis I0 : Inv root True allwf ids_true st.
        Hypothesis Wst : ws st = [].
        Hypothesis Rst : wasrun st = [].
        Hypothesis Tst : tried st = [].

        Lemma fresh_root_step d :
          exists st2,
            cook d root st = pkg_step r its d (T root) st2 /\
            getws (r_id r) st2 = reset_pws r fresh_pws /\
            wasrun st2 = [] /\ tried st2 = [] /\ arch st2 = arch st /\ (nopkg st -> nopkg st2).
        Proof.
          unfold root. rewrite cook_eq, Rst. cbn [memN].
          assert (G0 : getws (r_id r) st = fresh_pws) by (unfold getws; now rewrite Wst).
          rewrite (fresh_prepared r st G0). set (st1 := putws (r_id r) (reset_pws r fresh_pws) st).
          assert (I1 : Inv root True allwf ids_true st1).
          { apply (Inv_putws root True allwf ids_true U r its (nodes_self _)); try assumption.
            - now rewrite Rst.
            - now apply trusted_none. }
          pose proof (get_bid_ids root True allwf ids_true U SC (fun _ => LC) (ids_true_right root) root st1 (nodes_self _) I1) as GI.
          pose proof (proj1 get_bid_calm root st1) as ((K1 & K2 & K3 & K4) & _ & NP).
          fold root. destruct (get_bid root st1) as [b st2]. cbn [snd] in *. destruct GI as (_ & ->).
          exists st2. split; [reflexivity|]. split; [unfold getws; rewrite K1; apply getws_putws_same|].
          split; [now rewrite K2|]. split; [now rewrite K3 | split; [exact K4 | exact NP]].
        Qed.
      End Fresh.

      Lemma downloader_takes stB a :
        ws stB = [] -> translations_right root stB ->
        archive_sound_for hashW bidf run_build run_pkg root (arch stB) ->
        lookupB (T root) (arch stB) = Some a -> wellformed hashW a ->
        c_can_download c = true -> try_download c r 0 = true ->
        match invoke hashW bidf run_build run_pkg c root stB with
        | Ok sB => content_of root sB = L root /\ nopkg sB /\ In (EDownload (r_id r) true) (trace sB)
        | _ => False
        end.
      Proof.
        intros WS TR AS LK WF CD TRY.
        assert (I0 : Inv root True False ids_true (begin_invocation stB)).
        { apply Inv_begin_strict; auto using trusted_ws_fresh. intros []. }
        destruct (fresh_root_step _ False I0 WS eq_refl eq_refl 0) as (st2 & CK & G2 & _ & T2 & A2 & NP).
        unfold invoke. cbn [cook_loop]. rewrite CK. unfold pkg_step, dl_phase. rewrite T2.
        destruct (download_checks r 0 (T root) st2 a TRY CD) as (w1 & st3 & -> & _ & EV & NP3).
        { now rewrite A2. } { left. now rewrite G2. }
        rewrite (dl_check_accepts r (T root) a w1 st3 WF). split; [|split].
        - unfold content_of, getws. cbn [pid recipe_of ws set_wasrun set_tried putws set_ws lookupN].
          rewrite N.eqb_refl.
          apply (AS root a (nodes_self root) LK WF).
        - apply NP3, NP. intros e [].
        - exact EV.
      Qed.

      Lemma uploader_publishes stA sA :
        ids_sound_in bidf run_build run_pkg root ->
        ws stA = [] -> try_download c r 0 = false -> c_can_upload c = true ->
        translations_right root stA ->
        archive_sound_for hashW bidf run_build run_pkg root (arch stA) -> all_wellformed hashW (arch stA) ->
        invoke hashW bidf run_build run_pkg c root stA = Ok sA ->
        Inv root True True ids_true sA /\ exists a, lookupB (T root) (arch sA) = Some a.
      Proof.
        intros IS WS NT CU TR AS AW.
        assert (I0 : Inv root True True ids_true (begin_invocation stA)).
        { apply Inv_begin_strict; auto using trusted_ws_fresh. }
        pose proof (invoke_inv root True True ids_true U SC (fun _ => LC) (ids_true_right root) (ids_true_sound root IS) (or_introl I) stA I0) as P.
        intros RA. rewrite RA in P. destruct P as (IA & _ & CK). split; [exact IA|]. specialize (CK I). revert CK.
        destruct (fresh_root_step _ True I0 WS eq_refl eq_refl 0) as (st2 & -> & G2 & R2 & T2 & _).
        unfold pkg_step, dl_phase, Model.download. rewrite T2, NT. cbn [memN negb].
        (* the dependencies leave the root's workspace as it is: nothing recorded, not marked *)
        set (s0 := set_tried st2 (r_id r :: tried st2)).
        pose proof (cook_items_eff its 0 r s0) as FR.
        destruct (cook_items 0 r its s0) as [s1|s1|e s1| |]; try discriminate.
        destruct FR as [[FR1 FR2] _].
        pose proof (desc_id_ne root U r its (nodes_self _)) as NI.
        intros E. apply (finish_publishes r its 0 _ s1 sA E); try assumption.
        - destruct (memN (r_id r) (wasrun s1)) eqn:M; [|reflexivity]. apply (FR2 _ NI) in M. cbn in M. now rewrite R2 in M.
        - apply N.leb_le, N.le_0_l.
        - rewrite (FR1 _ NI). change (getws (r_id r) s0) with (getws (r_id r) st2). now rewrite G2.
      Qed.
    End Pair.
  End Theorems.
End Steps.

Arguments inv_run {hashW bidf run_build run_pkg root strict allwf ids st}.
Arguments inv_wf {hashW bidf run_build run_pkg root strict allwf ids st}.
