(* C07 — property theorems, each derived in a few lines from the general
   lemmas of Proofs.v / IdProofs.v, and non-vacuity examples.

   Reading of the statements.  [invoke hashW bidf run_build run_pkg c root st] is
   one "bob dev <root>" in a workspace whose persistent state, together with
   the archive, is [st]; [c] is any download/upload configuration (every
   --download mode is a value of c_depth/c_force_depth/c_packages).  [local p]
   is what a purely local build of node p produces, [tbid p] its Build-Id.
   hashW (directory hash), bidf (the Build-Id digest), run_build / run_pkg (the
   scripts) are arbitrary functions: nothing is assumed about them except where
   a hypothesis says so (ids_sound, ids_sound_in).
   Hypotheses on the project tree: [uniq_ids] (a dist workspace belongs to one
   node) and [src_consistent] (r_src identifies the checkout step: nodes with an
   own checkout and equal r_src -- variants of one recipe that differ only after
   checkout -- carry the same r_srcid, r_haslive, r_live, r_livecalc). *)
From Coq Require Import List NArith Bool.
Require Import BobV.Common.Cases BobV.Common.Sha1 BobV.Ids.Model BobV.Ids.Proofs.
Require Import BobV.C07.Model BobV.C07.Spec BobV.C07.Proofs BobV.C07.IdProofs.
Require BobV.Common.Sha1Digits.
Import ListNotations.
Open Scope N_scope.

(* P1. A build with downloads yields the results of a purely local build, in
   every download mode, whatever else the archive contains: artifacts whose
   audit trail is missing or does not match are unconstrained (they can only
   make the build fail), every well-formed artifact stored under the Build-Id
   of a node of the project is assumed to hold that node's local result
   (archive_sound_for; implied by "produced by some Bob build under its
   Build-Id" + "equal Build-Id => equal result", see the corollary below).
   The invocation never restarts, the invariant on the workspace (trusted_ws),
   on the live-build-id translations and on the archive is re-established. *)
Theorem download_equals_local :
  forall hashW bidf run_build run_pkg c root st0,
    uniq_ids root -> src_consistent root -> live_consistent root -> ids_sound_in bidf run_build run_pkg root ->
    trusted_ws hashW bidf run_build run_pkg root st0 -> translations_right root st0 ->
    archive_sound_for hashW bidf run_build run_pkg root (arch st0) ->
    match invoke hashW bidf run_build run_pkg c root st0 with
    | Ok s =>
      cook hashW bidf run_build run_pkg c 0 root (begin_invocation st0) = Ok s /\
      content_of root s = local run_build run_pkg root /\
      (forall p, In p (nodes root) -> memN (pid p) (wasrun s) = true -> content_of p s = local run_build run_pkg p) /\
      trusted_ws hashW bidf run_build run_pkg root s /\ translations_right root s /\
      archive_sound_for hashW bidf run_build run_pkg root (arch s)
    | Err _ _ => True
    | _ => False
    end.
Proof.
  intros hashW bidf run_build run_pkg c root st0 U SC LC IS TW TR AS.
  pose proof (invoke_inv hashW bidf run_build run_pkg c root True False _ U SC (fun _ => LC) (ids_true_right bidf root)
                (ids_true_sound bidf run_build run_pkg root IS) (or_introl I) st0
                (Inv_begin_strict _ _ _ _ root st0 False TW TR AS (False_ind _))) as P.
  destruct (invoke hashW bidf run_build run_pkg c root st0) as [s|s|e s| |]; try exact P.
  destruct P as (I1 & C1 & CK). split; [now apply CK|]. split; [exact C1|].
  split; [intros p; apply (inv_run I1) | exact (Inv_end_strict _ _ _ _ root s False I1)].
Qed.

(* ... in the form of the property text: honest archive (every well-formed
   stored artifact was produced by some Bob build, of any project state, under
   its Build-Id) and Build-Ids that determine results.  A well-formed forged
   artifact under the right id violates [honest] and is undetectable by
   construction. *)
Theorem download_equals_local_honest :
  forall hashW bidf run_build run_pkg c root st0,
    uniq_ids root -> src_consistent root -> live_consistent root -> ids_sound bidf run_build run_pkg ->
    trusted_ws hashW bidf run_build run_pkg root st0 -> translations_right root st0 ->
    honest hashW bidf run_build run_pkg (arch st0) ->
    match invoke hashW bidf run_build run_pkg c root st0 with
    | Ok s =>
      content_of root s = local run_build run_pkg root /\
      (forall p, In p (nodes root) -> memN (pid p) (wasrun s) = true -> content_of p s = local run_build run_pkg p)
    | Err _ _ => True
    | _ => False
    end.
Proof.
  intros hashW bidf run_build run_pkg c root st0 U SC LC IS TW TR HO.
  pose proof (download_equals_local hashW bidf run_build run_pkg c root st0 U SC LC (fun p q _ _ E => IS p q E) TW TR
                (honest_archive_sound _ _ _ _ root _ HO IS)) as P.
  destruct (invoke hashW bidf run_build run_pkg c root st0); try exact P. destruct P as (_ & P1 & P2 & _). auto.
Qed.

(* P1. Identical recipes, sources and fingerprint (the same [root]; no path is an
   input) + the uploader built and uploaded from a fresh workspace  ==>  a
   downloader in another fresh workspace that tries the root package (modes
   yes / forced / forced-fallback / a matching packages= expression) gets the
   local result by download and runs no package step at all. *)
Theorem other_workspace_zero_builds :
  forall hashW bidf run_build run_pkg cA cB r its stA sA stB,
    let root := Pkg r its in
    uniq_ids root -> src_consistent root -> live_consistent root -> ids_sound_in bidf run_build run_pkg root ->
    ws stA = [] -> never_tries cA -> c_can_upload cA = true ->
    translations_right root stA ->
    archive_sound_for hashW bidf run_build run_pkg root (arch stA) -> all_wellformed hashW (arch stA) ->
    invoke hashW bidf run_build run_pkg cA root stA = Ok sA ->
    ws stB = [] -> trc stB = [] -> arch stB = arch sA -> archl stB = archl sA ->
    c_can_download cB = true -> try_download cB r 0 = true -> c_force cB = false ->
    match invoke hashW bidf run_build run_pkg cB root stB with
    | Ok sB => content_of root sB = local run_build run_pkg root /\
               (forall e, In e (trace sB) -> is_package_event e = false) /\
               In (EDownload (r_id r) true) (trace sB)
    | _ => False
    end.
Proof.
  intros hashW bidf run_build run_pkg cA cB r its stA sA stB root U SC LC IS WA NT CU TRA ASA AWA RA WB TB EA EL CD TRY _.
  destruct (uploader_publishes hashW bidf run_build run_pkg cA r its U SC LC stA sA IS WA (NT r 0) CU TRA ASA AWA RA) as [IA [a LK]].
  destruct (Inv_end_strict hashW bidf run_build run_pkg root sA True IA) as (_ & TR1 & AS1).
  apply (downloader_takes hashW bidf run_build run_pkg cB r its U SC LC stB a WB); try assumption; try (now rewrite EA).
  - intros p l x Hp Hl [H|H]; [rewrite TB in H; discriminate|]. rewrite EL in H. apply (TR1 p l x Hp Hl). now right.
  - apply (inv_wf IA I _ _ LK).
Qed.

(* P1. Wrong live-build-id predictions.  (a) For every project, state, archive and
   translation table the restart loop ends within n_srcs root + 1 passes (each
   restart turns the predicted source build-id of one checkout step into a
   verified one). *)
Theorem wrong_prediction_restarts_bounded :
  forall hashW bidf run_build run_pkg c root st0,
    invoke hashW bidf run_build run_pkg c root st0 <> OutOfFuel.
Proof.
  intros. apply invoke_rule with (P := fun _ => True); [|exact I]. intros st _.
  destruct (cook hashW bidf run_build run_pkg c 0 root st); try exact I; discriminate.
Qed.

(* (b) ... and it converges: with arbitrary (wrong) translations, if no well-formed
   artifact is stored under an id that the builder derives from a wrong belief
   (archive_sound_all: whatever source ids are believed, a well-formed artifact
   found under the resulting id holds the node's local result), a downloader
   that does not upload ends with the local results, never with the assertion
   "Non-predicted incorrect Build-Id found!". *)
Theorem wrong_prediction_restarts_and_converges :
  forall hashW bidf run_build run_pkg c root st0,
    uniq_ids root -> src_consistent root -> c_can_upload c = false ->
    trusted_ws_all hashW bidf run_build run_pkg root st0 ->
    archive_sound_all hashW bidf run_build run_pkg root (arch st0) ->
    match invoke hashW bidf run_build run_pkg c root st0 with
    | Ok s =>
      content_of root s = local run_build run_pkg root /\
      (forall p, In p (nodes root) -> memN (pid p) (wasrun s) = true -> content_of p s = local run_build run_pkg p)
    | Err _ _ => True
    | _ => False
    end.
Proof.
  intros hashW bidf run_build run_pkg c root st0 U SC NU TW AS.
  pose proof (invoke_inv hashW bidf run_build run_pkg c root False False _ U SC (False_ind _)
                (fun p sa _ _ => ex_intro _ sa eq_refl) (False_ind _) (or_intror NU) st0
                (Inv_begin_loose _ _ _ _ root st0 TW AS)) as P.
  destruct (invoke hashW bidf run_build run_pkg c root st0); try exact P.
  destruct P as (I1 & C1 & _). split; [exact C1 | intros p; apply (inv_run I1)].
Qed.

(* P1. The builder-side check: an artifact without audit trail, or whose recorded
   result hash differs from the hash of the extracted tree, is rejected whenever
   it is fetched, and leaves no result hash behind ... *)
Theorem mismatch_never_accepted :
  forall hashW c r d b st a,
    try_download c r d = true -> c_can_download c = true ->
    lookupB b (arch st) = Some a -> ~ wellformed hashW a ->
    s_result (getws (r_id r) st) = None \/
      bid_differs (dissect (s_inputs (getws (r_id r) st))) b = true \/ c_force c = true ->
    exists e s, download hashW c r d b st = DlErr e s /\ (e = ErrNoAudit \/ e = ErrCorrupt) /\
                s_result (getws (r_id r) s) = None.
Proof.
  intros hashW c r d b st a TRY CD LK NW H.
  destruct (download_checks hashW c r d b st a TRY CD LK H) as (w1 & st2 & -> & R & _).
  destruct (dl_check_rejects hashW r b a w1 st2 NW) as (e & -> & He).
  exists e. eexists. split; [reflexivity|]. split; [exact He|]. now rewrite getws_putws_same.
Qed.

(* ... and, for whole invocations: every workspace marked "downloaded" carries an
   audit trail recording the hash of exactly the tree it contains. *)
Theorem downloaded_matches_audit :
  forall hashW bidf run_build run_pkg c root st0,
    audit_ok hashW st0 ->
    match invoke hashW bidf run_build run_pkg c root st0 with Ok s => audit_ok hashW s | _ => True end.
Proof.
  intros hashW bidf run_build run_pkg c root st0 A0. pattern (invoke hashW bidf run_build run_pkg c root st0).
  apply invoke_rule with (P := audit_ok hashW); [|exact A0]. intros st A.
  pose proof (cook_audit hashW bidf run_build run_pkg c root 0 st A) as CA.
  destruct (cook hashW bidf run_build run_pkg c 0 root st); exact CA.
Qed.

(* P1 (id side). Equal Build-Ids of two steps without weakly used tools: equal
   platform tag, script, tools (provider id, path, libraries), consumed
   variables and argument ids -- or an explicit SHA-1 collision; equal host
   streams (fingerprint, then the host parts of the arguments) -- or a
   collision.  Workspace paths are no input of the encoder. *)
Theorem build_id_only_if :
  forall (H : bytes -> bytes), (forall x, length (H x) = 20%nat) ->
  forall a b, no_weak a -> no_weak b -> wf_bidin a -> wf_bidin b ->
    build_id H a = build_id H b ->
    ((bi_platform a = bi_platform b /\ core (strip_bid a) = core (strip_bid b)) \/
     collision H (bid_recipes a) (bid_recipes b)) /\
    (bid_host a = bid_host b \/ collision H (bid_host a) (bid_host b)).
Proof.
  intros H Hlen a b Na Nb Wa Wb E. rewrite !build_id_halves in E.
  destruct (id_halves_eq H Hlen _ _ _ _ E) as [[E1|C] E2]; (split; [|exact E2]); [left; now apply bid_recipes_injective | now right].
Qed.

Theorem build_id_fingerprint :
  forall a b,
    Forall (fun x => length x = 20%nat) (bi_args a) -> Forall (fun x => length x = 20%nat) (bi_args b) ->
    bid_host a = bid_host b -> bi_fingerprint a = bi_fingerprint b.
Proof.
  intros a b Fa Fb. unfold bid_host.
  assert (Z : forall l : list bytes, Forall (fun x => length x = 20%nat) l -> flat_map (skipn 20) l = []).
  { induction 1 as [|x l Hx _ IH]; [reflexivity|]. cbn [flat_map]. rewrite IH, app_nil_r. rewrite <- Hx. apply skipn_all. }
  rewrite (Z _ Fa), (Z _ Fb), !app_nil_r. auto.
Qed.

(* the weak-tool ambiguity, stated explicitly: names of weakly used tools are
   hashed without delimiter (tools {a, bc} and {ab, c} give the same id) *)
Theorem weak_tool_names_ambiguous :
  map fst (bi_tools weak_a) <> map fst (bi_tools weak_b) /\ forall H, build_id H weak_a = build_id H weak_b.
Proof. split; [discriminate | intros H; reflexivity]. Qed.

Theorem platform_tags_have_no_zero_byte : Forall platform_ok BobV.Gen.ConstsC07.PLATFORM_TAGS.
Proof. repeat constructor; discriminate. Qed.

(* x_app depends on x_lib and on two variants x_v1 / x_v2 of one recipe that differ
   only after checkout: two package nodes (dist workspaces 3 and 4, different
   Variant-Ids and Build-Id cores) that share ONE checkout step (r_src 13). *)
Definition x_lib : pkg :=
  Pkg {| r_id := 2; r_src := 12; r_vid := 20; r_core := 200; r_match := false; r_haslive := true; r_live := Some [52];
         r_livecalc := Some [52]; r_srcid := [62]; r_fp := []; r_argmask := [] |} (ISrc INil).
Definition x_v1 : pkg :=
  Pkg {| r_id := 3; r_src := 13; r_vid := 30; r_core := 300; r_match := false; r_haslive := true; r_live := Some [53];
         r_livecalc := Some [53]; r_srcid := [63]; r_fp := []; r_argmask := [] |} (ISrc INil).
Definition x_v2 : pkg :=
  Pkg {| r_id := 4; r_src := 13; r_vid := 31; r_core := 301; r_match := false; r_haslive := true; r_live := Some [53];
         r_livecalc := Some [53]; r_srcid := [63]; r_fp := []; r_argmask := [] |} (ISrc INil).
Definition x_app_r : recipe :=
  {| r_id := 1; r_src := 11; r_vid := 10; r_core := 100; r_match := false; r_haslive := true; r_live := Some [51];
     r_livecalc := Some [51]; r_srcid := [61]; r_fp := []; r_argmask := [true; true; true] |}.
Definition x_app_its : items := ISrc (IDep x_lib false 2 (IDep x_v1 false 2 (IDep x_v2 false 2 INil))).
Definition x_app : pkg := Pkg x_app_r x_app_its.

Definition c_upload : cfg :=      (* --download=no --upload *)
  {| c_depth := 65535; c_force_depth := 65535; c_packages := false; c_can_download := false;
     c_can_upload := true; c_upload_depth := 65535; c_force := false |}.
Definition c_deps : cfg :=        (* --download=deps *)
  {| c_depth := 1; c_force_depth := 65535; c_packages := false; c_can_download := true;
     c_can_upload := false; c_upload_depth := 65535; c_force := false |}.
Definition c_yes : cfg :=         (* --download=yes *)
  {| c_depth := 0; c_force_depth := 65535; c_packages := false; c_can_download := true;
     c_can_upload := false; c_upload_depth := 65535; c_force := false |}.

Definition empty_state : state :=
  {| ws := []; srcx := []; trc := []; arch := []; archl := []; wasrun := []; corun := []; tried := [];
     srcids := []; bdids := []; trace := [] |}.
Definition x_A : state := match invoke_x c_upload x_app empty_state with Ok s => s | _ => empty_state end.
Definition x_B : state :=          (* another, fresh workspace on the archive the uploader left *)
  {| ws := []; srcx := []; trc := []; arch := arch x_A; archl := archl x_A; wasrun := []; corun := []; tried := [];
     srcids := []; bdids := []; trace := [] |}.
Definition x_local := local run_build_x run_pkg_x.

Fixpoint count_ev (f : event -> bool) (l : list event) : N :=
  match l with [] => 0 | e :: r => (if f e then 1 else 0) + count_ev f r end.

(* the uploader (fresh workspace, --download=no --upload): the shared checkout step runs once,
   both package nodes that use it are built and uploaded *)
Example shared_checkout_nonvacuous :
  N.eqb (count_ev (fun e => match e with ECheckout 13 => true | _ => false end) (trace x_A)) 1
  && N.eqb (count_ev (fun e => match e with ECheckout _ => true | _ => false end) (trace x_A)) 3
  && N.eqb (count_ev (fun e => match e with EPackage 3 => true | EPackage 4 => true | _ => false end) (trace x_A)) 2
  && N.eqb (count_ev (fun e => match e with EUpload _ true => true | _ => false end) (trace x_A)) 4
  && negb (beqb (tbid_x x_v1) (tbid_x x_v2)) = true.
Proof. vm_compute. reflexivity. Qed.

(* --download=deps: the dependencies are downloaded (one query for the shared checkout step, whose
   sources are never fetched), the root package built, result = local build *)
Example download_equals_local_nonvacuous :
  match invoke_x c_deps x_app x_B with
  | Ok s => beqb (content_of x_app s) (x_local x_app) && beqb (content_of x_lib s) (x_local x_lib)
            && beqb (content_of x_v1 s) (x_local x_v1) && beqb (content_of x_v2 s) (x_local x_v2)
            && N.eqb (count_ev is_package_event (trace s)) 1
            && N.eqb (count_ev (fun e => match e with EDownload 2 true => true | _ => false end) (trace s)) 1
            && N.eqb (count_ev (fun e => match e with EDownload 3 true => true | EDownload 4 true => true | _ => false end) (trace s)) 2
            && N.eqb (count_ev (fun e => match e with EQuery 13 true => true | _ => false end) (trace s)) 1
            && N.eqb (count_ev (fun e => match e with ECheckout 13 => true | _ => false end) (trace s)) 0
  | _ => false
  end = true.
Proof. vm_compute. reflexivity. Qed.

Example download_equals_local_hypotheses_nonvacuous :
  uniq_ids x_app /\ src_consistent x_app /\ live_consistent x_app /\ ids_sound_in bidf_x run_build_x run_pkg_x x_app /\
  trusted_ws hashW_x bidf_x run_build_x run_pkg_x x_app x_B /\ translations_right x_app x_B /\
  archive_sound_for hashW_x bidf_x run_build_x run_pkg_x x_app (arch x_B) /\
  (In x_v1 (nodes x_app) /\ In x_v2 (nodes x_app) /\ x_v1 <> x_v2 /\ pid x_v1 <> pid x_v2 /\
   has_src (items_of x_v1) = true /\ has_src (items_of x_v2) = true /\
   r_src (recipe_of x_v1) = r_src (recipe_of x_v2)).
Proof.
  assert (N2 : forall p, In p (nodes x_app) -> p = x_app \/ p = x_lib \/ p = x_v1 \/ p = x_v2).
  { intros p [<-|[<-|[<-|[<-|[]]]]]; auto. }
  split; [|split; [|split; [|split; [|split; [|split; [|split]]]]]].
  - intros p q Hp Hq E. apply N2 in Hp, Hq. destruct Hp as [->|[->|[->| ->]]], Hq as [->|[->|[->| ->]]];
      try discriminate E; reflexivity.
  - intros p q Hp Hq _ _ E. apply N2 in Hp, Hq. destruct Hp as [->|[->|[->| ->]]], Hq as [->|[->|[->| ->]]];
      try discriminate E; repeat apply conj; reflexivity.
  - intros p q l Hp Hq E1 E2. rewrite <- E1 in E2. apply N2 in Hp, Hq.
    destruct Hp as [->|[->|[->| ->]]], Hq as [->|[->|[->| ->]]]; try discriminate E2; reflexivity.
  - intros p q Hp Hq E. apply N2 in Hp, Hq. destruct Hp as [->|[->|[->| ->]]], Hq as [->|[->|[->| ->]]];
      try discriminate E; reflexivity.
  - intros p Hp. apply N2 in Hp. destruct Hp as [->|[->|[->| ->]]]; vm_compute; discriminate.
  - intros p l x Hp E. apply N2 in Hp. destruct Hp as [->|[->|[->| ->]]]; injection E as <-;
      vm_compute; intros [H|H]; congruence.
  - intros p a Hp. apply N2 in Hp. destruct Hp as [->|[->|[->| ->]]]; vm_compute; intros LK; injection LK as <-; reflexivity.
  - repeat apply conj; try discriminate; try reflexivity; cbn; tauto.
Qed.

Example other_workspace_zero_builds_nonvacuous :
  match invoke_x c_yes x_app x_B with
  | Ok s => beqb (content_of x_app s) (x_local x_app) && N.eqb (count_ev is_package_event (trace s)) 0
            && N.eqb (count_ev (fun e => match e with EDownload 1 true => true | _ => false end) (trace s)) 1
  | _ => false
  end = true.
Proof. vm_compute. reflexivity. Qed.

(* the archive maps the live build-id of the root's sources to a wrong id: the download
   under the derived id fails, the checkout reveals the truth, one restart, then the download succeeds *)
Definition x_B_wrong : state :=
  {| ws := []; srcx := []; trc := []; arch := arch x_A; archl := ([51], [99]) :: archl x_A; wasrun := []; corun := [];
     tried := []; srcids := []; bdids := []; trace := [] |}.

Example wrong_prediction_restarts_and_converges_nonvacuous :
  match invoke_x c_yes x_app x_B_wrong with
  | Ok s => beqb (content_of x_app s) (x_local x_app) && N.eqb (count_ev is_restart (trace s)) 1
            && N.eqb (count_ev (fun e => match e with EDownload 1 false => true | _ => false end) (trace s)) 1
            (* after the restart the download is tried again, with the right id: nothing is built *)
            && N.eqb (count_ev (fun e => match e with EDownload 1 true => true | _ => false end) (trace s)) 1
            && N.eqb (count_ev is_package_event (trace s)) 0
  | _ => false
  end = true.
Proof. vm_compute. reflexivity. Qed.

(* two wrong predictions in one invocation, one of them for the shared checkout step: two restarts
   (the second one is caused by the first of the two nodes that use the shared step; the other node
   finds the step already verified), then everything is downloaded under the right ids *)
Definition x_B_wrong2 : state :=
  {| ws := []; srcx := []; trc := []; arch := arch x_A; archl := ([51], [99]) :: ([53], [98]) :: archl x_A; wasrun := [];
     corun := []; tried := []; srcids := []; bdids := []; trace := [] |}.

Example wrong_prediction_twice_shared_checkout_nonvacuous :
  match invoke_x c_yes x_app x_B_wrong2 with
  | Ok s => beqb (content_of x_app s) (x_local x_app) && N.eqb (count_ev is_restart (trace s)) 2
            && N.eqb (count_ev (fun e => match e with ECheckout 13 => true | _ => false end) (trace s)) 1
            && N.eqb (count_ev (fun e => match e with EQuery 13 _ => true | _ => false end) (trace s)) 1
            && N.eqb (count_ev (fun e => match e with EDownload 1 true => true | _ => false end) (trace s)) 1
            && N.eqb (count_ev is_package_event (trace s)) 0
  | _ => false
  end = true.
Proof. vm_compute. reflexivity. Qed.

Definition x_corrupt (a : artifact) : artifact := {| a_content := 99 :: a_content a; a_audit := a_audit a |}.
Definition x_B_corrupt (f : artifact -> artifact) : state :=
  {| ws := []; srcx := []; trc := [];
     arch := match lookupB (tbid_x x_app) (arch x_A) with Some a => (tbid_x x_app, f a) :: arch x_A | None => [] end;
     archl := archl x_A; wasrun := []; corun := []; tried := []; srcids := []; bdids := []; trace := [] |}.

Example mismatch_never_accepted_nonvacuous :
  match invoke_x c_yes x_app (x_B_corrupt x_corrupt),
        invoke_x c_yes x_app (x_B_corrupt (fun a => {| a_content := a_content a; a_audit := None |})) with
  | Err ErrCorrupt s1, Err ErrNoAudit s2 =>
    match s_result (getws 1 s1), s_result (getws 1 s2) with None, None => true | _, _ => false end
  | _, _ => false
  end = true.
Proof. vm_compute. reflexivity. Qed.

Example build_id_fingerprint_nonvacuous :
  let s fp := {| bi_sandbox := None; bi_script := [120]; bi_tools := []; bi_env := [([65], [49])]; bi_args := [repeat 1 20];
                 bi_platform := []; bi_fingerprint := fp |} in
  eqb_list N.eqb (build_id sha1 (s (repeat 5 20))) (build_id sha1 (s (repeat 6 20))) = false /\
  eqb_list N.eqb (firstn 20 (build_id sha1 (s (repeat 5 20)))) (firstn 20 (build_id sha1 (s (repeat 6 20)))) = true.
Proof.
  intros s. unfold build_id.
  (* the fingerprint is no part of the recipe stream: the ids start with the same digest h, which need not be
     evaluated; they differ because the host digests do *)
  change (bid_recipes (s (repeat 6 20))) with (bid_recipes (s (repeat 5 20))).
  generalize (sha1_length (bid_recipes (s (repeat 5 20)))). generalize (sha1 (bid_recipes (s (repeat 5 20)))) as h.
  intros h Lh. split.
  - destruct (eqb_list N.eqb _ _) eqn:E; [|reflexivity]. apply (eqb_list_eq N.eqb N.eqb_eq), app_inv_head in E.
    (* the host streams are evaluated with [sha1] left standing, which is then evaluated as [sha1n] *)
    revert E. cbv -[sha1]. rewrite <- !Sha1Digits.sha1n_eq. vm_compute. discriminate.
  - apply (eqb_list_eq N.eqb N.eqb_eq). rewrite <- Lh, <- (PeanoNat.Nat.add_0_r (length h)), !firstn_app_2. reflexivity.
Qed.
