(* C14 — Audit trails are complete and truthful: the property theorems. *)
From Coq Require Import List NArith ZArith Bool Permutation Lia.
Require Import BobV.Common.Cases BobV.Common.Sha1 BobV.Common.Sha1Digits BobV.Ids.Model BobV.Ids.Proofs.
Require Import BobV.C14.Model BobV.C14.Builder BobV.C14.Proofs BobV.C14.ProofsAudit BobV.C14.ProofsBuilder
               BobV.C14.Examples.
Import ListNotations.
Open Scope N_scope.

(* artifact ids are a function of the record content only: nothing but the
   dict enters (no clock, host, path; not even a stale stored id) *)
Theorem artifact_id_function_of_record : forall (H : bytes -> bytes) a b,
  to_value a = to_value b -> artifact_id H a = artifact_id H b.
Proof. intros H a b E. unfold artifact_id. now rewrite E. Qed.

(* ... and of the dict as a mapping: the insertion order of the keys (what a
   JSON round trip or a different code path may change) does not matter *)
Theorem artifact_id_order_independent : forall (H : bytes -> bytes) r1 r2,
  NoDup (map fst r1) -> Permutation r1 r2 -> record_id H r1 = record_id H r2.
Proof. intros H r1 r2 Hn Hp. unfold record_id. now rewrite (digest_map_perm r1 r2 Hn Hp). Qed.

(* the digest of a record can be decoded again (sorted-key maps, character
   count prefixes, type tags): [canon] is the dict as a value (maps without
   order, bool folded into int exactly where digestData's isinstance chain does) *)
Theorem digest_uniquely_decodable : forall v, wf v -> forall f r, (depth v <= f)%nat ->
  dec f (digest_data v ++ r) = Some (canon v, r).
Proof. intros v Hv f r Hd. now apply dec_digest. Qed.

Theorem artifact_id_injective_or_collision : forall (H : bytes -> bytes) r1 r2,
  wf (VMap r1) -> wf (VMap r2) -> record_id H r1 = record_id H r2 ->
  canon (VMap r1) = canon (VMap r2) \/ collision H (digest_data (VMap r1)) (digest_data (VMap r2)).
Proof. intros H r1 r2. apply digest_hash_injective_or_collision. Qed.

(* Merging a dependency trail adds its references and its artifact; such
   trails stay closed through save/load, and the closure walk of
   Audit.__validate accepts them with the fuel the model provides *)
Theorem merge_keeps_closed : forall (H : bytes -> bytes) self other,
  mem_closed self -> mem_closed other -> a_id (au_art other) <> None ->
  mem_closed (add_arg H self other) /\ (forall n, mem_closed (add_tool H self n other)) /\
  mem_closed (set_sandbox H self other).
Proof. exact add_dep_closed. Qed.

(* completeness of what is listed: a trail generated after executing the step
   names as arguments exactly the trails of the valid arguments in recipe
   order and the trail of the sandbox iff there is one; it exists only if
   every one of those trails was readable *)
Theorem generate_records_dependencies : forall (H : bytes -> bytes) g au,
  g_executed g = true -> generate H g = Some au ->
  args_list (au_art au) = valid_ids H (g_args g) /\
  Forall (fun vf => fst vf = true -> from_file (snd vf) <> None) (g_args g) /\
  match g_sandbox g with
  | None => a_sandbox (au_art au) = None
  | Some f => exists o, from_file f = Some o /\ a_sandbox (au_art au) = Some (get_id H (au_art o))
  end.
Proof.
  intros H g au Ee E. unfold generate in E. rewrite Ee in E.
  destruct (add_tools H _ _) as [au1|] eqn:E1; [|discriminate].
  destruct (add_sandbox H au1 _) as [au2|] eqn:E2; [|discriminate].
  destruct (add_args H au2 _) as [au3|] eqn:E3; [|discriminate].
  inversion E; subst au. cbn [with_scms au_art]. unfold args_list. cbn [a_args a_sandbox].
  destruct (add_tools_keeps _ _ _ _ E1) as [T1 T2]. cbn [with_env au_art a_args a_sandbox fresh_artifact] in T1, T2.
  destruct (add_args_spec _ _ _ _ E3) as (A1 & A2 & A3). unfold args_list in A1. rewrite A1, A2.
  destruct (g_sandbox g) as [f|]; cbn [add_sandbox] in E2.
  - destruct (from_file f) as [o|]; [|discriminate]. inversion E2; subst au2.
    cbn [set_sandbox au_art art_set_sandbox a_args a_sandbox]. rewrite T1. eauto.
  - inversion E2; subst au2. now rewrite T1.
Qed.

Theorem closed_trail_validates : forall au, mem_closed au -> validate au = VOk.
Proof.
  intros au [Ha Hr]. destruct (to_set_spec (get_refs (au_art au))) as [Hn Hi].
  apply walk_start; [exact Hr|exact Hn|exact (incl_tran Hi Ha)].
Qed.

(* for every history of cook (with any failure point), prune, upload,
   download, share-install and share-use events, with any recipes, in which
   foreign archives deliver closed trails ([trusted]): every trail next to a
   workspace, in the archive and in the share store loads and validates *)
Theorem references_closed : forall (H : bytes -> bytes) es,
  Forall trusted es ->
  let s := run H init es in
  (forall p f, w_audit (s_ws s p) = Some f -> exists au, load f = Some au /\ validate au = VOk) /\
  (forall bid e, In (bid, e) (s_archive s) -> exists au, load (e_audit e) = Some au /\ validate au = VOk) /\
  (forall bid e, In (bid, e) (s_share s) -> exists au, load (sh_audit e) = Some au /\ validate au = VOk).
Proof.
  intros H es Ht s.
  assert (Hv : forall f, file_closed f -> exists au, load f = Some au /\ validate au = VOk).
  { intros f Hf. destruct (load_closed f Hf) as (au & Hl & Hc & _). exists au.
    split; [exact Hl|now apply closed_trail_validates]. }
  pose proof (run_closed H es init Ht init_closed) as Hc. fold s in Hc.
  destruct (inv_in _ _ _ s Hc) as (Hw & Ha & Hs). split; [|split].
  - intros p f E. apply Hv, (Hw p f E).
  - intros bid e Hin. apply Hv, (Ha bid e Hin).
  - intros bid e Hin. apply Hv, (Hs bid e Hin).
Qed.

(* In every state reached by a history that satisfies the side condition on
   share-installs ([ev_ok] in Builder.v) a workspace whose result hash is set
   holds exactly that content and its trail records exactly that hash; the
   same for uploaded artifacts and shared packages *)
Theorem ids_truthful : forall (H : bytes -> bytes) es,
  hist_ok H init es ->
  let s := run H init es in
  (forall p h, w_result (s_ws s p) = RHash h ->
     w_content (s_ws s p) = h /\ forall f, w_audit (s_ws s p) = Some f -> a_rhash (fst f) = h) /\
  (forall bid e, In (bid, e) (s_archive s) -> a_rhash (fst (e_audit e)) = e_content e) /\
  (forall bid e, In (bid, e) (s_share s) -> sh_hash e = sh_content e /\ a_rhash (fst (sh_audit e)) = sh_hash e).
Proof.
  intros H es Hok s. exact (inv_in _ _ _ s (run_truth H es init Hok init_truth)).
Qed.

(* a completed cook records the variant-id and build-id it was called with
   and the hash of what the script produced *)
Theorem cook_records_ids : forall (H : bytes -> bytes) s d force out bid k,
  (6 <= k)%nat ->
  let s' := step H s (ECook d true force out bid k) in
  let w := s_ws s' (d_path d) in
  w_result w = RHash out /\ w_content w = out /\
  forall f, w_audit w = Some f ->
    a_vid (fst f) = g_vid (d_base d) /\ a_rhash (fst f) = out /\
    a_bid (fst f) = (if d_checkout d then out else bid).
Proof.
  intros H s d force out bid k Hk. destruct k as [|[|k]]; [lia|lia|]. cbn [step]. unfold exec_ops, cook_ops.
  destruct (d_checkout d); cbn [firstn fold_left exec_op fst]; rewrite tail_exec, tail_ws_done, upd_same by lia;
    (split; [reflexivity|split; [reflexivity|]]); intros f Ef;
    apply tail_gen_ids in Ef; rewrite upd_same in Ef; inversion Ef; auto.
Qed.

(* the trail is generated before setResultHash: a failure anywhere in between
   leaves a datetime, the step is not skipped next time *)
Theorem audit_failure_forces_rerun : forall (H : bytes -> bytes) s d executed force out bid k,
  d_checkout d = false -> (1 <= k < 6)%nat ->
  w_result (s_ws (step H s (ECook d executed force out bid k)) (d_path d)) = RStamp.
Proof.
  intros H s d executed force out bid k Hd Hk. cbn [step]. unfold exec_ops, cook_ops. rewrite Hd.
  destruct k as [|[|k]]; [lia| |]; cbn [firstn fold_left exec_op fst].
  - now rewrite upd_same.
  - rewrite tail_exec, tail_ws_result, !upd_same by lia. reflexivity.
Qed.

(* the same for a checkout that runs its script ([executed = true]) only: one
   whose trail is merely regenerated writes no datetime first *)
Theorem checkout_failure_forces_rerun : forall (H : bytes -> bytes) s d force out bid k h,
  d_checkout d = true -> (2 <= k < 6)%nat ->
  w_result (s_ws (step H s (ECook d true force out bid k)) (d_path d)) <> RHash h.
Proof.
  intros H s d force out bid k h Hd Hk. cbn [step]. unfold exec_ops, cook_ops. rewrite Hd.
  destruct k as [|[|k]]; [lia|lia|]. cbn [firstn fold_left exec_op fst].
  rewrite tail_exec, tail_ws_result, upd_same by lia. apply (stamp_if_set_nohash H d s None).
Qed.

Theorem download_trail_checked : forall (H : bytes -> bytes) s p c f k h,
  w_result (s_ws s p) = RNone ->
  w_result (s_ws (step H s (EDownloadForeign p c f k)) p) = RHash h ->
  h = c /\ w_content (s_ws (step H s (EDownloadForeign p c f k)) p) = c /\
  exists fa, f = Some fa /\ w_audit (s_ws (step H s (EDownloadForeign p c f k)) p) = Some fa /\ a_rhash (fst fa) = c.
Proof.
  intros H s p c f k h Er. cbn [step].
  destruct (do_download_cases s p c f k) as [E|[E|(fa & -> & Ec & E)]]; rewrite E, ?upd_same, ?Er; try discriminate.
  cbn [w_result w_content w_audit]. intros Eh. inversion Eh; subst h. repeat split. now exists fa.
Qed.

Theorem shared_trail_is_store_trail : forall (H : bytes -> bytes) s p bid e,
  lookup bid (s_share s) = Some e ->
  let w := s_ws (step H s (EShareUse p bid)) p in
  w_audit w = Some (sh_audit e) /\ w_result w = RHash (sh_hash e) /\ w_content w = sh_content e.
Proof. intros H s p bid e El. cbn [step]. rewrite El, upd_same. repeat split. Qed.

Theorem share_install_links_store : forall (H : bytes -> bytes) s p bid h f,
  w_result (s_ws s p) = RHash h -> w_audit (s_ws s p) = Some f ->
  let s' := step H s (EShareInstall p bid) in
  exists e, lookup bid (s_share s') = Some e /\ w_audit (s_ws s' p) = Some (sh_audit e) /\
            w_content (s_ws s' p) = sh_content e /\
            (lookup bid (s_share s) = None -> sh_audit e = f /\ sh_hash e = h /\ sh_content e = w_content (s_ws s p)).
Proof.
  intros H s p bid h f Er Ea. cbn [step]. rewrite Er, Ea.
  destruct (lookup bid (s_share s)) as [e0|] eqn:El.
  - rewrite El. exists e0. cbn [s_share s_ws]. rewrite N.eqb_refl. cbn [w_audit w_content].
    repeat split; try assumption; discriminate.
  - rewrite lookup_cons_same. eexists. cbn [s_share s_ws]. rewrite lookup_cons_same, N.eqb_refl.
    cbn [w_audit w_content sh_audit sh_content sh_hash]. repeat split.
Qed.

(* the model reproduces the id the pinned implementation gives the example
   record; a different "env" gives a different id; True and 1 collide as the
   int branch of digestData catches bool (and canon says so) *)
Example artifact_id_nonvacuous :
  artifact_id sha1 (ex_art_E) = ex_id /\
  artifact_id sha1 (ex_art_F) = ex_id_F /\
  artifact_id sha1 (ex_art_1) = ex_id /\
  canon (VMap (to_value (ex_art_E))) = canon (VMap (to_value (ex_art_1))) /\
  canon (VMap (to_value (ex_art_E))) <> canon (VMap (to_value (ex_art_F))) /\
  dec 5 (digest_data (VMap (to_value (ex_art_E)))) =
    Some (canon (VMap (to_value (ex_art_E))), []).
Proof.
  (* the two hashes are evaluated by [sha1n] *)
  unfold artifact_id, record_id. rewrite <- !sha1n_eq.
  assert (EE : sha1n (digest_data (VMap (to_value ex_art_E))) = ex_id).
  { vm_compute. reflexivity. }
  (* True and 1 have the same digest, hence the same id *)
  assert (E1 : digest_data (VMap (to_value ex_art_1)) = digest_data (VMap (to_value ex_art_E))).
  { vm_compute. reflexivity. }
  rewrite E1. repeat apply conj; try exact EE; vm_compute; reflexivity || discriminate.
Qed.

(* what the two examples below quote of [ex_state], evaluated in one go *)
Lemma ex_state_facts :
  (file_verdict (w_audit (s_ws ex_state 3)) = (5%nat, VOk) /\
   file_verdict (w_audit (s_ws ex_state 7)) = (2%nat, VOk) /\
   file_verdict (w_audit (s_ws ex_state 1)) = (0%nat, VOk)) /\
  w_result (s_ws ex_state 3) = RHash [73] /\ w_result (s_ws ex_state 7) = RHash [76] /\
  length (s_archive ex_state) = 1%nat /\ length (s_share ex_state) = 1%nat.
Proof.
  (* evaluated with [sha1n]; [s] keeps the one evaluation of the history shared by the seven facts *)
  unfold ex_state. rewrite <- (run_ext sha1n sha1 ex_hist sha1n_eq).
  set (s := run sha1n init ex_hist). vm_compute. repeat split.
Qed.

(* a history with a killed cook, a tool, an invalid argument, upload, prune,
   download, share: the package trail has 5 references and validates; a
   trail that lacks a referenced record does not *)
Example references_closed_nonvacuous :
  Forall trusted ex_hist /\
  file_verdict (w_audit (s_ws ex_state 3)) = (5%nat, VOk) /\
  file_verdict (w_audit (s_ws ex_state 7)) = (2%nat, VOk) /\
  file_verdict (w_audit (s_ws ex_state 1)) = (0%nat, VOk) /\
  validate ex_open = VMissing (repeat 68 20).
Proof.
  destruct ex_state_facts as [(V3 & V7 & V1) _].
  split; [repeat constructor|]. repeat apply conj; try assumption. vm_compute. reflexivity.
Qed.

Example ids_truthful_nonvacuous :
  hist_ok sha1 init ex_hist /\
  w_result (s_ws ex_state 3) = RHash [73] /\ w_result (s_ws ex_state 7) = RHash [76] /\
  w_result (s_ws (run sha1 init (firstn 2 ex_hist)) 2) = RStamp /\
  length (s_archive ex_state) = 1%nat /\ length (s_share ex_state) = 1%nat.
Proof.
  destruct ex_state_facts as (_ & R3 & R7 & LA & LS). split.
  - (* the only share-install finds the share store as empty as it was at the start *)
    unfold ex_hist. cbn [hist_ok ev_ok]. rewrite !step_share by exact I. repeat split.
  - repeat apply conj; try assumption. vm_compute. reflexivity.
Qed.
