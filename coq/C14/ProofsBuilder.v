(* C14 — invariants of the builder micro-op model over histories with any
   failure points: every trail in the project, the archive and the share
   store is closed, if foreign archives deliver closed trails ([trusted]); a
   workspace whose result hash is set holds exactly that content and its trail
   records exactly that hash, if no share-install meets a package with another
   hash ([ev_ok] in Builder.v).  [run_ext] at the end serves the examples: see
   HashExt in ProofsAudit.v. *)
From Coq Require Import List NArith Bool Lia.
Require Import BobV.Common.Cases BobV.Ids.Model BobV.C14.Model BobV.C14.Builder BobV.C14.ProofsAudit.
Import ListNotations.
Open Scope N_scope.

Lemma upd_same s p w : s_ws (upd s p w) p = w.
Proof. cbn [upd s_ws]. now rewrite N.eqb_refl. Qed.

Lemma upd_other s p w q : q <> p -> s_ws (upd s p w) q = s_ws s q.
Proof. intros Hn. cbn [upd s_ws]. apply N.eqb_neq in Hn. now rewrite Hn. Qed.

Lemma lookup_Forall {V} (P : V -> Prop) k m v : Forall P (map snd m) -> lookup k m = Some v -> P v.
Proof.
  induction m as [|[k0 v0] m IH]; cbn [lookup map snd]; [discriminate|]. intros Hm.
  apply Forall_cons_iff in Hm as [Hv Hm]. destruct (eqb_str k k0); [|now apply IH]. now intros [= <-].
Qed.

Lemma lookup_cons_same {V} k (v : V) m : lookup k ((k, v) :: m) = Some v.
Proof. cbn [lookup]. change (eqb_str k k) with (eqb_bytes k k). now rewrite eqb_bytes_refl. Qed.

Lemma do_download_cases s p c f k :
  do_download s p c f k = s \/
  do_download s p c f k = upd s p {| w_content := c; w_result := RNone; w_audit := f |} \/
  exists fa, f = Some fa /\ a_rhash (fst fa) = c /\
             do_download s p c f k = upd s p {| w_content := c; w_result := RHash c; w_audit := f |}.
Proof.
  unfold do_download. destruct (w_result (s_ws s p)); auto. destruct k as [|[|k]]; auto.
  destruct f as [fa|]; auto. change eqb_str with eqb_bytes. destruct (eqb_bytesP (a_rhash (fst fa)) c) as [E|_]; auto.
  right. right. exists fa. auto.
Qed.

Definition ids3 (a : artifact) := (a_vid a, a_bid a, a_rhash a).

Lemma generate_file_ids H g f : generate_file H g = Some f -> ids3 (fst f) = (g_vid g, g_bid g, g_rhash g).
Proof.
  unfold generate_file. destruct (generate H g) as [au|] eqn:E; [|discriminate].
  intros [= <-]. revert au E.
  apply (generate_ind H g (fun au => ids3 (au_art au) = (g_vid g, g_bid g, g_rhash g))); auto.
Qed.

Lemma generate_not_executed_no_deps H g au :
  g_executed g = false -> generate H g = Some au -> get_refs (au_art au) = [] /\ au_refs au = [].
Proof.
  intros Ee E. unfold generate in E. rewrite Ee in E. injection E as <-. split; reflexivity.
Qed.

Lemma exec_op_effect H d s reg o :
  let s' := fst (exec_op H d (s, reg) o) in
  s' = s \/ exists w, s' = upd s (d_path d) w /\
    (w_audit w = w_audit (s_ws s (d_path d)) \/ w_audit w = None \/
     exists b h ex, w_audit w = generate_file H (gen_input s d b h ex)).
Proof.
  destruct o as [| |out| | |bid executed|]; cbn [exec_op fst].
  1, 3, 4, 5: eauto 7.
  - destruct (w_result _); eauto 7.
  - destruct reg; cbn [fst]; [|now left].
    right. eexists. split; [reflexivity|]. right. right. cbn [set_audit w_audit]. eauto.
  - destruct reg; cbn [fst]; eauto 7.
Qed.

Lemma exec_ops_ind H d (P : state -> Prop) :
  (forall s reg o, P s -> P (fst (exec_op H d (s, reg) o))) ->
  forall ops s reg, P s -> P (fst (fold_left (exec_op H d) ops (s, reg))).
Proof.
  intros Hstep. induction ops as [|o ops IH]; intros s reg Hp; [exact Hp|]. cbn [fold_left].
  specialize (Hstep s reg o Hp). destruct (exec_op H d (s, reg) o) as [s1 reg1]. now apply IH.
Qed.

Lemma exec_ops_frame H d ops s :
  let s' := exec_ops H d s ops in
  s_archive s' = s_archive s /\ s_share s' = s_share s /\ forall q, q <> d_path d -> s_ws s' q = s_ws s q.
Proof.
  apply (exec_ops_ind H d (fun s' => s_archive s' = s_archive s /\ s_share s' = s_share s /\
                                     forall q, q <> d_path d -> s_ws s' q = s_ws s q)); [|now repeat split].
  intros s1 reg o (Fa & Fs & Fw). destruct (exec_op_effect H d s1 reg o) as [->|(w & -> & _)]; [auto|].
  repeat split; try assumption. intros q Hq. rewrite upd_other by exact Hq. now apply Fw.
Qed.

(* Every cook that does anything ends with: hash the workspace, remove the old
   trail, write the new one, set the result (cook_ops).  The trail that is
   written, and the cooked workspace after [k] of these four micro-ops: *)
Definition tail_gen H (d : decl) (s : state) (b : option bytes) (ex : bool) : option afile :=
  let w := s_ws s (d_path d) in
  generate_file H (gen_input (upd s (d_path d) (set_audit w None)) d
                             (match b with Some b => b | None => w_content w end) (w_content w) ex).

Definition tail_ws (w : wsst) (g : option afile) (k : nat) : wsst :=
  match k with
  | 0 | 1 => w
  | 2 => set_audit w None
  | 3 => set_audit w g
  | _ => set_result (set_audit w g) (RHash (w_content w))
  end%nat.

Lemma tail_exec H d s b ex k :
  s_ws (fst (fold_left (exec_op H d) (firstn k [OHash; ORemoveAudit; OWriteAudit b ex; OSetResult]) (s, None))) (d_path d)
  = tail_ws (s_ws s (d_path d)) (tail_gen H d s b ex) k.
Proof.
  do 4 (destruct k as [|k]; [cbn [firstn fold_left exec_op fst]; rewrite ?upd_same; reflexivity|]).
  cbn [firstn]. rewrite firstn_nil. cbn [fold_left exec_op fst]. now rewrite !upd_same.
Qed.

Lemma tail_ws_result w g k : (k < 4)%nat -> w_result (tail_ws w g k) = w_result w.
Proof. intros Hk. do 4 (destruct k as [|k]; [reflexivity|]). lia. Qed.

Lemma tail_ws_done w g k : (4 <= k)%nat -> tail_ws w g k = set_result (set_audit w g) (RHash (w_content w)).
Proof. intros Hk. do 4 (destruct k as [|k]; [lia|]). reflexivity. Qed.

Lemma tail_gen_ids H d s b ex f : tail_gen H d s b ex = Some f ->
  ids3 (fst f) = (g_vid (d_base d), match b with Some b => b | None => w_content (s_ws s (d_path d)) end,
                  w_content (s_ws s (d_path d))).
Proof. apply generate_file_ids. Qed.

Section Invariant.
  Variables (W : wsst -> Prop) (A : entry -> Prop) (Sh : shent -> Prop).

  Definition Inv (s : state) : Prop :=
    (forall p, W (s_ws s p)) /\ Forall A (map snd (s_archive s)) /\ Forall Sh (map snd (s_share s)).

  Lemma inv_link s sh p w :
    Inv s -> Forall Sh (map snd sh) -> W w ->
    Inv {| s_ws := fun q => if q =? p then w else s_ws s q; s_archive := s_archive s; s_share := sh |}.
  Proof.
    intros (Hw & Ha & _) Hs Hc. split; [|split; assumption].
    intros q. cbn [s_ws]. destruct (q =? p); [exact Hc|apply Hw].
  Qed.

  Lemma inv_upd s p w : Inv s -> W w -> Inv (upd s p w).
  Proof. intros Hi. apply (inv_link s (s_share s) p w Hi), Hi. Qed.

  Lemma inv_archive s bid e :
    Inv s -> A e -> Inv {| s_ws := s_ws s; s_archive := (bid, e) :: s_archive s; s_share := s_share s |}.
  Proof. intros (Hw & Ha & Hs) He. split; [exact Hw|split; [now constructor|exact Hs]]. Qed.

  Lemma inv_init : W empty_ws -> Inv init.
  Proof. intros Hw. split; [intros p; exact Hw|split; constructor]. Qed.

  Lemma inv_cook H s d executed force out bid k :
    Inv s -> W (s_ws (step H s (ECook d executed force out bid k)) (d_path d)) ->
    Inv (step H s (ECook d executed force out bid k)).
  Proof.
    intros (Hw & Ha & Hs) Hp. cbn [step] in *.
    destruct (exec_ops_frame H d (firstn k (cook_ops s d executed force out bid)) s) as (Fa & Fs & Fw).
    split; [|split; [rewrite Fa; exact Ha|rewrite Fs; exact Hs]].
    intros q. destruct (N.eq_dec q (d_path d)) as [->|Hn]; [exact Hp|]. rewrite Fw by exact Hn. apply Hw.
  Qed.

  Lemma inv_in s : Inv s ->
    (forall p, W (s_ws s p)) /\ (forall bid e, In (bid, e) (s_archive s) -> A e) /\
    (forall bid e, In (bid, e) (s_share s) -> Sh e).
  Proof.
    intros (Hw & Ha & Hs). rewrite Forall_forall in Ha, Hs.
    split; [exact Hw|split; intros bid e Hin; [apply Ha|apply Hs]; apply (in_map snd _ _ Hin)].
  Qed.

  (* [P s es]: what is asked of the history [es] that starts in [s] *)
  Lemma run_inv H (P : state -> list event -> Prop) :
    (forall s e es, P s (e :: es) -> Inv s -> Inv (step H s e) /\ P (step H s e) es) ->
    forall es s, P s es -> Inv s -> Inv (run H s es).
  Proof.
    intros Hstep. induction es as [|e es IH]; intros s Hp Hi; [exact Hi|].
    destruct (Hstep s e es Hp Hi) as [Hi' Hp']. exact (IH _ Hp' Hi').
  Qed.
End Invariant.

Definition closedW (w : wsst) : Prop := dep_ok (w_audit w).
Definition Closed : state -> Prop :=
  Inv closedW (fun e => file_closed (e_audit e)) (fun e => file_closed (sh_audit e)).

(* foreign archives are trusted to deliver closed trails (Bob validates a
   downloaded trail only under DEBUG['audit']) *)
Definition trusted (e : event) : Prop :=
  match e with
  | EDownloadForeign _ _ (Some f) _ => file_closed f
  | _ => True
  end.

Lemma gen_input_deps_ok s d b h ex : Closed s -> deps_ok (gen_input s d b h ex).
Proof.
  intros [Hw _]. unfold deps_ok, gen_input. cbn [g_tools g_sandbox g_args].
  split; [|split]; try (apply Forall_map, Forall_forall; intros np _; apply Hw).
  intros o E. destruct (d_sandbox d); [injection E as <-|discriminate]. apply Hw.
Qed.

Lemma exec_ops_closed H d ops s : Closed s -> Closed (exec_ops H d s ops).
Proof.
  apply exec_ops_ind. intros s1 reg o Hc.
  destruct (exec_op_effect H d s1 reg o) as [->|(w & -> & Hw)]; [exact Hc|].
  apply inv_upd; [exact Hc|]. unfold closedW. destruct Hw as [->|[->|(b & h & ex & ->)]].
  - apply Hc.
  - discriminate.
  - intros f E. eapply generate_file_closed; [apply gen_input_deps_ok, Hc|exact E].
Qed.

Lemma do_download_closed s p c f k : Closed s -> dep_ok f -> Closed (do_download s p c f k).
Proof.
  intros Hc Hf. destruct (do_download_cases s p c f k) as [E|[E|(fa & _ & _ & E)]]; rewrite E;
    [exact Hc|now apply inv_upd..].
Qed.

Lemma step_closed H s e : trusted e -> Closed s -> Closed (step H s e).
Proof.
  intros Ht Hc. pose proof Hc as (Hw & Ha & Hs). destruct e; cbn [step].
  - apply exec_ops_closed, Hc.
  - apply inv_upd; [exact Hc|apply Hw].
  - destruct (w_result (s_ws s p)); try exact Hc. destruct (w_audit (s_ws s p)) as [f|] eqn:E; [|exact Hc].
    apply inv_archive; [exact Hc|]. apply (Hw p), E.
  - destruct (lookup bid (s_archive s)) as [e|] eqn:E; [|exact Hc].
    apply do_download_closed; [exact Hc|exact (dep_ok_some _ (lookup_Forall _ _ _ _ Ha E))].
  - apply do_download_closed; [exact Hc|]. intros fa ->. exact Ht.
  - destruct (w_result (s_ws s p)) as [| |h]; try exact Hc.
    destruct (w_audit (s_ws s p)) as [f|] eqn:E; [|exact Hc].
    set (sh := match lookup bid (s_share s) with Some _ => s_share s | None => _ end).
    assert (Hsh : Forall (fun e => file_closed (sh_audit e)) (map snd sh)).
    { unfold sh. destruct (lookup bid (s_share s)); [exact Hs|]. constructor; [|exact Hs]. apply (Hw p), E. }
    destruct (lookup bid sh) as [e|] eqn:El; [|exact Hc].
    apply inv_link; [exact Hc|exact Hsh|exact (dep_ok_some _ (lookup_Forall _ _ _ _ Hsh El))].
  - destruct (lookup bid (s_share s)) as [e|] eqn:E; [|exact Hc].
    apply inv_upd; [exact Hc|exact (dep_ok_some _ (lookup_Forall _ _ _ _ Hs E))].
Qed.

Lemma init_closed : Closed init.
Proof. apply inv_init. discriminate. Qed.

Lemma run_closed H es : forall s, Forall trusted es -> Closed s -> Closed (run H s es).
Proof.
  apply (run_inv _ _ _ H (fun _ => Forall trusted)). intros s e es' Ht Hc.
  apply Forall_cons_iff in Ht as [He Ht]. split; [now apply step_closed|exact Ht].
Qed.

Definition truthW (w : wsst) : Prop :=
  forall h, w_result w = RHash h -> w_content w = h /\ forall f, w_audit w = Some f -> a_rhash (fst f) = h.

Definition Truth : state -> Prop :=
  Inv truthW (fun e => a_rhash (fst (e_audit e)) = e_content e)
      (fun e => sh_hash e = sh_content e /\ a_rhash (fst (sh_audit e)) = sh_hash e).

Lemma truthW_nohash w : (forall h, w_result w <> RHash h) -> truthW w.
Proof. intros Hn h Eh. now destruct (Hn h). Qed.

Lemma truthW_hash c h a :
  c = h -> match a with Some f => a_rhash (fst f) = h | None => True end ->
  truthW {| w_content := c; w_result := RHash h; w_audit := a |}.
Proof.
  intros -> Ha h' [= <-]. split; [reflexivity|].
  intros f Ef. cbn [w_audit] in Ef. subst a. exact Ha.
Qed.

(* the four last micro-ops keep a workspace truthful: the trail that carries
   the hash is written before the hash becomes the result *)
Lemma tail_ws_truth H d s b ex k :
  truthW (s_ws s (d_path d)) -> truthW (tail_ws (s_ws s (d_path d)) (tail_gen H d s b ex) k).
Proof.
  intros Ht. pose proof (tail_gen_ids H d s b ex) as Hg. unfold ids3 in Hg.
  do 4 (try destruct k as [|k]); cbn [tail_ws]; try exact Ht; intros h Eh;
    cbn [set_result set_audit w_result w_content w_audit] in *.
  - destruct (Ht h Eh) as [Hc _]. split; [exact Hc|discriminate].
  - destruct (Ht h Eh) as [Hc _]. split; [exact Hc|]. intros f Ef. apply Hg in Ef. congruence.
  - injection Eh as <-. split; [reflexivity|]. intros f Ef. apply Hg in Ef. congruence.
Qed.

Lemma stamp_if_set_nohash H d s reg h :
  w_result (s_ws (fst (exec_op H d (s, reg) OStampIfSet)) (d_path d)) <> RHash h.
Proof.
  cbn [exec_op fst]. destruct (w_result (s_ws s (d_path d))) eqn:Er; rewrite ?upd_same; cbn [set_result w_result];
    rewrite ?Er; discriminate.
Qed.

Lemma cook_truthW H s d executed force out bid k :
  truthW (s_ws s (d_path d)) ->
  truthW (s_ws (step H s (ECook d executed force out bid k)) (d_path d)).
Proof.
  intros Ht. cbn [step]. unfold exec_ops, cook_ops.
  destruct (d_checkout d); [destruct executed|].
  - destruct k as [|[|k]]; cbn [firstn fold_left exec_op fst];
      [exact Ht| |rewrite tail_exec; apply tail_ws_truth; rewrite upd_same];
      apply truthW_nohash; intros h; apply (stamp_if_set_nohash H d s None).
  - destruct (force || _); [rewrite tail_exec; now apply tail_ws_truth|]. now rewrite firstn_nil.
  - destruct k as [|[|k]]; cbn [firstn fold_left exec_op fst]; [exact Ht| |rewrite tail_exec; apply tail_ws_truth];
      rewrite !upd_same; apply truthW_nohash; discriminate.
Qed.

Lemma do_download_truth s p c f k : Truth s -> Truth (do_download s p c f k).
Proof.
  intros Ht. destruct (do_download_cases s p c f k) as [E|[E|(fa & -> & Ec & E)]]; rewrite E;
    [exact Ht|apply inv_upd; [exact Ht|]..].
  - apply truthW_nohash. discriminate.
  - now apply truthW_hash.
Qed.

Lemma step_truth H s e : ev_ok s e -> Truth s -> Truth (step H s e).
Proof.
  intros Hok Ht. pose proof Ht as (Hw & Ha & Hs). destruct e.
  - apply inv_cook; [exact Ht|apply cook_truthW, Hw].
  - apply inv_upd; [exact Ht|]. apply truthW_nohash. discriminate.
  - cbn [step]. destruct (w_result (s_ws s p)) as [| |h] eqn:Er; try exact Ht.
    destruct (w_audit (s_ws s p)) as [f|] eqn:E; [|exact Ht].
    apply inv_archive; [exact Ht|].
    cbn [e_audit e_content]. destruct (Hw p h Er) as [Hc Hf]. rewrite Hc. apply Hf, E.
  - cbn [step]. destruct (lookup bid (s_archive s)); [|exact Ht]. now apply do_download_truth.
  - now apply do_download_truth.
  - cbn [step]. cbn [ev_ok] in Hok.
    destruct (w_result (s_ws s p)) as [| |h] eqn:Er; try exact Ht.
    destruct (w_audit (s_ws s p)) as [f|] eqn:E; [|exact Ht].
    destruct (Hw p h Er) as [Hc Hf]. specialize (Hf f E).
    destruct (lookup bid (s_share s)) as [e0|] eqn:El.
    + rewrite El. apply inv_link; [exact Ht|exact Hs|].
      destruct (lookup_Forall _ _ _ _ Hs El) as [H1 H2]. apply truthW_hash; congruence.
    + rewrite lookup_cons_same. apply inv_link; [exact Ht| |now apply truthW_hash].
      constructor; [|exact Hs]. split; [now symmetry|exact Hf].
  - cbn [step]. destruct (lookup bid (s_share s)) as [e|] eqn:El; [|exact Ht].
    destruct (lookup_Forall _ _ _ _ Hs El) as [H1 H2]. apply inv_upd; [exact Ht|]. now apply truthW_hash.
Qed.

Lemma init_truth : Truth init.
Proof. apply inv_init. discriminate. Qed.

Lemma run_truth H es : forall s, hist_ok H s es -> Truth s -> Truth (run H s es).
Proof.
  apply (run_inv _ _ _ H (hist_ok H)). intros s e es' [H1 H2] Ht. split; [now apply step_truth|exact H2].
Qed.

Lemma do_download_share s p c f k : s_share (do_download s p c f k) = s_share s.
Proof. destruct (do_download_cases s p c f k) as [E|[E|(fa & _ & _ & E)]]; now rewrite E. Qed.

Lemma step_share H s e :
  match e with EShareInstall _ _ => False | _ => True end -> s_share (step H s e) = s_share s.
Proof.
  intros He. destruct e; cbn [step].
  - apply exec_ops_frame.
  - reflexivity.
  - destruct (w_result (s_ws s p)), (w_audit (s_ws s p)); reflexivity.
  - destruct (lookup bid (s_archive s)); [apply do_download_share|reflexivity].
  - apply do_download_share.
  - destruct He.
  - destruct (lookup bid (s_share s)); reflexivity.
Qed.

Lemma run_ext H H' es : (forall m, H m = H' m) -> forall s, run H s es = run H' s es.
Proof.
  intros HH.
  assert (E : forall d ops sr, fold_left (exec_op H d) ops sr = fold_left (exec_op H' d) ops sr).
  { induction ops as [|o ops IH]; intros [s reg]; [reflexivity|]. cbn [fold_left]. rewrite <- IH. f_equal.
    destruct o; try reflexivity. cbn [exec_op]. destruct reg; now rewrite ?(generate_file_ext H H' HH). }
  induction es as [|e es IH]; intros s; [reflexivity|].
  change (run H (step H s e) es = run H' (step H' s e) es). rewrite IH. f_equal.
  destruct e; try reflexivity. cbn [step]. unfold exec_ops. now rewrite E.
Qed.
