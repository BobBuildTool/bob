(* C14 — the digest of a record is uniquely decodable (decoder round trip),
   hence artifact ids are injective up to an explicit hash collision, and
   they depend on the dict only (not on insertion order). *)
From Coq Require Import List NArith ZArith Bool Lia Permutation.
Require Import BobV.Common.Cases BobV.Ids.Model BobV.Ids.Proofs BobV.Gen.ConstsC14 BobV.C14.Model.
Import ListNotations.
Open Scope N_scope.

Definition on_snd {A B} (g : A -> B) (kx : str * A) : str * B := (fst kx, g (snd kx)).

(* Canonical form = the dict as a value:
   maps sorted by key (a dict has no order), bool folded into int where the
   int branch of digestData catches it (Python: True == 1) *)
Fixpoint canon (v : value) : value :=
  match v with
  | VMap m =>
      VMap (sort_by fst ((fix go (l : list (str * value)) : list (str * value) :=
                            match l with
                            | [] => []
                            | kx :: r => (fst kx, canon (snd kx)) :: go r
                            end) m))
  | VList l =>
      VList ((fix go (l : list value) : list value :=
                match l with
                | [] => []
                | x :: r => canon x :: go r
                end) l)
  | VBool b => if bool_as_int then VInt (if b then 1 else 0)%Z else VBool b
  | _ => v
  end.

Lemma canon_map m : canon (VMap m) = VMap (sort_by fst (map (on_snd canon) m)).
Proof. reflexivity. Qed.

Lemma canon_list l : canon (VList l) = VList (map canon l).
Proof. reflexivity. Qed.

Lemma digest_map m :
  digest_data (VMap m) =
  tag_map :: le32 (llen m) ++ flat_map enc_entry (sort_by fst (map (on_snd digest_data) m)).
Proof. reflexivity. Qed.

Lemma digest_list l :
  digest_data (VList l) = tag_list :: le32 (llen l) ++ flat_map digest_data l.
Proof. reflexivity. Qed.

Lemma sort_by_on_snd {A B} (g : A -> B) l :
  sort_by fst (map (on_snd g) l) = map (on_snd g) (sort_by fst l).
Proof. symmetry. now apply sort_by_map. Qed.

Definition int64 (z : Z) : Prop := (-9223372036854775808 <= z < 9223372036854775808)%Z.

Fixpoint wf (v : value) : Prop :=
  match v with
  | VStr s => wf_str s
  | VMap m =>
      small (llen m) /\
      (fix go (l : list (str * value)) : Prop :=
         match l with
         | [] => True
         | kx :: r => (wf_str (fst kx) /\ wf (snd kx)) /\ go r
         end) m
  | VList l =>
      small (llen l) /\
      (fix go (l : list value) : Prop :=
         match l with
         | [] => True
         | x :: r => wf x /\ go r
         end) l
  | VInt z => int64 z
  | VBool _ => True
  | VBytes b => small (llen b)
  | VNone => True
  end.

Lemma wf_map m : wf (VMap m) <-> small (llen m) /\ Forall (fun kx => wf_str (fst kx) /\ wf (snd kx)) m.
Proof.
  cbn [wf]. apply and_iff_compat_l. induction m as [|kx m IH]; [now split|].
  rewrite Forall_cons_iff. apply and_iff_compat_l, IH.
Qed.

Lemma wf_list l : wf (VList l) <-> small (llen l) /\ Forall wf l.
Proof.
  cbn [wf]. apply and_iff_compat_l. induction l as [|x l IH]; [now split|].
  rewrite Forall_cons_iff. apply and_iff_compat_l, IH.
Qed.

Fixpoint depth (v : value) : nat :=
  match v with
  | VMap m =>
      S ((fix go (l : list (str * value)) : nat :=
            match l with
            | [] => O
            | kx :: r => Nat.max (depth (snd kx)) (go r)
            end) m)
  | VList l =>
      S ((fix go (l : list value) : nat :=
            match l with
            | [] => O
            | x :: r => Nat.max (depth x) (go r)
            end) l)
  | _ => 1%nat
  end.

Lemma depth_map m f : (depth (VMap m) <= S f)%nat -> Forall (fun kx => (depth (snd kx) <= f)%nat) m.
Proof.
  cbn [depth]. intros Hd%le_S_n.
  induction m as [|kx m IH]; constructor; [eapply Nat.max_lub_l|eapply IH, Nat.max_lub_r]; exact Hd.
Qed.

Lemma depth_list l f : (depth (VList l) <= S f)%nat -> Forall (fun x => (depth x <= f)%nat) l.
Proof.
  cbn [depth]. intros Hd%le_S_n.
  induction l as [|x l IH]; constructor; [eapply Nat.max_lub_l|eapply IH, Nat.max_lub_r]; exact Hd.
Qed.

Lemma depth_pos v : (1 <= depth v)%nat.
Proof. destruct v; apply le_n_S, Nat.le_0_l. Qed.

Definition de64 (l : bytes) : option (N * bytes) :=
  obind (de32 l) (fun lo r => obind (de32 r) (fun hi r' => Some (lo + 4294967296 * hi, r'))).

Definition z_of_u64 (n : N) : Z :=
  if n <? 9223372036854775808 then Z.of_N n else (Z.of_N n - 18446744073709551616)%Z.

Lemma de64_le64 n r : n < 18446744073709551616 -> de64 (le64 n ++ r) = Some (n, r).
Proof.
  intros Hn. unfold de64, le64. rewrite <- app_assoc.
  rewrite de32_le32 by (apply N.mod_lt; discriminate). cbn [obind].
  rewrite de32_le32 by (apply N.div_lt_upper_bound; [discriminate|exact Hn]). cbn [obind].
  rewrite N.add_comm, <- N.div_mod by discriminate. reflexivity.
Qed.

Lemma z_of_u64_wrap z : int64 z -> z_of_u64 (Z.to_N (z mod 18446744073709551616)) = z.
Proof.
  intros [Hlo Hhi]. unfold z_of_u64.
  destruct (N.ltb_spec (Z.to_N (z mod 18446744073709551616)) 9223372036854775808); lia.
Qed.

(* The decoder whose existence is the content of digest_uniquely_decodable: it
   reads one value off the front of a digest and returns the rest; [fuel]
   bounds the nesting ([depth]).  A map key is always written by digestString. *)
Definition dec_key (l : bytes) : option (str * bytes) :=
  match l with
  | t :: r => if t =? tag_str then p_lstr r else None
  | [] => None
  end.

Fixpoint dec (fuel : nat) (l : bytes) : option (value * bytes) :=
  match fuel with
  | O => None
  | S f =>
    match l with
    | [] => None
    | t :: r =>
      if t =? tag_str then obind (p_lstr r) (fun s r' => Some (VStr s, r'))
      else if t =? tag_map then
        obind (de32 r) (fun n r1 =>
        obind (p_many (fun l => obind (dec_key l) (fun k r2 => obind (dec f r2) (fun x r3 => Some ((k, x), r3))))
                      (N.to_nat n) r1) (fun m r' => Some (VMap m, r')))
      else if t =? tag_list then
        obind (de32 r) (fun n r1 => obind (p_many (dec f) (N.to_nat n) r1) (fun xs r' => Some (VList xs, r')))
      else if t =? tag_int then obind (de64 r) (fun n r' => Some (VInt (z_of_u64 n), r'))
      else if t =? tag_bool then
        match r with b :: r' => Some (VBool (negb (b =? 0)), r') | [] => None end
      else if t =? tag_bytes then
        obind (de32 r) (fun n r1 => obind (p_take (N.to_nat n) r1) (fun b r' => Some (VBytes b, r')))
      else if t =? tag_none then Some (VNone, r)
      else None
    end
  end.

(* the seven tags are pairwise different (checked on the regenerated constants) *)
Lemma tags_distinct : NoDup [tag_str; tag_map; tag_list; tag_int; tag_bool; tag_bytes; tag_none].
Proof. repeat constructor; cbn [In]; intuition discriminate. Qed.

Lemma dec_map_tag f r : dec (S f) (tag_map :: r) =
  obind (de32 r) (fun n r1 =>
  obind (p_many (fun l => obind (dec_key l) (fun k r2 => obind (dec f r2) (fun x r3 => Some ((k, x), r3))))
                (N.to_nat n) r1) (fun m r' => Some (VMap m, r'))).
Proof. reflexivity. Qed.

Lemma dec_list_tag f r : dec (S f) (tag_list :: r) =
  obind (de32 r) (fun n r1 => obind (p_many (dec f) (N.to_nat n) r1) (fun xs r' => Some (VList xs, r'))).
Proof. reflexivity. Qed.

Lemma dec_key_str k r : wf_str k -> dec_key (digest_string k ++ r) = Some (k, r).
Proof. apply p_lstr_rt. Qed.

Lemma dec_str f s r : wf_str s -> dec (S f) (digest_string s ++ r) = Some (VStr s, r).
Proof.
  intros Hs. change (obind (p_lstr (enc_lstr s ++ r)) (fun s r' => Some (VStr s, r')) = Some (VStr s, r)).
  now rewrite p_lstr_rt.
Qed.

Lemma dec_int f z r : int64 z -> dec (S f) (tag_int :: int_bytes z ++ r) = Some (VInt z, r).
Proof.
  intros Hz. change (obind (de64 (int_bytes z ++ r)) (fun n r' => Some (VInt (z_of_u64 n), r')) = Some (VInt z, r)).
  unfold int_bytes. rewrite de64_le64 by (apply N2Z.inj_lt; rewrite Z2N.id; now apply Z.mod_pos_bound).
  cbn [obind]. now rewrite z_of_u64_wrap.
Qed.

Lemma dec_bytes f b r : small (llen b) -> dec (S f) (tag_bytes :: le32 (llen b) ++ b ++ r) = Some (VBytes b, r).
Proof.
  intros Hb. change (obind (de32 (le32 (llen b) ++ b ++ r))
                       (fun n r1 => obind (p_take (N.to_nat n) r1) (fun b r' => Some (VBytes b, r'))) = Some (VBytes b, r)).
  rewrite de32_le32 by exact Hb. cbn [obind]. unfold llen. now rewrite Nat2N.id, p_take_rt.
Qed.

Lemma dec_bool_tag f b r : dec (S f) (tag_bool :: b :: r) = Some (VBool (negb (b =? 0)), r).
Proof. reflexivity. Qed.

Lemma dec_none_tag f r : dec (S f) (tag_none :: r) = Some (VNone, r).
Proof. reflexivity. Qed.

Lemma Forall_and_inv {A} (P Q : A -> Prop) l : Forall (fun x => P x /\ Q x) l -> Forall P l /\ Forall Q l.
Proof. apply List.Forall_and_inv. Qed.

(* Induction on the fuel: the hypothesis speaks of all values and so applies
   to the elements of a map or list as they are. *)
Lemma dec_digest : forall f v, wf v -> (depth v <= f)%nat -> forall r,
  dec f (digest_data v ++ r) = Some (canon v, r).
Proof.
  induction f as [|f IH]; intros v Hwf Hd r; [pose proof (depth_pos v); lia|].
  destruct v as [s|m|l|z|b|b|].
  - now apply dec_str.
  - apply wf_map in Hwf. destruct Hwf as [Hs Hm]. apply depth_map in Hd.
    rewrite digest_map, canon_map, !sort_by_on_snd. cbn [app].
    rewrite dec_map_tag, <- app_assoc, flat_map_map.
    apply (p_counted_rt (fun kx => enc_entry (on_snd digest_data kx)) (on_snd canon) _
             (fun kx => (wf_str (fst kx) /\ wf (snd kx)) /\ (depth (snd kx) <= f)%nat)).
    + intros kx r0 [[Hk Hv] Hdx]. unfold enc_entry, on_snd. cbn [fst snd].
      rewrite <- app_assoc, dec_key_str by exact Hk. cbn [obind]. now rewrite IH.
    + exact Hs.
    + apply Forall_sort_by. now apply Forall_and.
    + unfold llen. now rewrite sort_by_length.
  - apply wf_list in Hwf. destruct Hwf as [Hs Hl]. apply depth_list in Hd.
    rewrite digest_list, canon_list. cbn [app]. rewrite dec_list_tag, <- app_assoc.
    apply (p_counted_rt digest_data canon (dec f) (fun x => wf x /\ (depth x <= f)%nat));
      [|exact Hs|now apply Forall_and|reflexivity].
    intros x r0 [Hv Hdx]. now apply IH.
  - now apply dec_int.
  - cbn [digest_data canon]. destruct bool_as_int.
    + apply dec_int. destruct b; unfold int64; lia.
    + cbn [app]. rewrite dec_bool_tag. now destruct b.
  - cbn [digest_data canon app]. rewrite <- app_assoc. now apply dec_bytes.
  - apply dec_none_tag.
Qed.

Lemma digest_data_prefix_free_proof a b r1 r2 :
  wf a -> wf b -> digest_data a ++ r1 = digest_data b ++ r2 -> canon a = canon b /\ r1 = r2.
Proof.
  intros Ha Hb E.
  pose proof (dec_digest _ a Ha (Nat.le_max_l _ (depth b)) r1) as Da.
  rewrite E, (dec_digest _ b Hb (Nat.le_max_r _ _)) in Da. injection Da. auto.
Qed.

Lemma digest_data_injective a b : wf a -> wf b -> digest_data a = digest_data b -> canon a = canon b.
Proof. intros Ha Hb E. apply (digest_data_prefix_free_proof a b [] [] Ha Hb). now rewrite E. Qed.

Lemma digest_hash_injective_or_collision (H : bytes -> bytes) a b :
  wf a -> wf b -> H (digest_data a) = H (digest_data b) ->
  canon a = canon b \/ collision H (digest_data a) (digest_data b).
Proof.
  intros Ha Hb E. destruct (bytes_eq_dec (digest_data a) (digest_data b)) as [Eq|Ne].
  - left. now apply digest_data_injective.
  - right. now split.
Qed.

Lemma digest_map_perm m1 m2 :
  NoDup (map fst m1) -> Permutation m1 m2 -> digest_data (VMap m1) = digest_data (VMap m2).
Proof.
  intros Hn Hp. rewrite !digest_map. unfold llen. rewrite (Permutation_length Hp).
  erewrite sort_by_perm_eq_proof; [reflexivity|now apply Permutation_map|now rewrite map_map].
Qed.
