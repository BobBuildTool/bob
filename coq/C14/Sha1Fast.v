(* SHA-1 over byte lists with primitive 63-bit integers: same function as
   Common/Sha1.v, only much faster under vm_compute.  Used solely by the
   harness to *run* the C14 model on records of several KiB; no theorem
   depends on it.  Cross-checked against Common/Sha1.v at the end. *)
From Coq Require Import List NArith ZArith Uint63.
Require Import BobV.Common.Sha1 BobV.Common.Sha1Digits.
Import ListNotations.

Module F.
Local Open Scope uint63_scope.

Definition m32 : int := 4294967295.
Definition add32 (a b : int) : int := (a + b) land m32.
Definition rotl (n x : int) : int := ((x << n) lor (x >> (32 - n))) land m32.
Definition not32 (x : int) : int := x lxor m32.

Fixpoint words_of (bs : list int) : list int :=
  match bs with
  | a :: b :: c :: d :: r => ((a << 24) + (b << 16) + (c << 8) + d) :: words_of r
  | _ => []
  end.

Definition nthI (l : list int) (k : nat) : int := nth k l 0.

Definition fk (t : nat) (b c d : int) : int * int :=
  if Nat.ltb t 20 then ((b land c) lor ((not32 b) land d), 1518500249)
  else if Nat.ltb t 40 then ((b lxor c) lxor d, 1859775393)
  else if Nat.ltb t 60 then (((b land c) lor (b land d)) lor (c land d), 2400959708)
  else ((b lxor c) lxor d, 3395469782).

Fixpoint rounds (n : nat) (t : nat) (pending win : list int) (a b c d e : int) : int * int * int * int * int :=
  match n with
  | O => (a, b, c, d, e)
  | S n' =>
    let '(w, pending') :=
        match pending with
        | x :: r => (x, r)
        | [] => (rotl 1 (((nthI win 2) lxor (nthI win 7)) lxor ((nthI win 13) lxor (nthI win 15))), [])
        end in
    let '(f, k) := fk t b c d in
    let temp := add32 (add32 (add32 (add32 (rotl 5 a) f) e) k) w in
    rounds n' (S t) pending' (w :: firstn 15 win) temp a (rotl 30 b) c d
  end.

Definition process_block (h : int * int * int * int * int) (block : list int) : int * int * int * int * int :=
  let '(h0, h1, h2, h3, h4) := h in
  let '(a, b, c, d, e) := rounds 80 0 (words_of block) [] h0 h1 h2 h3 h4 in
  (add32 h0 a, add32 h1 b, add32 h2 c, add32 h3 d, add32 h4 e).

Fixpoint blocks (fuel : nat) (bs : list int) (h : int * int * int * int * int) : int * int * int * int * int :=
  match fuel with
  | O => h
  | S f =>
    match bs with
    | [] => h
    | _ => blocks f (skipn 64 bs) (process_block h (firstn 64 bs))
    end
  end.

Definition be32 (w : int) : list int := [(w >> 24) land 255; (w >> 16) land 255; (w >> 8) land 255; w land 255].
End F.

Definition i2n (i : int) : N := Z.to_N (Uint63.to_Z i).
Definition n2i (n : N) : int := Uint63.of_Z (Z.of_N n).

(* padding is done on N as in Common/Sha1.v *)
Definition sha1f (msg : list N) : list N :=
  let p := map n2i (pad msg) in
  let '(h0, h1, h2, h3, h4) :=
      F.blocks (S (length p)) p (1732584193, 4023233417, 2562383102, 271733878, 3285377520)%uint63 in
  map i2n (F.be32 h0 ++ F.be32 h1 ++ F.be32 h2 ++ F.be32 h3 ++ F.be32 h4).

Example sha1f_agrees :
  sha1f [] = sha1 [] /\ sha1f [97; 98; 99] = sha1 [97; 98; 99] /\
  sha1f (repeat 200%N 119) = sha1 (repeat 200%N 119) /\ sha1f (repeat 0%N 64) = sha1 (repeat 0%N 64) /\
  sha1f (map N.of_nat (seq 0 256)) = sha1 (map N.of_nat (seq 0 256)).
Proof.
  rewrite sha1_empty, sha1_abc, <- !sha1n_eq. set (l := map N.of_nat (seq 0 256)).
  repeat apply conj; vm_compute; reflexivity.
Qed.
