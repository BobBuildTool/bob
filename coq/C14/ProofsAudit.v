(* C14 — the references of a generated trail are closed (merge = "references
   of the other trail plus its artifact"), closed trails survive save/load,
   the generator uses the hash function through its values only, a generated
   trail lists the valid arguments in order, and the closure walk of
   Audit.__validate accepts a closed trail with the fuel the model gives it. *)
From Coq Require Import List NArith Bool Lia Permutation.
Require BobV.Common.ListFacts.
Require Import BobV.Common.Cases BobV.Ids.Model BobV.Ids.Proofs BobV.C14.Model.
Import ListNotations.
Open Scope N_scope.

Lemma eqb_bytesP x y : reflect (x = y) (eqb_bytes x y).
Proof. apply iff_reflect. symmetry. apply ListFacts.eqb_str_eq. Qed.

Lemma eqb_bytes_refl x : eqb_bytes x x = true.
Proof. now destruct (eqb_bytesP x x). Qed.

Lemma memP x l : reflect (In x l) (mem x l).
Proof. apply iff_reflect. symmetry. exact (ListFacts.existsb_eqb_In _ _ eqb_bytesP x l). Qed.

Definition keys (m : refmap) : list bytes := map fst m.

Lemma rm_set_keys k v m k' : In k' (keys (rm_set k v m)) <-> In k' (k :: keys m).
Proof.
  induction m as [|[k0 v0] m IH]; cbn [rm_set keys map fst In]; [reflexivity|].
  destruct (eqb_bytesP k k0) as [->|_]; cbn [keys map fst In]; [clear; tauto|].
  unfold keys in IH. rewrite IH. cbn [In]. clear. tauto.
Qed.

Lemma rm_set_Forall (Q : bytes * artifact -> Prop) k v m :
  Forall Q m -> Q (k, v) -> Forall Q (rm_set k v m).
Proof.
  intros Hm Hq. induction Hm as [|[k0 v0] m Hx Hm IH]; cbn [rm_set]; [now constructor|].
  destruct (eqb_bytes k k0); now constructor.
Qed.

Lemma rm_update_keys o : forall m k', In k' (keys (rm_update m o)) <-> In k' (keys m) \/ In k' (keys o).
Proof.
  unfold rm_update. induction o as [|[k v] o IH]; intros m k'; cbn [fold_left keys map In fst snd]; [tauto|].
  rewrite IH, rm_set_keys. cbn [In]. unfold keys. tauto.
Qed.

Lemma rm_update_Forall (Q : bytes * artifact -> Prop) o : forall m,
  Forall Q m -> Forall Q o -> Forall Q (rm_update m o).
Proof.
  unfold rm_update. induction o as [|[k v] o IH]; intros m Hm Ho; cbn [fold_left]; [exact Hm|].
  apply Forall_cons_iff in Ho as [Hk Ho]. apply IH; [apply rm_set_Forall|]; assumption.
Qed.

Lemma rm_get_in k m : In k (keys m) -> exists r, rm_get k m = Some r /\ In (k, r) m.
Proof.
  induction m as [|[k0 v0] m IH]; cbn [keys map fst In rm_get]; [intros []|].
  intros Hin. destruct (eqb_bytesP k k0) as [->|Hn].
  - eexists; split; [reflexivity|now left].
  - destruct Hin as [->|Hin]; [contradiction|].
    destruct (IH Hin) as [r [Hr Hi]]. exists r. split; [exact Hr|now right].
Qed.

(* every record of the dict is stored under its own id, and everything a
   record (or the artifact) references is in the dict *)
Definition entry_ok (K : list bytes) (kv : bytes * artifact) : Prop :=
  a_id (snd kv) = Some (fst kv) /\ incl (get_refs (snd kv)) K.

Definition mem_closed (au : audit) : Prop :=
  incl (get_refs (au_art au)) (keys (au_refs au)) /\ Forall (entry_ok (keys (au_refs au))) (au_refs au).

Definition ids_of (l : list artifact) : list bytes :=
  flat_map (fun r => match a_id r with Some i => [i] | None => [] end) l.

Definition file_closed (f : afile) : Prop :=
  a_id (fst f) <> None /\ Forall (fun r => a_id r <> None) (snd f) /\
  incl (get_refs (fst f)) (ids_of (snd f)) /\ Forall (fun r => incl (get_refs r) (ids_of (snd f))) (snd f).

Lemma entry_ok_mono K K' m : incl K K' -> Forall (entry_ok K) m -> Forall (entry_ok K') m.
Proof. intros Hi. apply Forall_impl. intros kv [Ha Hr]. split; [exact Ha|]. eapply incl_tran; eassumption. Qed.

Lemma get_refs_add_arg a i : incl (get_refs (art_add_arg a i)) (i :: get_refs a).
Proof.
  unfold get_refs, art_add_arg. cbn [a_args a_sandbox a_tools]. intros x Hx. cbn [In].
  apply in_app_or in Hx as [Hx|Hx]; [apply in_app_or in Hx as [Hx|[<-|[]]]|]; auto 7 using in_or_app.
Qed.

Lemma aset_snd {V} n (i : V) l : incl (map snd (aset n i l)) (i :: map snd l).
Proof.
  induction l as [|[k v] l IH]; intros x; [auto|]. specialize (IH x). cbn [aset].
  destruct (eqb_bytes n k); cbn [map snd In] in *; intros [<-|Hx]; auto. destruct (IH Hx); auto.
Qed.

Lemma get_refs_add_tool a n i : incl (get_refs (art_add_tool a n i)) (i :: get_refs a).
Proof.
  unfold get_refs, art_add_tool. cbn [a_args a_sandbox a_tools]. intros x Hx. cbn [In].
  apply in_app_or in Hx as [Hx|Hx]; [|apply in_app_or in Hx as [Hx|Hx]]; auto 7 using in_or_app.
  apply aset_snd in Hx as [<-|Hx]; [now left|]. destruct (a_tools a); [auto 7 using in_or_app|destruct Hx].
Qed.

Lemma get_refs_set_sandbox a i : incl (get_refs (art_set_sandbox a i)) (i :: get_refs a).
Proof.
  unfold get_refs, art_set_sandbox. cbn [a_args a_sandbox a_tools]. intros x Hx. cbn [In].
  apply in_app_or in Hx as [Hx|Hx]; [|apply in_app_or in Hx as [[<-|[]]|Hx]]; auto 7 using in_or_app.
Qed.

(* Audit.__merge keeps the dict closed, whichever way the artifact comes to
   reference the other trail: as argument, tool or sandbox *)
Lemma merged_closed H self other a :
  mem_closed self -> mem_closed other -> a_id (au_art other) <> None ->
  incl (get_refs a) (get_id H (au_art other) :: get_refs (au_art self)) ->
  mem_closed {| au_art := a; au_refs := merge H self other |}.
Proof.
  intros [Hsa Hsr] [Hoa Hor] Hid Ha. unfold mem_closed. cbn [au_art au_refs].
  set (m := merge H self other).
  assert (Hk : forall k, In k (keys m) <->
                         get_id H (au_art other) = k \/ In k (keys (au_refs self)) \/ In k (keys (au_refs other))).
  { intros k. unfold m, merge. rewrite rm_set_keys. cbn [In]. now rewrite rm_update_keys. }
  split.
  - intros x Hx. apply Hk. destruct (Ha x Hx) as [<-|Hs]; [now left|right; left; now apply Hsa].
  - apply rm_set_Forall; [apply rm_update_Forall|split; cbn [fst snd]].
    + eapply entry_ok_mono; [|exact Hsr]. intros k Hin. apply Hk. auto.
    + eapply entry_ok_mono; [|exact Hor]. intros k Hin. apply Hk. auto.
    + unfold get_id. now destruct (a_id (au_art other)).
    + intros k Hin. apply Hk. right. right. now apply Hoa.
Qed.

Lemma add_dep_closed H self other :
  mem_closed self -> mem_closed other -> a_id (au_art other) <> None ->
  mem_closed (add_arg H self other) /\ (forall n, mem_closed (add_tool H self n other)) /\
  mem_closed (set_sandbox H self other).
Proof.
  intros Hs Ho Hi. split; [|split; [intros n|]]; apply merged_closed; try assumption.
  - apply get_refs_add_arg.
  - apply get_refs_add_tool.
  - apply get_refs_set_sandbox.
Qed.

Lemma load_refs_spec K l : Forall (fun r => a_id r <> None /\ incl (get_refs r) K) l -> forall acc,
  Forall (entry_ok K) acc ->
  exists m, load_refs l acc = Some m /\ Forall (entry_ok K) m /\
            forall k, In k (keys m) <-> In k (keys acc) \/ In k (ids_of l).
Proof.
  induction 1 as [|r l [Hr Hi] Hl IH]; intros acc Ha; cbn [load_refs].
  - exists acc. cbn [ids_of flat_map In]. intuition.
  - destruct (a_id r) as [i|] eqn:E; [|contradiction].
    destruct (IH (rm_set i r acc)) as (m & Hm & He & Hk); [apply rm_set_Forall; [exact Ha|now split]|].
    exists m. split; [exact Hm|]. split; [exact He|].
    intros k. rewrite Hk, rm_set_keys. cbn [ids_of flat_map]. rewrite E. cbn [app In].
    fold (ids_of l). clear. tauto.
Qed.

Lemma load_closed f : file_closed f -> exists au, load f = Some au /\ mem_closed au /\ a_id (au_art au) <> None.
Proof.
  intros (Hid & Hids & Ha & Hr). unfold load.
  destruct (load_refs_spec _ _ (Forall_and Hids Hr) [] (Forall_nil _)) as (m & Hm & He & Hk). rewrite Hm.
  destruct (a_id (fst f)) eqn:E; [|contradiction].
  eexists. split; [reflexivity|]. split; [|cbn [au_art]; congruence].
  assert (Hkeys : incl (ids_of (snd f)) (keys m)).
  { intros k Hin. apply Hk. now right. }
  split; cbn [au_art au_refs]; [eapply incl_tran; eassumption|exact (entry_ok_mono _ _ _ Hkeys He)].
Qed.

Lemma get_refs_set_id a i : get_refs (set_id a i) = get_refs a.
Proof. reflexivity. Qed.

Lemma save_closed H au : mem_closed au -> file_closed (save H au).
Proof.
  intros [Ha Hr]. unfold save, file_closed. cbn [fst snd].
  assert (Hids : ids_of (map (fun kv => dump H (snd kv)) (au_refs au)) = keys (au_refs au)).
  { clear Ha. induction Hr as [|kv m [Hk _] _ IH]; [reflexivity|].
    cbn [map ids_of flat_map keys]. unfold dump at 1. cbn [set_id a_id]. unfold get_id. rewrite Hk.
    cbn [app]. f_equal. exact IH. }
  rewrite Hids. repeat split; [discriminate| |exact Ha|]; apply Forall_map.
  - apply Forall_forall. discriminate.
  - eapply Forall_impl; [|exact Hr]. now intros kv [_ Hi].
Qed.

Lemma add_tools_ind H (P : audit -> Prop) l :
  (forall au n f o, In (n, f) l -> from_file f = Some o -> P au -> P (add_tool H au n o)) ->
  forall au au', P au -> add_tools H au l = Some au' -> P au'.
Proof.
  induction l as [|[n f] l IH]; intros Hstep au au' Hp E; cbn [add_tools] in E; [now injection E as <-|].
  specialize (IH (fun au n f o Hin => Hstep au n f o (or_intror Hin))).
  destruct (from_file f) as [o|] eqn:Ef; [|discriminate].
  exact (IH _ _ (Hstep _ _ _ _ (or_introl eq_refl) Ef Hp) E).
Qed.

Lemma add_args_ind H (P : audit -> Prop) l :
  (forall au f o, In (true, f) l -> from_file f = Some o -> P au -> P (add_arg H au o)) ->
  forall au au', P au -> add_args H au l = Some au' -> P au'.
Proof.
  induction l as [|[v f] l IH]; intros Hstep au au' Hp E; cbn [add_args] in E; [now injection E as <-|].
  specialize (IH (fun au f o Hin => Hstep au f o (or_intror Hin))).
  destruct v; [|exact (IH _ _ Hp E)].
  destruct (from_file f) as [o|] eqn:Ef; [|discriminate].
  exact (IH _ _ (Hstep _ _ _ (or_introl eq_refl) Ef Hp) E).
Qed.

Lemma generate_ind H g (P : audit -> Prop) :
  P {| au_art := fresh_artifact g; au_refs := [] |} ->
  (forall au e, P au -> P (with_env au e)) ->
  (forall au s, P au -> P (with_scms au s)) ->
  (forall au n f o, In (n, f) (g_tools g) -> from_file f = Some o -> P au -> P (add_tool H au n o)) ->
  (forall au f o, g_sandbox g = Some f -> from_file f = Some o -> P au -> P (set_sandbox H au o)) ->
  (forall au f o, In (true, f) (g_args g) -> from_file f = Some o -> P au -> P (add_arg H au o)) ->
  forall au, generate H g = Some au -> P au.
Proof.
  intros H0 Henv Hscm Ht Hs Ha au E. unfold generate in E.
  destruct (g_executed g); [|injection E as <-; apply Hscm, H0].
  destruct (add_tools H _ _) as [au1|] eqn:E1; [|discriminate].
  destruct (add_sandbox H au1 _) as [au2|] eqn:E2; [|discriminate].
  destruct (add_args H au2 _) as [au3|] eqn:E3; [|discriminate].
  injection E as <-. apply Hscm. eapply add_args_ind; [exact Ha| |exact E3].
  assert (P1 : P au1).
  { eapply add_tools_ind; [|apply Henv, H0|exact E1].
    intros au n f o Hin. apply Ht. eapply Permutation_in; [apply sort_by_perm|exact Hin]. }
  destruct (g_sandbox g) as [f|]; cbn [add_sandbox] in E2; [|now injection E2 as <-].
  destruct (from_file f) as [o|] eqn:Ef; [|discriminate]. injection E2 as <-. now apply (Hs au1 f o).
Qed.

Definition dep_ok (o : option afile) : Prop := forall f, o = Some f -> file_closed f.

Lemma dep_ok_some f : file_closed f -> dep_ok (Some f).
Proof. intros Hf x [= <-]. exact Hf. Qed.

Lemma from_file_closed o au : dep_ok o -> from_file o = Some au -> mem_closed au /\ a_id (au_art au) <> None.
Proof.
  intros Hd E. destruct o as [f|]; [|discriminate]. cbn [from_file] in E.
  destruct (load_closed f (Hd f eq_refl)) as (au' & Hl & Hc & Hi). rewrite Hl in E. injection E as <-. now split.
Qed.

Definition deps_ok (g : gen_in) : Prop :=
  Forall (fun nf => dep_ok (snd nf)) (g_tools g) /\ (forall o, g_sandbox g = Some o -> dep_ok o) /\
  Forall (fun vf => dep_ok (snd vf)) (g_args g).

Lemma generate_closed H g au : deps_ok g -> generate H g = Some au -> mem_closed au.
Proof.
  intros (Ht & Hs & Ha). rewrite Forall_forall in Ht, Ha.
  apply generate_ind; try (intros a e Hc; exact Hc).  (* with_env, with_scms: same references, by computation *)
  - split; [intros x []|constructor].
  - intros a n f o Hin Ef Hc. destruct (from_file_closed f o (Ht _ Hin) Ef) as [Ho Hi].
    apply (proj2 (add_dep_closed H a o Hc Ho Hi)).
  - intros a f o Es Ef Hc. destruct (from_file_closed f o (Hs _ Es) Ef) as [Ho Hi].
    apply (proj2 (add_dep_closed H a o Hc Ho Hi)).
  - intros a f o Hin Ef Hc. destruct (from_file_closed f o (Ha _ Hin) Ef) as [Ho Hi].
    apply (proj1 (add_dep_closed H a o Hc Ho Hi)).
Qed.

Lemma generate_file_closed H g f : deps_ok g -> generate_file H g = Some f -> file_closed f.
Proof.
  intros Hd E. unfold generate_file in E. destruct (generate H g) as [au|] eqn:Eg; [|discriminate].
  injection E as <-. apply save_closed. eapply generate_closed; eassumption.
Qed.

(* Two hash functions with the same values generate the same trail; with
   [run_ext] in ProofsBuilder.v this lets the closed examples of Properties.v be
   evaluated with [sha1n] in place of [sha1]. *)
Section HashExt.
  Variables H H' : bytes -> bytes.
  Hypothesis HH : forall m, H m = H' m.

  Lemma get_id_ext a : get_id H a = get_id H' a.
  Proof. unfold get_id, artifact_id, record_id. now rewrite HH. Qed.

  Lemma add_tools_ext l : forall au, add_tools H au l = add_tools H' au l.
  Proof.
    induction l as [|[n f] l IH]; intros au; cbn [add_tools]; [reflexivity|].
    destruct (from_file f); [|reflexivity]. unfold add_tool, merge. rewrite get_id_ext. apply IH.
  Qed.

  Lemma add_args_ext l : forall au, add_args H au l = add_args H' au l.
  Proof.
    induction l as [|[v f] l IH]; intros au; cbn [add_args]; [reflexivity|].
    destruct v, (from_file f); try reflexivity; try apply IH. unfold add_arg, merge. rewrite get_id_ext. apply IH.
  Qed.

  Lemma generate_file_ext g : generate_file H g = generate_file H' g.
  Proof.
    assert (E : generate H g = generate H' g).
    { unfold generate. destruct (g_executed g); [|reflexivity].
      rewrite add_tools_ext. destruct (add_tools H' _ _) as [au1|]; [|reflexivity].
      replace (add_sandbox H au1 (g_sandbox g)) with (add_sandbox H' au1 (g_sandbox g)).
      - destruct (add_sandbox H' au1 _); now rewrite ?add_args_ext.
      - unfold add_sandbox, set_sandbox, merge. destruct (g_sandbox g) as [f|]; [destruct (from_file f)|]; now rewrite ?get_id_ext. }
    unfold generate_file. rewrite E. destruct (generate H' g); [|reflexivity]. unfold save, dump. rewrite get_id_ext.
    do 2 f_equal. apply map_ext. intros kv. now rewrite get_id_ext.
  Qed.
End HashExt.

Definition args_list (a : artifact) : list bytes := match a_args a with Some l => l | None => [] end.

Definition valid_ids (H : bytes -> bytes) (l : list (bool * option afile)) : list bytes :=
  flat_map (fun vf : bool * option afile => if fst vf then match from_file (snd vf) with Some o => [get_id H (au_art o)] | None => [] end else []) l.

Lemma add_args_spec H l : forall au au', add_args H au l = Some au' ->
  args_list (au_art au') = args_list (au_art au) ++ valid_ids H l /\ a_sandbox (au_art au') = a_sandbox (au_art au) /\
  Forall (fun vf => fst vf = true -> from_file (snd vf) <> None) l.
Proof.
  unfold valid_ids. induction l as [|[v f] l IH]; intros au au' E; cbn [add_args flat_map fst snd] in *.
  - injection E as <-. rewrite app_nil_r. auto.
  - destruct v.
    + destruct (from_file f) as [o|] eqn:Ef; [|discriminate]. destruct (IH _ _ E) as (Ha & Hs & Hr).
      split; [|split; [exact Hs|constructor; [cbn [fst snd]; congruence|exact Hr]]].
      rewrite Ha. change (args_list (au_art (add_arg H au o))) with (args_list (au_art au) ++ [get_id H (au_art o)]).
      now rewrite <- app_assoc.
    + destruct (IH _ _ E) as (Ha & Hs & Hr). split; [exact Ha|split; [exact Hs|constructor; [discriminate|exact Hr]]].
Qed.

Lemma add_tools_keeps H l au au' : add_tools H au l = Some au' ->
  a_args (au_art au') = a_args (au_art au) /\ a_sandbox (au_art au') = a_sandbox (au_art au).
Proof.
  apply (add_tools_ind H (fun x => a_args (au_art x) = a_args (au_art au) /\ a_sandbox (au_art x) = a_sandbox (au_art au)));
    [|now split].
  intros a n f o _ _ Hp. exact Hp.
Qed.

Lemma sadd_in x y l : In y (sadd x l) <-> In y (x :: l).
Proof.
  unfold sadd. destruct (memP x l) as [Hx|_].
  - split; [now right|intros [<-|Hy]; assumption].
  - rewrite in_app_iff. cbn [In]. tauto.
Qed.

Lemma mem_sadd x c l : mem x (sadd c l) = true <-> c = x \/ mem x l = true.
Proof. rewrite <- !(reflect_iff _ _ (memP _ _)). apply sadd_in. Qed.

Lemma sadd_nodup x l : NoDup l -> NoDup (sadd x l).
Proof.
  intros Hn. unfold sadd. destruct (memP x l) as [_|Hx]; [exact Hn|].
  eapply Permutation_NoDup; [apply Permutation_cons_append|]. now constructor.
Qed.

(* what a step of the walk puts on the todo list *)
Definition addnew (done ds t : list bytes) : list bytes :=
  fold_left (fun t d => if mem d done then t else sadd d t) ds t.

Lemma addnew_in done ds : forall t y, In y (addnew done ds t) -> In y t \/ In y ds.
Proof.
  unfold addnew. induction ds as [|d ds IH]; intros t y Hy; cbn [fold_left] in Hy; [now left|].
  apply IH in Hy. destruct (mem d done); [|rewrite sadd_in in Hy]; cbn [In] in *; tauto.
Qed.

Lemma addnew_nodup done ds : forall t, NoDup t -> NoDup (addnew done ds t).
Proof.
  unfold addnew. induction ds as [|d ds IH]; intros t Ht; cbn [fold_left]; [exact Ht|].
  apply IH. destruct (mem d done); [exact Ht|now apply sadd_nodup].
Qed.

Lemma to_set_spec l : NoDup (to_set l) /\ incl (to_set l) l.
Proof.
  change (to_set l) with (addnew [] l []). split; [apply addnew_nodup, NoDup_nil|].
  intros x Hx. now destruct (addnew_in _ _ _ _ Hx).
Qed.

Definition cnt (P : bytes -> bool) (l : list bytes) : nat := length (filter P l).

Lemma cnt_cons P x l : cnt P (x :: l) = ((if P x then 1 else 0) + cnt P l)%nat.
Proof. unfold cnt. cbn [filter]. now destruct (P x). Qed.

Lemma cnt_le_succ P Q l c :
  NoDup l -> (forall y, In y l -> P y = true -> c = y \/ Q y = true) -> (cnt P l <= S (cnt Q l))%nat.
Proof.
  intros Hn Hpq. change (S (cnt Q l)) with (length (c :: filter Q l)).
  apply NoDup_incl_length; [now apply NoDup_filter|]. intros y Hy. apply filter_In in Hy as [Hy Py].
  destruct (Hpq y Hy Py) as [->|Qy]; [now left|right; now apply filter_In].
Qed.

Lemma addnew_cnt done ds : forall t, cnt (fun x => mem x done) (addnew done ds t) = cnt (fun x => mem x done) t.
Proof.
  unfold addnew. induction ds as [|d ds IH]; intros t; cbn [fold_left]; [reflexivity|].
  rewrite IH. destruct (mem d done) eqn:E; [reflexivity|].
  unfold sadd. destruct (mem d t); [reflexivity|].
  unfold cnt. rewrite filter_app, app_length. cbn [filter]. rewrite E. cbn [length]. lia.
Qed.

(* A key is popped at most twice: when it is not yet done, and once more if
   its own record references it (it is put on the list again before it is
   marked done).  So each key costs two units of fuel when it is marked done,
   and an entry of the todo list that is done already costs one more. *)
Lemma walk_closed refs :
  Forall (entry_ok (keys refs)) refs ->
  forall fuel todo done,
  NoDup todo -> incl todo (keys refs) -> NoDup done -> incl done (keys refs) ->
  (2 * length (keys refs) + cnt (fun x => mem x done) todo < fuel + 2 * length done)%nat ->
  walk fuel refs todo done = VOk.
Proof.
  intros Hr. induction fuel as [|f IH]; intros todo done Hn Hi Hnd Hid Hmu.
  { pose proof (NoDup_incl_length Hnd Hid). lia. }
  cbn [walk]. destruct todo as [|cur rest]; [reflexivity|].
  pose proof (Hi cur (or_introl eq_refl)) as Hcur.
  destruct (rm_get_in cur refs Hcur) as (r & Hget & Hin). rewrite Hget.
  fold (addnew done (get_refs r) rest).
  assert (Hrk : incl (get_refs r) (keys refs)).
  { rewrite Forall_forall in Hr. apply (Hr _ Hin). }
  apply NoDup_cons_iff in Hn as [_ Hnr].
  pose proof (addnew_nodup done (get_refs r) rest Hnr) as Hn'.
  apply IH; [exact Hn'| |now apply sadd_nodup| |].
  - intros y Hy. apply addnew_in in Hy. destruct Hy as [Hy|Hy]; [apply Hi; now right|now apply Hrk].
  - intros y Hy. apply sadd_in in Hy. destruct Hy as [<-|Hy]; [exact Hcur|now apply Hid].
  - rewrite cnt_cons in Hmu. destruct (mem cur done) eqn:Ecur.
    + (* popped for the second time: nothing becomes done *)
      replace (sadd cur done) with done by (unfold sadd; now rewrite Ecur). rewrite addnew_cnt. clear - Hmu. lia.
    + (* [cur] becomes done; on the new todo list only [cur] itself can be done now without having been so *)
      pose proof (cnt_le_succ _ (fun x => mem x done) _ cur Hn' (fun y _ => proj1 (mem_sadd y cur done))) as Hs.
      rewrite addnew_cnt in Hs. unfold sadd at 2. rewrite Ecur, app_length. cbn [length]. clear - Hmu Hs. lia.
Qed.

Lemma walk_start refs todo :
  Forall (entry_ok (keys refs)) refs -> NoDup todo -> incl todo (keys refs) ->
  walk (2 * length refs + 2) refs todo [] = VOk.
Proof.
  intros Hr Hn Hi. apply walk_closed; [exact Hr|exact Hn|exact Hi|constructor|intros x []|].
  assert (E0 : forall l, cnt (fun x => mem x []) l = 0%nat) by (induction l; [reflexivity|assumption]).
  unfold keys. rewrite E0, map_length. cbn [length]. lia.
Qed.
