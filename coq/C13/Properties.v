(* C13 — steps run in exactly the declared environment: the property theorems
   and non-vacuity examples.  All definitions used in the theorems' statements
   live in Model.v. *)
From Coq Require Import List NArith Bool.
Require Import BobV.C13.Model BobV.C13.Proofs.
Import ListNotations.
Open Scope N_scope.

(* P1. Whatever a value contains — quotes, dollars, backslashes, newlines,
   blanks, glob characters, non-ASCII — bash reads the quoted form back as
   exactly that value (NUL cannot occur in a bash word or an environment). *)
Theorem quote_roundtrip : forall env s, no_nul s -> bash_word env (quote s) = Some s.
Proof. intros env s Hn. apply spells_bash_word, spells_quote, Hn. Qed.

(* ... and in any context: with any text already read and any text following
   in the script, the quoted form is consumed exactly and contributes exactly
   the value (so the next `export` line cannot be swallowed or injected). *)
Theorem quote_in_context : forall env s acc rest,
  no_nul s -> lex env MU acc (quote s ++ rest) = lex env MU (acc ++ s) rest.
Proof. intros env s acc rest Hn. apply spells_quote, Hn. Qed.

(* P1. After the generated prolog ran, every declared variable has precisely
   the value the recipes computed. *)
Theorem export_value_exact : forall dpath preserve cwd sp environ,
  spec_ok cwd sp ->
  exists e', script_env dpath preserve cwd sp environ = Some e' /\
    forall k v, In (k, v) sp.(sp_env) -> ~ In k bob_vars -> lookup e' k = Some v.
Proof.
  intros dpath preserve cwd sp environ Hok.
  destruct (script_env_lookup dpath preserve cwd sp environ Hok) as (e' & Hrun & _ & _ & _ & Hother).
  exists e'. split; [exact Hrun|]. intros k v Hin Hb.
  rewrite (Hother k Hb), (lookup_In _ k v (proj1 Hok) Hin). reflexivity.
Qed.

(* P1. The script sees exactly: the declared variables, Bob's own
   (PATH, LD_LIBRARY_PATH, BOB_CWD) and the host variables that are named in
   the whitelist (all host variables only if the user asked to preserve the
   environment). *)
Theorem visible_vars_exact : forall dpath preserve cwd sp environ e',
  spec_ok cwd sp ->
  script_env dpath preserve cwd sp environ = Some e' ->
  forall k, In k (keys e') <->
            (In k (keys sp.(sp_env)) \/ In k bob_vars \/
             host_visible preserve sp.(sp_whitelist) environ k).
Proof.
  intros dpath preserve cwd sp environ e' Hok Hrun k.
  destruct (script_env_lookup dpath preserve cwd sp environ Hok) as (e1 & H1 & Hpath & Hld & Hcwd & Hother).
  rewrite Hrun in H1. injection H1 as <-.
  destruct (in_dec (list_eq_dec N.eq_dec) k bob_vars) as [Hb|Hb].
  - split; [auto|]. intros _. apply keys_lookup. destruct Hb as [<-|[<-|[<-|[]]]]; congruence.
  - rewrite <- keys_host_env, !keys_lookup, (Hother k Hb).
    destruct (lookup (sp_env sp) k); [split; [left|]; discriminate|].
    split; [auto | intros [H|[H|H]]; [congruence | contradiction | exact H]].
Qed.

(* whitelisted host variables arrive with the host's value, all others not at all *)
Theorem host_passthrough : forall dpath preserve cwd sp environ e',
  spec_ok cwd sp ->
  script_env dpath preserve cwd sp environ = Some e' ->
  forall k, ~ In k (keys sp.(sp_env)) -> ~ In k bob_vars ->
    lookup e' k = if preserve || str_mem k sp.(sp_whitelist) then lookup environ k else None.
Proof.
  intros dpath preserve cwd sp environ e' Hok Hrun k Hd Hb.
  destruct (script_env_lookup dpath preserve cwd sp environ Hok) as (e1 & H1 & _ & _ & _ & Hother).
  rewrite Hrun in H1. injection H1 as <-.
  apply lookup_None_keys in Hd. rewrite (Hother k Hb), Hd. apply lookup_host_env.
Qed.

(* P1. Every consumed tool is on PATH / LD_LIBRARY_PATH, in order, in front of
   the inherited PATH (bash's built-in default if the interpreter inherits
   none); BOB_CWD is the execution path of the workspace. *)
Theorem tools_on_path : forall dpath preserve cwd sp environ e',
  spec_ok cwd sp ->
  script_env dpath preserve cwd sp environ = Some e' ->
  lookup e' s_PATH = Some (path_value (map (abspath cwd) sp.(sp_paths))
                                      (getenv (bash_init dpath (proc_env preserve sp environ)) s_PATH)) /\
  lookup e' s_LD = Some (join_with [ch_colon] (map (abspath cwd) sp.(sp_libs))) /\
  lookup e' s_BOB_CWD = Some (abspath cwd sp.(sp_ws_exec)).
Proof.
  intros dpath preserve cwd sp environ e' Hok Hrun.
  destruct (script_env_lookup dpath preserve cwd sp environ Hok) as (e1 & H1 & Hpath & Hld & Hcwd & _).
  rewrite Hrun in H1. injection H1 as <-. auto.
Qed.

(* P1. The positional parameters are the dependencies in declared order. *)
Theorem args_in_declared_order : forall cwd bash script trace sp,
  bash <> s_dashdash ->
  positional (call_args cwd bash script trace sp) = map (abspath cwd) sp.(sp_args).
Proof.
  intros cwd bash script trace sp Hb. unfold call_args.
  destruct trace; cbn [app positional]; destruct (str_eqb_spec bash s_dashdash);
    [contradiction | reflexivity | contradiction | reflexivity].
Qed.

(* P1. The environment of a step is the computed environment restricted to
   the variables declared (strong or weak) for that step by the recipe or one
   of its classes; what checkout sees build sees, what build sees package sees. *)
Theorem step_env_exact : forall full rs kd k v,
  In (k, v) (step_env full rs kd) <->
  In (k, v) full /\ exists r, In r rs /\ In k (fst (own_vars r kd) ++ snd (own_vars r kd)).
Proof.
  intros full rs kd k v. unfold step_env. etransitivity; [apply In_prune|].
  apply and_iff_compat_l, In_step_vars.
Qed.

Theorem step_env_chain : forall full rs k v,
  (In (k, v) (step_env full rs KCheckout) -> In (k, v) (step_env full rs KBuild)) /\
  (In (k, v) (step_env full rs KBuild) -> In (k, v) (step_env full rs KPackage)).
Proof.
  intros full rs k v.
  split; intro H; apply step_env_exact in H; apply step_env_exact; destruct H as (H1 & r & H2 & H3);
    (split; [exact H1|]); exists r; (split; [exact H2|]); apply (own_vars_mono r k), H3.
Qed.

(* P1. A fingerprint script sees, of the step's variables, exactly those named
   in fingerprintVars (with their exact values); everything else is what the
   filtered host environment plus BOB_CWD provides. *)
Theorem fingerprint_env_restricted : forall preserve sp environ fpcwd stepenv varset,
  NoDup (keys stepenv) -> (forall k v, In (k, v) stepenv -> no_nul v) ->
  exists e', fingerprint_env preserve sp environ fpcwd stepenv varset = Some e' /\
    (forall k v, In (k, v) stepenv -> In k varset -> lookup e' k = Some v) /\
    (forall k, ~ (In k (keys stepenv) /\ In k varset) ->
               lookup e' k = lookup (fingerprint_proc_env preserve sp environ fpcwd) k).
Proof.
  intros preserve sp environ fpcwd stepenv varset Hnd Hvals.
  destruct (fingerprint_env_lookup preserve sp environ fpcwd stepenv varset Hnd Hvals) as [e' [Hrun Hlk]].
  exists e'. split; [exact Hrun|]. split.
  - intros k v Hin Hk. rewrite Hlk, (lookup_In _ k v); [reflexivity | apply NoDup_keys_prune, Hnd | apply In_prune; auto].
  - intros k Hk. rewrite <- keys_prune, <- lookup_None_keys in Hk. rewrite Hlk, Hk. reflexivity.
Qed.

(* P1. The mount plan: the mount table that the namespace-sandbox option
   parser (helper_mounts) derives from the command line Bob generates.  First
   the whole table, in order (both sandbox kinds), then three consequences. *)
Theorem mount_plan_shape : forall w sp, has_sandbox sp = true ->
  mount_plan w sp =
  flat_map item_mounts (match sp.(sp_fat) with Some f => fat_items w sp.(sp_jenkins) f | None => slim_items w end)
  ++ [script_mount w sp]
  ++ (match sp.(sp_envfile) with Some f => [envfile_mount w f] | None => [] end)
  ++ [ws_mount w sp]
  ++ map (dep_mount w) sp.(sp_dep_mounts).
Proof. intros w sp Hs. rewrite mount_plan_eq by exact Hs. apply sandbox_items_mounts. Qed.

(* (a) the only writable mounts: the step's own workspace, its env file, the
       private whiteout directory over the project directory (slim sandbox),
       and host mounts that the sandbox recipe itself marks "rw". *)
Theorem mount_plan_writable_exact : forall w sp m,
  has_sandbox sp = true -> In m (mount_plan w sp) -> m_rw m = true ->
  m = ws_mount w sp \/
  (exists f, sp.(sp_envfile) = Some f /\ m = envfile_mount w f) \/
  (sp.(sp_fat) = None /\ m = whiteout_mount w) \/
  (exists f hp sbp opts, sp.(sp_fat) = Some f /\ In (hp, sbp, opts) f.(fs_mounts) /\ str_mem s_rw opts = true /\
                         m = mk_mount (w.(w_subst) hp) (w.(w_subst) sbp) true).
Proof.
  intros w sp m Hs Hin Hrw. rewrite mount_plan_eq in Hin by exact Hs.
  exact (rw_mount_in _ _ _ (sandbox_items_spec w sp) Hin Hrw).
Qed.

(* (b) every declared dependency is mounted read-only at its execution path *)
Theorem mount_plan_deps_readonly : forall w sp d,
  has_sandbox sp = true -> In d sp.(sp_dep_mounts) -> In (dep_mount w d) (mount_plan w sp).
Proof.
  intros w sp d Hs Hd. rewrite mount_plan_shape by exact Hs.
  do 4 (apply in_or_app; right). apply in_map, Hd.
Qed.

(* (c) slim sandbox: whatever path below the project directory the step looks
   at, it resolves to the empty private whiteout directory, the step's own
   script/env file/workspace, or a declared dependency — never to the host's
   view of the project directory (other workspaces are invisible). *)
Theorem mount_plan_slim_project_view : forall w sp p m,
  sp.(sp_fat) = None -> sp.(sp_slim) = true ->
  under w.(w_cwd) p = true ->
  resolve (mount_plan w sp) p None = Some m ->
  m = whiteout_mount w \/ m = script_mount w sp \/
  (exists f, sp.(sp_envfile) = Some f /\ m = envfile_mount w f) \/
  m = ws_mount w sp \/ (exists d, In d sp.(sp_dep_mounts) /\ m = dep_mount w d).
Proof.
  intros w sp p m Hf Hsl Hu Hr.
  rewrite mount_plan_shape, Hf in Hr by (unfold has_sandbox; rewrite Hf; exact Hsl).
  destruct (slim_items_whiteout_last w) as [pre Hpre]. rewrite Hpre, <- app_assoc in Hr.
  (* the whiteout directory covers p: only it and what is mounted after it can be seen *)
  apply resolve_after_cover in Hr; [| exact Hu].
  destruct Hr as [->|Hr]; [left; reflexivity | right; apply In_step_mounts, Hr].
Qed.

(* P1. The dependency mounts are exactly: the valid arguments, tools and the
   sandbox image of the step, plus the valid earlier steps of its own package. *)
Theorem dep_mounts_exact : forall s ts x,
  In x (dep_mounts s ts) <->
  (exists d, In d (st_args s ++ ts) /\ d.(d_valid) = true /\ x = (d.(d_storage), d.(d_exec))) \/
  (exists d, own_chain s d /\ st_valid d = true /\ x = (st_storage d, st_exec d)).
Proof.
  intros s ts x. unfold dep_mounts. split.
  - intro H. apply in_app_or in H. destruct H as [H|H]; [left | right; apply chain_mounts_exact, H].
    apply in_map_iff in H. destruct H as [d [<- [H1 H2]%filter_In]]. exists d. auto.
  - intros [(d & H1 & H2 & ->)|H]; apply in_or_app; [left | right; apply chain_mounts_exact, H].
    apply (in_map (fun d => (d_storage d, d_exec d))), filter_In. auto.
Qed.

(* it's $HOME "q" \ <newline> é *  *)
Definition nasty : str := [105; 116; 39; 115; 32; 36; 72; 79; 77; 69; 32; 34; 113; 34; 32; 92; 10; 233; 32; 42].

Example quote_roundtrip_nonvacuous :
  quote nasty <> nasty /\ bash_word [] (quote nasty) = Some nasty /\
  bash_word [] (ch_dq :: nasty ++ [ch_dq]) <> Some nasty.      (* naive "..." quoting loses the value *)
Proof. vm_compute. repeat apply conj; [discriminate | reflexivity | discriminate]. Qed.

Definition sp0 : spec :=
  {| sp_env := [([65], nasty); ([80; 65; 84; 72], [47; 120])];      (* A=nasty, PATH=/x (overridden) *)
     sp_paths := [[116; 47; 98; 105; 110]];                         (* t/bin *)
     sp_libs := [];
     sp_ws_storage := [119]; sp_ws_exec := [119];                   (* w *)
     sp_args := [[100; 49]; [100; 50]];                             (* d1 d2 *)
     sp_whitelist := [[80; 65; 84; 72]; [87; 76]];                  (* PATH WL *)
     sp_dep_mounts := [([100; 49], [100; 49])];
     sp_slim := true; sp_fat := None; sp_net := false; sp_envfile := None;
     sp_script_hint := None; sp_jenkins := false |}.
Definition environ0 : envmap :=
  [([80; 65; 84; 72], [47; 98; 105; 110]); ([87; 76], [119]); ([83; 69; 67; 82; 69; 84], [108])].  (* PATH=/bin WL=w SECRET=l *)
Definition cwd0 : str := [47; 112].    (* /p *)

Example export_value_nonvacuous :
  exists e', script_env [47; 100] false cwd0 sp0 environ0 = Some e' /\
    lookup e' [65] = Some nasty /\
    lookup e' [83; 69; 67; 82; 69; 84] = None /\
    lookup e' [87; 76] = Some [119] /\
    lookup e' s_PATH = Some [47; 112; 47; 116; 47; 98; 105; 110; 58; 47; 98; 105; 110].   (* /p/t/bin:/bin *)
Proof. eexists. split; [vm_compute; reflexivity|]. vm_compute. repeat apply conj; reflexivity. Qed.

Example args_nonvacuous :
  positional (call_args cwd0 [98] [115] true sp0) = [[47; 112; 47; 100; 49]; [47; 112; 47; 100; 50]].
Proof. vm_compute. reflexivity. Qed.

Definition world0 : world :=
  {| w_cwd := cwd0; w_tmp := [47; 116]; w_root_entries := [[112]; [116; 109; 112]; [117]];
     w_image_entries := []; w_exists := []; w_helper := [104]; w_subst := fun x => x |}.

Example mount_plan_nonvacuous :
  mount_plan world0 sp0 =
  [ mk_mount [47; 112] [47; 112] false;                                   (* /p  ro (host view of the project) *)
    mk_mount [47; 117] [47; 117] false;                                   (* /u  ro *)
    mk_mount [47; 116; 47; 119; 104; 105; 116; 101; 111; 117; 116] [47; 112] true;   (* whiteout over /p *)
    mk_mount [47; 116; 47; 115; 99; 114; 105; 112; 116] [47; 116; 47; 115; 99; 114; 105; 112; 116] false;
    mk_mount [47; 112; 47; 119] [47; 112; 47; 119] true;                  (* /p/w rw: own workspace *)
    mk_mount [47; 112; 47; 100; 49] [47; 112; 47; 100; 49] false ]        (* /p/d1 ro: dependency *)
  /\ resolve (mount_plan world0 sp0) [47; 112; 47; 111] None = Some (whiteout_mount world0)     (* /p/o: other workspace hidden *)
  /\ resolve (mount_plan world0 sp0) [47; 112; 47; 100; 49; 47; 102] None = Some (dep_mount world0 ([100; 49], [100; 49])).
Proof. vm_compute. repeat apply conj; reflexivity. Qed.

Example dep_mounts_nonvacuous :
  let co := SNoArg true true [115] [115] in
  let bu := SArg true false [98] [98] co [{| d_valid := true; d_storage := [108]; d_exec := [108] |};
                                          {| d_valid := false; d_storage := [105]; d_exec := [105] |}] in
  let pk := SArg true false [100] [100] bu [] in
  dep_mounts pk [{| d_valid := true; d_storage := [116]; d_exec := [116] |}] =
  [([98], [98]); ([116], [116]); ([98], [98]); ([115], [115])].
Proof. vm_compute. reflexivity. Qed.

Example step_env_nonvacuous :
  let r := {| rv_checkout := [[65]]; rv_checkout_weak := []; rv_build := [[66]]; rv_build_weak := [[87]];
              rv_package := []; rv_package_weak := [] |} in
  let full := [([65], [49]); ([66], [50]); ([67], [51]); ([87], [52])] in
  step_env full [r] KCheckout = [([65], [49])] /\
  step_env full [r] KBuild = [([65], [49]); ([66], [50]); ([87], [52])] /\
  digest_env full [r] KBuild = [([65], [49]); ([66], [50])].
Proof. vm_compute. repeat apply conj; reflexivity. Qed.

Example fingerprint_env_nonvacuous :
  exists e', fingerprint_env false sp0 environ0 [47; 102] [([65], nasty); ([66], [50])] [[65]] = Some e' /\
    lookup e' [65] = Some nasty /\ lookup e' [66] = None /\ lookup e' [83; 69; 67; 82; 69; 84] = None /\
    lookup e' s_BOB_CWD = Some [47; 102].
Proof. eexists. split; [vm_compute; reflexivity|]. vm_compute. repeat apply conj; reflexivity. Qed.

(* P1. LD_LIBRARY_PATH / PATH entries are built from the exec path of each used
   tool *as seen by the consuming step* (getExecPath with the consumer as
   referrer): exactly <consumer-view exec path>/<lib> for every lib of every
   used tool, and <consumer-view exec path>/<path> for every used tool. *)
Theorem library_paths_consumer_view : forall self tools p,
  In p (library_paths self tools) <->
  exists n t l, In (n, t) tools /\ In l t.(it_libs) /\ p = os_join (exec_path t.(it_step) (Some self)) l.
Proof.
  intros self tools p. unfold library_paths. etransitivity; [apply in_flat_map|]. split.
  - intros [[n t] [Hin Hp]]. apply in_map_iff in Hp. destruct Hp as [l [<- Hl]].
    exists n, t, l. split; [apply sort_by_key_In, Hin | auto].
  - intros (n & t & l & H1 & H2 & ->). exists (n, t).
    split; [apply sort_by_key_In, H1 | apply in_map, H2].
Qed.

Theorem tool_paths_consumer_view : forall self tools p,
  In p (tool_paths self tools) <->
  exists n t, In (n, t) tools /\ p = os_join (exec_path t.(it_step) (Some self)) t.(it_path).
Proof.
  intros self tools p. unfold tool_paths. split.
  - intro H. apply sort_str_In, in_map_iff in H.
    destruct H as [[n t] [<- H]]. exists n, t. auto.
  - intros (n & t & H & ->). apply sort_str_In, in_map_iff. exists (n, t). auto.
Qed.

(* ... each such entry lies inside a dependency that the sandbox mounts
   read-only at that very path (ties into mount_plan_deps_readonly) ... *)
Theorem library_path_inside_mounted_tool : forall w sp self tools n t l,
  has_sandbox sp = true ->
  In (n, t) tools -> In l t.(it_libs) -> is_abs l = false ->
  exec_path t.(it_step) (Some self) <> [] ->
  In (tool_mount self t) sp.(sp_dep_mounts) ->
  In (os_join (exec_path t.(it_step) (Some self)) l) (library_paths self tools) /\
  In (dep_mount w (tool_mount self t)) (mount_plan w sp) /\
  under (exec_path t.(it_step) (Some self)) (os_join (exec_path t.(it_step) (Some self)) l) = true.
Proof.
  intros w sp self tools n t l Hs Hin Hl Habs Hne Hm. split; [|split].
  - apply library_paths_consumer_view. exists n, t, l. auto.
  - apply mount_plan_deps_readonly; assumption.
  - apply under_os_join; assumption.
Qed.

(* ... and that is what the script finds in LD_LIBRARY_PATH and at the front of PATH. *)
Theorem ld_library_path_consumer_view : forall dpath preserve cwd sp environ e' self tools,
  spec_ok cwd sp ->
  sp.(sp_libs) = library_paths self tools ->
  sp.(sp_paths) = tool_paths self tools ->
  script_env dpath preserve cwd sp environ = Some e' ->
  lookup e' s_LD = Some (join_with [ch_colon] (map (abspath cwd) (library_paths self tools))) /\
  lookup e' s_PATH = Some (path_value (map (abspath cwd) (tool_paths self tools))
                                      (getenv (bash_init dpath (proc_env preserve sp environ)) s_PATH)).
Proof.
  intros dpath preserve cwd sp environ e' self tools Hok Hl Hp Hrun.
  destruct (tools_on_path dpath preserve cwd sp environ e' Hok Hrun) as [H1 [H2 _]].
  rewrite <- Hl, <- Hp. auto.
Qed.

(* a tool built on the host (not sandboxed), consumed (a) by a step inside a sandbox image with automatic
   stable paths: seen at /bob/ab/workspace; (b) by a host step: seen at its storage path;
   and a tool built inside the image consumed by a host step: seen at its storage path, not under /bob *)
Example consumer_view_nonvacuous :
  let host_tool := {| ir_valid := true; ir_stable := None; ir_sandboxed := false; ir_vid := [97; 98];
                      ir_storage := [100; 47; 116]; ir_name := [116] |} in
  let boxed_tool := {| ir_valid := true; ir_stable := None; ir_sandboxed := true; ir_vid := [99; 100];
                       ir_storage := [100; 47; 98]; ir_name := [98] |} in
  let inside := {| ir_valid := true; ir_stable := None; ir_sandboxed := true; ir_vid := [49]; ir_storage := [119]; ir_name := [105] |} in
  let outside := {| ir_valid := true; ir_stable := None; ir_sandboxed := false; ir_vid := [50]; ir_storage := [120]; ir_name := [111] |} in
  let tl s := [([109], {| it_step := s; it_path := [98; 105; 110]; it_libs := [[108]; [108; 47; 101]] |})] in
  library_paths inside (tl host_tool) =
    [[47; 98; 111; 98; 47; 97; 98; 47; 119; 111; 114; 107; 115; 112; 97; 99; 101; 47; 108];
     [47; 98; 111; 98; 47; 97; 98; 47; 119; 111; 114; 107; 115; 112; 97; 99; 101; 47; 108; 47; 101]] /\
  library_paths outside (tl host_tool) = [[100; 47; 116; 47; 108]; [100; 47; 116; 47; 108; 47; 101]] /\
  library_paths outside (tl boxed_tool) = [[100; 47; 98; 47; 108]; [100; 47; 98; 47; 108; 47; 101]] /\
  exec_path boxed_tool None = [47; 98; 111; 98; 47; 99; 100; 47; 119; 111; 114; 107; 115; 112; 97; 99; 101] /\
  tool_paths inside (tl host_tool) = [[47; 98; 111; 98; 47; 97; 98; 47; 119; 111; 114; 107; 115; 112; 97; 99; 101; 47; 98; 105; 110]].
Proof. vm_compute. repeat apply conj; reflexivity. Qed.
