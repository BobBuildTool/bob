(* C13 — lemmas.
   Bash words are handled through [spells]: a text is read, in any context,
   as a given value.  Environments are handled through [lookup]: one equation
   per operation, and a run of export lines has the lookup table of its
   words evaluated in the initial environment ([run_exports_spec]).  The
   sandbox command line is handled through its items: the helper's parser
   reads the rendered items back as the mounts they stand for
   ([helper_mounts_items]), which makes the mount table a list given part
   by part.  What the items of a step can be is said once
   ([sandbox_items_spec]); that the parser knows them and which mounts are
   writable are both read off it. *)
From Coq Require Import List NArith Bool Permutation.
Require BobV.Common.ListFacts.
Require Import BobV.C13.Model.
Import ListNotations.
Open Scope N_scope.

Lemma str_eqb_spec : forall a b, reflect (a = b) (str_eqb a b).
Proof. exact (ListFacts.list_eqb_spec _ _ N.eqb_spec). Qed.

Lemma str_eqb_refl : forall a, str_eqb a a = true.
Proof. exact (ListFacts.list_eqb_refl _ _ N.eqb_spec). Qed.

Lemma str_eqb_sym : forall a b, str_eqb a b = str_eqb b a.
Proof. intros a b. destruct (str_eqb_spec a b), (str_eqb_spec b a); congruence. Qed.

Lemma str_mem_In : forall s l, str_mem s l = true <-> In s l.
Proof. exact (ListFacts.mem_In _ _ str_eqb_spec). Qed.

Lemma mem_In : forall c l, mem c l = true <-> In c l.
Proof. exact (ListFacts.mem_In _ _ N.eqb_spec). Qed.

Lemma no_nul_cons : forall c s, no_nul (c :: s) <-> c <> ch_nul /\ no_nul s.
Proof. intros. apply Decidable.not_or_iff. Qed.

Lemma no_nul_app : forall a b, no_nul (a ++ b) <-> no_nul a /\ no_nul b.
Proof. unfold no_nul. intros. rewrite in_app_iff. apply Decidable.not_or_iff. Qed.

Definition spells (w v : str) : Prop :=
  forall env acc rest, lex env MU acc (w ++ rest) = lex env MU (acc ++ v) rest.

Lemma spells_nil : spells [] [].
Proof. intros env acc rest. rewrite app_nil_r. reflexivity. Qed.

Lemma spells_app : forall w1 v1 w2 v2, spells w1 v1 -> spells w2 v2 -> spells (w1 ++ w2) (v1 ++ v2).
Proof. intros w1 v1 w2 v2 H1 H2 env acc rest. rewrite <- app_assoc, (H1 env acc), (H2 env), app_assoc. reflexivity. Qed.

Lemma spells_bash_word : forall env w v, spells w v -> bash_word env w = Some v.
Proof. intros env w v H. unfold bash_word. rewrite <- (app_nil_r w), (H env). reflexivity. Qed.

(* the eight characters [u_char] tests for first are all unsafe *)
Lemma u_char_safe : forall acc c, is_safe c = true -> u_char acc c = Cont MU (acc ++ [c]).
Proof.
  intros acc c H.
  assert (Hx : forall x, is_safe x = false -> (c =? x) = false)
    by (intros x Hx; apply N.eqb_neq; intros ->; congruence).
  unfold u_char, is_term. rewrite !Hx by reflexivity. cbn [orb]. rewrite H. reflexivity.
Qed.

Lemma spells_safe : forall s, forallb is_safe s = true -> spells s s.
Proof.
  induction s as [|c s IH]; cbn [forallb]; intro H; [exact spells_nil|].
  apply andb_true_iff in H. destruct H as [Hc Hs].
  apply (spells_app [c] [c]); [|exact (IH Hs)].
  intros env acc rest. cbn [app lex step]. rewrite (u_char_safe acc c Hc). reflexivity.
Qed.

Lemma lex_sq_body : forall env s acc rest,
  no_nul s -> lex env MS acc (esc_sq s ++ ch_sq :: rest) = lex env MU (acc ++ s) rest.
Proof.
  induction s as [|c s IH]; intros acc rest Hn; cbn [esc_sq app].
  - rewrite app_nil_r. reflexivity.
  - apply no_nul_cons in Hn. destruct Hn as [Hc Hs].
    destruct (N.eqb_spec c ch_sq) as [->|E].
    + (* '"'"' closes the quotes, adds a quote character and opens them again *)
      transitivity (lex env MS (acc ++ [ch_sq]) (esc_sq s ++ ch_sq :: rest)); [reflexivity|].
      rewrite IH, <- app_assoc by exact Hs. reflexivity.
    + apply N.eqb_neq in Hc, E. cbn [app lex step].
      rewrite Hc, E, IH, <- app_assoc by exact Hs. reflexivity.
Qed.

Lemma spells_quote : forall s, no_nul s -> spells (quote s) s.
Proof.
  intros s Hn. unfold quote. destruct s as [|c s]; [exact spells_nil|].
  destruct (forallb is_safe (c :: s)) eqn:Hs; [exact (spells_safe _ Hs)|].
  intros env acc rest. cbn [app]. rewrite <- app_assoc. exact (lex_sq_body env (c :: s) acc rest Hn).
Qed.

Lemma join_cons2 : forall sep (x y : str) r, join_with sep (x :: y :: r) = x ++ sep ++ join_with sep (y :: r).
Proof. reflexivity. Qed.

Lemma join_snoc : forall sep (ps : list str) (x : str), ps <> [] ->
  join_with sep (ps ++ [x]) = join_with sep ps ++ sep ++ x.
Proof.
  induction ps as [|p [|q ps] IH]; intros x Hne; [congruence | reflexivity |].
  cbn [app] in *. rewrite !join_cons2, IH, <- !app_assoc by discriminate. reflexivity.
Qed.

Lemma spells_join_quotes : forall ps,
  Forall no_nul ps -> spells (join_with [ch_colon] (map quote ps)) (join_with [ch_colon] ps).
Proof.
  induction ps as [|p [|q ps] IH]; intro Hn; [exact spells_nil | |];
    apply Forall_cons_iff in Hn; destruct Hn as [Hp Hps]; [exact (spells_quote p Hp)|].
  cbn [map]. rewrite !join_cons2.
  apply spells_app; [exact (spells_quote p Hp)|].
  apply spells_app; [apply spells_safe; reflexivity | exact (IH Hps)].
Qed.

(* the end of the PATH line as it stands in the script text *)
Lemma lex_dollar_PATH_nl : forall env acc rest,
  lex env MU acc (s_dollar_PATH ++ ch_nl :: rest) = Some (acc ++ getenv env s_PATH, ch_nl :: rest).
Proof. reflexivity. Qed.

Lemma bash_word_path_word : forall env cwd paths,
  Forall no_nul (map (abspath cwd) paths) ->
  bash_word env (path_word cwd paths) = Some (path_value (map (abspath cwd) paths) (getenv env s_PATH)).
Proof.
  intros env cwd paths. unfold bash_word, path_word, path_value.
  rewrite <- (map_map (abspath cwd) quote).
  destruct (map (abspath cwd) paths) as [|p ps]; intro Hn; [reflexivity|].
  rewrite !join_snoc, !app_assoc by discriminate.
  rewrite (spells_app _ _ _ _ (spells_join_quotes _ Hn) (spells_safe [ch_colon] eq_refl) env).
  (* what is left of the word is $PATH *)
  reflexivity.
Qed.

Lemma bash_word_ld_word : forall env cwd libs,
  Forall no_nul (map (abspath cwd) libs) ->
  bash_word env (ld_word cwd libs) = Some (join_with [ch_colon] (map (abspath cwd) libs)).
Proof.
  intros env cwd libs Hn. unfold ld_word. rewrite <- (map_map (abspath cwd) quote).
  apply spells_bash_word, spells_join_quotes, Hn.
Qed.

Lemma lookup_set_var : forall e k v k',
  lookup (set_var e k v) k' = if str_eqb k' k then Some v else lookup e k'.
Proof.
  induction e as [|[k0 v0] e IH]; intros k v k'; cbn; [reflexivity|].
  destruct (str_eqb_spec k k0) as [<-|Hk]; cbn.
  - destruct (str_eqb k' k); reflexivity.
  - rewrite IH. destruct (str_eqb_spec k' k0) as [->|]; [|reflexivity].
    destruct (str_eqb_spec k0 k); congruence.
Qed.

Lemma lookup_set_same : forall e k v, lookup (set_var e k v) k = Some v.
Proof. intros. rewrite lookup_set_var, str_eqb_refl. reflexivity. Qed.

Lemma lookup_set_other : forall e k v k', k' <> k -> lookup (set_var e k v) k' = lookup e k'.
Proof. intros. rewrite lookup_set_var. destruct (str_eqb_spec k' k); [contradiction|reflexivity]. Qed.

Lemma lookup_None_keys : forall e k, lookup e k = None <-> ~ In k (keys e).
Proof.
  induction e as [|[k' v'] e IH]; intros k; [split; [intros _ [] | reflexivity]|].
  change (keys ((k', v') :: e)) with (k' :: keys e). cbn [lookup In].
  destruct (str_eqb_spec k k') as [->|Hne].
  - split; [discriminate | intro H; elim H; left; reflexivity].
  - split; intro H; [intros [E|H']; [congruence | exact (proj1 (IH k) H H')] | apply IH; auto].
Qed.

Lemma lookup_In : forall e k v, NoDup (keys e) -> In (k, v) e -> lookup e k = Some v.
Proof.
  induction e as [|[k' v'] e IH]; intros k v Hnd Hin; cbn in *; [contradiction|].
  apply NoDup_cons_iff in Hnd. destruct Hnd as [Hnotin Hnd'].
  destruct Hin as [[= -> ->]|Hin]; [rewrite str_eqb_refl; reflexivity|].
  destruct (str_eqb_spec k k') as [->|_]; [|exact (IH k v Hnd' Hin)].
  elim Hnotin. exact (in_map fst _ _ Hin).
Qed.

Lemma lookup_Some_In : forall e k v, lookup e k = Some v -> In (k, v) e.
Proof.
  induction e as [|[k' v'] e IH]; intros k v H; cbn in *; [discriminate|].
  destruct (str_eqb_spec k k') as [->|_]; [left; congruence | right; exact (IH k v H)].
Qed.

Lemma keys_lookup : forall e k, In k (keys e) <-> lookup e k <> None.
Proof.
  intros e k. destruct (lookup e k) as [v|] eqn:E.
  - split; [discriminate|]. intros _. exact (in_map fst _ _ (lookup_Some_In _ _ _ E)).
  - apply lookup_None_keys in E. split; [contradiction | congruence].
Qed.

Lemma keys_set_var : forall e k v k', In k' (keys (set_var e k v)) <-> k' = k \/ In k' (keys e).
Proof.
  intros e k v k'. split; intro H.
  - apply keys_lookup in H. rewrite lookup_set_var in H.
    destruct (str_eqb_spec k' k); [left; assumption | right; apply keys_lookup, H].
  - apply keys_lookup. rewrite lookup_set_var.
    destruct H as [->|H]; [rewrite str_eqb_refl | destruct (str_eqb k' k)]; try discriminate. apply keys_lookup, H.
Qed.

Lemma NoDup_keys_set_var : forall e k v, NoDup (keys e) -> NoDup (keys (set_var e k v)).
Proof.
  induction e as [|[k0 v0] e IH]; intros k v Hnd; cbn.
  - repeat constructor. intros [].
  - apply NoDup_cons_iff in Hnd. destruct Hnd as [Hnotin Hnd'].
    destruct (str_eqb_spec k k0) as [<-|Hk]; cbn; constructor; auto.
    intro H. apply keys_set_var in H. destruct H; [congruence | contradiction].
Qed.

Lemma keys_map_val : forall (f : str -> str) (e : envmap), keys (map (fun kv => (fst kv, f (snd kv))) e) = keys e.
Proof. intros. unfold keys. rewrite map_map. reflexivity. Qed.

Lemma lookup_map_val : forall (f : str -> str) e k,
  lookup (map (fun kv => (fst kv, f (snd kv))) e) k = option_map f (lookup e k).
Proof.
  induction e as [|[k' v'] e IH]; intros k; cbn; [reflexivity|].
  destruct (str_eqb k k'); [reflexivity | apply IH].
Qed.

Lemma lookup_perm : forall a b k, NoDup (keys a) -> Permutation a b -> lookup b k = lookup a k.
Proof.
  intros a b k Hnd Hp. destruct (lookup a k) as [v|] eqn:E.
  - apply lookup_In; [exact (Permutation_NoDup (Permutation_map fst Hp) Hnd)|].
    apply (Permutation_in _ Hp), lookup_Some_In, E.
  - rewrite lookup_None_keys in *. intro H. apply E.
    exact (Permutation_in _ (Permutation_sym (Permutation_map fst Hp)) H).
Qed.

Lemma lookup_prune : forall full allowed k,
  lookup (prune full allowed) k = if str_mem k allowed then lookup full k else None.
Proof.
  intros full allowed. unfold prune.
  induction full as [|[k' v'] e IH]; intros k; cbn; [destruct (str_mem k allowed); reflexivity|].
  destruct (str_mem k' allowed) eqn:EP; cbn; rewrite IH; destruct (str_eqb_spec k k') as [->|]; try rewrite EP; reflexivity.
Qed.

Lemma In_prune : forall full allowed k v, In (k, v) (prune full allowed) <-> In (k, v) full /\ In k allowed.
Proof.
  intros. unfold prune. etransitivity; [apply filter_In|]. apply and_iff_compat_l, str_mem_In.
Qed.

Lemma keys_prune_eq : forall full allowed,
  keys (prune full allowed) = filter (fun k => str_mem k allowed) (keys full).
Proof.
  intros full allowed. unfold prune, keys. induction full as [|[k v] e IH]; cbn; [reflexivity|].
  destruct (str_mem k allowed); cbn; rewrite IH; reflexivity.
Qed.

Lemma keys_prune : forall full allowed k, In k (keys (prune full allowed)) <-> In k (keys full) /\ In k allowed.
Proof. intros. rewrite keys_prune_eq, filter_In. apply and_iff_compat_l, str_mem_In. Qed.

Lemma NoDup_keys_prune : forall full allowed, NoDup (keys full) -> NoDup (keys (prune full allowed)).
Proof. intros. rewrite keys_prune_eq. apply NoDup_filter. assumption. Qed.

Lemma In_step_vars : forall rs kd k,
  In k (fst (step_vars rs kd) ++ snd (step_vars rs kd)) <->
  exists r, In r rs /\ In k (fst (own_vars r kd) ++ snd (own_vars r kd)).
Proof.
  intros rs kd k. unfold step_vars. cbn [fst snd]. split.
  - intro H. apply in_app_or in H.
    destruct H as [H|H]; apply in_flat_map in H; destruct H as [r [Hr H]]; exists r;
      (split; [exact Hr | apply in_or_app; auto]).
  - intros [r [Hr H]]. apply in_or_app. apply in_app_or in H.
    destruct H; [left|right]; apply in_flat_map; exists r; auto.
Qed.

(* Recipe.__init__: the sets of build end in those of checkout, the sets of
   package in those of build *)
Lemma own_vars_mono : forall r k,
  (In k (fst (own_vars r KCheckout) ++ snd (own_vars r KCheckout)) ->
   In k (fst (own_vars r KBuild) ++ snd (own_vars r KBuild))) /\
  (In k (fst (own_vars r KBuild) ++ snd (own_vars r KBuild)) ->
   In k (fst (own_vars r KPackage) ++ snd (own_vars r KPackage))).
Proof.
  intros r k. cbn [own_vars fst snd].
  split; intro H; apply in_app_or in H; apply in_or_app; destruct H; [left|right|left|right];
    apply in_or_app; right; assumption.
Qed.

(* The model has three copies of insertion sort; each satisfies the two
   equations by computation. *)
Lemma insertion_sort_perm : forall A (le : A -> A -> bool) (ins : A -> list A -> list A) (srt : list A -> list A),
  (forall x l, ins x l = match l with [] => [x] | y :: r => if le x y then x :: l else y :: ins x r end) ->
  (forall l, srt l = match l with [] => [] | x :: r => ins x (srt r) end) ->
  forall l, Permutation (srt l) l.
Proof.
  intros A le ins srt ins_eq srt_eq.
  assert (Hins : forall x l, Permutation (ins x l) (x :: l)).
  { induction l as [|y l IH]; rewrite ins_eq; [reflexivity|].
    destruct (le x y); [reflexivity|]. rewrite IH. apply perm_swap. }
  induction l as [|x l IH]; rewrite srt_eq; [constructor|]. rewrite Hins, IH. reflexivity.
Qed.

Lemma sort_kv_perm : forall l, Permutation (sort_kv l) l.
Proof.
  apply (insertion_sort_perm _ (fun x y => str_leb (fst x) (fst y)) insert_kv);
    [intros x [|y r] | intros [|x r]]; reflexivity.
Qed.

Lemma sort_by_key_perm : forall A (l : list (str * A)), Permutation (sort_by_key l) l.
Proof.
  intro A. apply (insertion_sort_perm _ (fun x y => str_leb (fst x) (fst y)) insert_key);
    [intros x [|y r] | intros [|x r]]; reflexivity.
Qed.

Lemma sort_str_perm : forall l, Permutation (sort_str l) l.
Proof.
  apply (insertion_sort_perm _ str_leb insert_str); [intros x [|y r] | intros [|x r]]; reflexivity.
Qed.

Lemma sort_by_key_In : forall A (l : list (str * A)) x, In x (sort_by_key l) <-> In x l.
Proof. split; apply Permutation_in; [|symmetry]; apply sort_by_key_perm. Qed.

Lemma sort_str_In : forall l x, In x (sort_str l) <-> In x l.
Proof. split; apply Permutation_in; [|symmetry]; apply sort_str_perm. Qed.

(* The keys are distinct and every word reads at most the variable it assigns
   (its value is [val k] of that variable's current value): then every line
   is evaluated as if in the initial environment. *)
Lemma run_exports_from : forall (val : str -> str -> str) l e,
  NoDup (keys l) ->
  (forall k w, In (k, w) l -> forall e, bash_word e w = Some (val k (getenv e k))) ->
  exists e', run_exports e l = Some e' /\
    forall k, lookup e' k = match lookup l k with Some _ => Some (val k (getenv e k)) | None => lookup e k end.
Proof.
  intros val. induction l as [|[k w] l IH]; intros e Hnd Hw; cbn [run_exports].
  - exists e. split; reflexivity.
  - cbn [keys map fst] in Hnd. apply NoDup_cons_iff in Hnd. destruct Hnd as [Hk Hnd'].
    rewrite (Hw k w (or_introl eq_refl) e).
    destruct (IH (set_var e k (val k (getenv e k))) Hnd') as [e' [Hrun Hlk]].
    + intros k1 w1 H1. apply Hw. right. exact H1.
    + exists e'. split; [exact Hrun|]. intro k1. rewrite Hlk. cbn [lookup]. unfold getenv.
      destruct (str_eqb_spec k1 k) as [->|Hne].
      * apply lookup_None_keys in Hk. rewrite Hk. apply lookup_set_same.
      * rewrite lookup_set_other by exact Hne. reflexivity.
Qed.

Lemma run_exports_spec : forall (val : str -> str -> str) e0 u l,
  Permutation u l -> NoDup (keys u) ->
  (forall k w, lookup u k = Some w -> forall e, bash_word e w = Some (val k (getenv e k))) ->
  exists e', run_exports e0 l = Some e' /\
    forall k, lookup e' k = match lookup u k with Some _ => Some (val k (getenv e0 k)) | None => lookup e0 k end.
Proof.
  intros val e0 u l Hp Hnd Hw.
  destruct (run_exports_from val l e0) as [e' [Hrun Hlk]].
  - exact (Permutation_NoDup (Permutation_map fst Hp) Hnd).
  - intros k w H. apply Hw, lookup_In; [exact Hnd|]. exact (Permutation_in _ (Permutation_sym Hp) H).
  - exists e'. split; [exact Hrun|]. intro k. rewrite Hlk, (lookup_perm u l k Hnd Hp). reflexivity.
Qed.

(* the export line of a declared variable: its word is a constant *)
Lemma quoted_value_word : forall (d : envmap) k w,
  (forall k v, In (k, v) d -> no_nul v) ->
  option_map quote (lookup d k) = Some w -> forall e, bash_word e w = Some (getenv d k).
Proof.
  intros d k w Hv. unfold getenv. destruct (lookup d k) as [v|] eqn:E; intros [= <-] e.
  apply spells_bash_word, spells_quote, (Hv k), lookup_Some_In, E.
Qed.

Lemma run_quoted_exports : forall e0 (d : envmap) l,
  Permutation (map (fun kv => (fst kv, quote (snd kv))) d) l -> NoDup (keys d) ->
  (forall k v, In (k, v) d -> no_nul v) ->
  exists e', run_exports e0 l = Some e' /\
    forall k, lookup e' k = match lookup d k with Some v => Some v | None => lookup e0 k end.
Proof.
  intros e0 d l Hp Hnd Hv.
  destruct (run_exports_spec (fun k _ => getenv d k) e0 _ l Hp) as [e' [Hrun Hlk]].
  - rewrite keys_map_val. exact Hnd.
  - intros k w. rewrite lookup_map_val. exact (quoted_value_word d k w Hv).
  - exists e'. split; [exact Hrun|]. intro k. rewrite Hlk, lookup_map_val. unfold getenv.
    destruct (lookup d k); reflexivity.
Qed.

Lemma bob_vars_distinct : s_PATH <> s_LD /\ s_PATH <> s_BOB_CWD /\ s_LD <> s_BOB_CWD.
Proof. repeat split; discriminate. Qed.

Lemma lookup_prolog_unsorted : forall cwd sp k,
  lookup (prolog_unsorted cwd sp) k =
  if str_eqb k s_BOB_CWD then Some (quote (abspath cwd sp.(sp_ws_exec)))
  else if str_eqb k s_LD then Some (ld_word cwd sp.(sp_libs))
  else if str_eqb k s_PATH then Some (path_word cwd sp.(sp_paths))
  else option_map quote (lookup sp.(sp_env) k).
Proof. intros. unfold prolog_unsorted. rewrite !lookup_set_var, lookup_map_val. reflexivity. Qed.

Lemma lookup_host_env : forall preserve wl environ k,
  lookup (host_env preserve wl environ) k =
  if preserve || str_mem k wl then lookup environ k else None.
Proof.
  intros. destruct preserve; [reflexivity | apply lookup_prune].
Qed.

Lemma keys_host_env : forall preserve wl environ k,
  In k (keys (host_env preserve wl environ)) <-> host_visible preserve wl environ k.
Proof.
  intros [|] wl environ k; unfold host_visible.
  - split; [auto | intros [H _]; exact H].
  - etransitivity; [apply (keys_prune environ wl)|].
    split; intros [H1 H2]; [auto | destruct H2; [discriminate | auto]].
Qed.

Lemma lookup_proc_env_other : forall preserve sp environ k, k <> s_PATH ->
  lookup (proc_env preserve sp environ) k = lookup (host_env preserve sp.(sp_whitelist) environ) k.
Proof.
  intros. unfold proc_env. destruct (sp_fat sp); [apply lookup_set_other; assumption | reflexivity].
Qed.

Lemma lookup_bash_init_other : forall dpath e k, k <> s_PATH -> lookup (bash_init dpath e) k = lookup e k.
Proof.
  intros. unfold bash_init. destruct (lookup e s_PATH); [reflexivity | apply lookup_set_other; assumption].
Qed.

Lemma script_env_lookup : forall dpath preserve cwd sp environ,
  spec_ok cwd sp ->
  exists e', script_env dpath preserve cwd sp environ = Some e' /\
    lookup e' s_PATH = Some (path_value (map (abspath cwd) sp.(sp_paths))
                                        (getenv (bash_init dpath (proc_env preserve sp environ)) s_PATH)) /\
    lookup e' s_LD = Some (join_with [ch_colon] (map (abspath cwd) sp.(sp_libs))) /\
    lookup e' s_BOB_CWD = Some (abspath cwd sp.(sp_ws_exec)) /\
    forall k, ~ In k bob_vars ->
      lookup e' k = match lookup sp.(sp_env) k with
                    | Some v => Some v
                    | None => lookup (host_env preserve sp.(sp_whitelist) environ) k
                    end.
Proof.
  intros dpath preserve cwd sp environ (Hnd & Hvals & Hpaths & Hlibs & Hcwd).
  set (h := bash_init dpath (proc_env preserve sp environ)).
  set (val := fun k inherited =>
    if str_eqb k s_BOB_CWD then abspath cwd sp.(sp_ws_exec)
    else if str_eqb k s_LD then join_with [ch_colon] (map (abspath cwd) sp.(sp_libs))
    else if str_eqb k s_PATH then path_value (map (abspath cwd) sp.(sp_paths)) inherited
    else getenv sp.(sp_env) k).
  destruct (run_exports_spec val h (prolog_unsorted cwd sp) (prolog_exports cwd sp)) as [e' [Hrun Hlk]].
  - symmetry. apply sort_kv_perm.
  - unfold prolog_unsorted. repeat apply NoDup_keys_set_var. rewrite keys_map_val. exact Hnd.
  - intros k w. rewrite lookup_prolog_unsorted. unfold val.
    destruct (str_eqb k s_BOB_CWD); [intros [= <-] e; apply spells_bash_word, spells_quote, Hcwd|].
    destruct (str_eqb k s_LD); [intros [= <-] e; apply bash_word_ld_word, Hlibs|].
    destruct (str_eqb_spec k s_PATH) as [->|_]; [intros [= <-] e; apply bash_word_path_word, Hpaths|].
    exact (quoted_value_word _ k w Hvals).
  - exists e'. split; [exact Hrun|].
    repeat apply conj; try (rewrite Hlk, lookup_prolog_unsorted; reflexivity).
    intros k Hb. rewrite Hlk, lookup_prolog_unsorted. unfold val, getenv.
    destruct (str_eqb_spec k s_BOB_CWD) as [->|_]; [elim Hb; right; right; left; reflexivity|].
    destruct (str_eqb_spec k s_LD) as [->|_]; [elim Hb; right; left; reflexivity|].
    destruct (str_eqb_spec k s_PATH) as [->|Hk]; [elim Hb; left; reflexivity|].
    destruct (lookup (sp_env sp) k); [reflexivity|]. cbn [option_map].
    unfold h. rewrite lookup_bash_init_other by exact Hk. apply lookup_proc_env_other, Hk.
Qed.

Lemma fingerprint_env_lookup : forall preserve sp environ fpcwd stepenv varset,
  NoDup (keys stepenv) -> (forall k v, In (k, v) stepenv -> no_nul v) ->
  exists e', fingerprint_env preserve sp environ fpcwd stepenv varset = Some e' /\
    forall k, lookup e' k = match lookup (prune stepenv varset) k with
                            | Some v => Some v
                            | None => lookup (fingerprint_proc_env preserve sp environ fpcwd) k
                            end.
Proof.
  intros preserve sp environ fpcwd stepenv varset Hnd Hvals. apply run_quoted_exports.
  - transitivity (sort_kv (map (fun kv => (fst kv, quote (snd kv))) (prune stepenv varset)));
      [symmetry; apply sort_kv_perm | apply Permutation_rev].
  - apply NoDup_keys_prune, Hnd.
  - intros k v H. apply In_prune in H. exact (Hvals k v (proj1 H)).
Qed.

Definition item_in (W : mount -> Prop) (i : item) : Prop :=
  match i with
  | IFlag c => mem c flags_no_arg = true
  | IArg c _ => mem c opts_with_arg = true
  | IMount s (Some (true, t)) => W (mk_mount s t true)
  | IMount _ _ => True
  end.

Lemma helper_mounts_flag : forall c r p, In c flags_no_arg -> helper_mounts (o c :: r) p = helper_mounts r p.
Proof. intros c r p H. repeat (destruct H as [<-|H]; [reflexivity|]). destruct H. Qed.

Lemma helper_mounts_arg : forall c x r p, In c opts_with_arg -> helper_mounts (o c :: x :: r) p = helper_mounts r p.
Proof. intros c x r p H. repeat (destruct H as [<-|H]; [reflexivity|]). destruct H. Qed.

Lemma helper_mounts_M : forall s r p, helper_mounts (oM :: s :: r) p = flush p ++ helper_mounts r (Some s).
Proof. reflexivity. Qed.

Lemma helper_mounts_bind : forall (rw : bool) s t r,
  helper_mounts ((if rw then ow else om) :: t :: r) (Some s) = mk_mount s t rw :: helper_mounts r None.
Proof. intros [|]; reflexivity. Qed.

Lemma helper_mounts_items : forall W items pending,
  Forall (item_in W) items ->
  helper_mounts (flat_map render_item items ++ [s_dashdash]) pending =
  flush pending ++ flat_map item_mounts items.
Proof.
  induction items as [|i items IH]; intros pending Hok.
  - destruct pending; reflexivity.
  - apply Forall_cons_iff in Hok. destruct Hok as [Hi Hr]. cbn [flat_map]. rewrite <- app_assoc.
    destruct i as [c|c x|s [[rw t]|]]; cbn [render_item item_mounts app].
    + rewrite helper_mounts_flag by apply mem_In, Hi. exact (IH pending Hr).
    + rewrite helper_mounts_arg by apply mem_In, Hi. exact (IH pending Hr).
    + rewrite helper_mounts_M, helper_mounts_bind, IH by exact Hr. reflexivity.
    + rewrite helper_mounts_M, IH by exact Hr. reflexivity.
Qed.

Lemma rw_mount_in : forall W items m,
  Forall (item_in W) items -> In m (flat_map item_mounts items) -> m_rw m = true -> W m.
Proof.
  intros W items m Hall H Hrw. apply in_flat_map in H. destruct H as [i [Hi Hm]].
  apply (proj1 (Forall_forall _ _) Hall) in Hi.
  destruct i as [c|c x|s [[[|] t]|]]; cbn in Hm; try contradiction;
    destruct Hm as [<-|[]]; try discriminate Hrw. exact Hi.
Qed.

Definition writable_mount (w : world) (sp : spec) (m : mount) : Prop :=
  m = ws_mount w sp \/
  (exists f, sp.(sp_envfile) = Some f /\ m = envfile_mount w f) \/
  (sp.(sp_fat) = None /\ m = whiteout_mount w) \/
  (exists f hp sbp opts, sp.(sp_fat) = Some f /\ In (hp, sbp, opts) f.(fs_mounts) /\ str_mem s_rw opts = true /\
                         m = mk_mount (w.(w_subst) hp) (w.(w_subst) sbp) true).

Definition bob_item (w : world) (sp : spec) : item -> Prop := item_in (writable_mount w sp).

Lemma host_mount_items_spec : forall w sp f, sp_fat sp = Some f -> forall hm, In hm (fs_mounts f) ->
  Forall (bob_item w sp) (host_mount_items w (sp_jenkins sp) hm).
Proof.
  intros w sp f Hf [[hp sbp] opts] Hin. unfold host_mount_items.
  destruct (str_mem _ opts); [constructor|]. destruct (_ && _); [constructor|].
  constructor; [|constructor].
  destruct (str_mem s_rw opts) eqn:Erw; [|destruct (negb _); exact I].
  do 3 right. exists f, hp, sbp, opts. auto.
Qed.

(* part by part: an option is found in the parser's tables by evaluation, a
   read-only mount asks nothing, the writable mounts are named *)
Lemma sandbox_items_spec : forall w sp, Forall (bob_item w sp) (sandbox_items w sp).
Proof.
  intros w sp. unfold sandbox_items, envfile_items. repeat (apply Forall_app; split).
  - destruct (sp_fat sp) as [f|] eqn:Ef.
    + unfold fat_items. repeat (apply Forall_app; split).
      * repeat constructor.
      * apply Forall_map, Forall_forall. intros e _. exact I.
      * apply Forall_flat_map, Forall_forall. exact (host_mount_items_spec w sp f Ef).
      * destruct (str_eqb _ s_root); [|destruct (str_eqb _ s_USER)]; repeat constructor.
    + unfold slim_items. repeat (apply Forall_app; split).
      * repeat constructor.
      * apply Forall_flat_map, Forall_forall. intros e _. destruct (str_eqb e _); repeat constructor.
      * constructor; [|constructor]. right; right; left. split; [exact Ef | reflexivity].
  - repeat constructor.
  - destruct (sp_net sp); repeat constructor.
  - destruct (sp_envfile sp) as [f|] eqn:Ee; constructor; [|constructor]. right; left. exists f. split; [exact Ee | reflexivity].
  - constructor; [|constructor]. left. reflexivity.
  - repeat constructor.
  - apply Forall_map, Forall_forall. intros d _. exact I.
Qed.

Lemma mount_plan_eq : forall w sp, has_sandbox sp = true ->
  mount_plan w sp = flat_map item_mounts (sandbox_items w sp).
Proof.
  intros w sp H. unfold mount_plan, sandbox_argv. rewrite H. cbn [tl].
  rewrite (helper_mounts_items _ _ _ (sandbox_items_spec w sp)). reflexivity.
Qed.

Lemma sandbox_items_mounts : forall w sp,
  flat_map item_mounts (sandbox_items w sp) =
  flat_map item_mounts (match sp.(sp_fat) with Some f => fat_items w sp.(sp_jenkins) f | None => slim_items w end)
  ++ [script_mount w sp]
  ++ (match sp.(sp_envfile) with Some f => [envfile_mount w f] | None => [] end)
  ++ [ws_mount w sp]
  ++ map (dep_mount w) sp.(sp_dep_mounts).
Proof.
  intros w sp.
  assert (Hnet : flat_map item_mounts (if sp_net sp then [] else [IFlag 110]) = [])
    by (destruct (sp_net sp); reflexivity).
  assert (Henv : flat_map item_mounts (envfile_items w sp) =
                 match sp_envfile sp with Some f => [envfile_mount w f] | None => [] end)
    by (unfold envfile_items; destruct (sp_envfile sp); reflexivity).
  assert (Hdep : flat_map item_mounts (map (dep_item w) (sp_dep_mounts sp)) = map (dep_mount w) (sp_dep_mounts sp))
    by (induction (sp_dep_mounts sp) as [|d l IH]; [reflexivity | cbn [map flat_map]; rewrite IH; reflexivity]).
  unfold sandbox_items. rewrite !flat_map_app, Hnet, Henv, Hdep. reflexivity.
Qed.

(* what every sandboxed step mounts after the base of its sandbox kind *)
Lemma In_step_mounts : forall w sp m,
  In m ([script_mount w sp]
        ++ (match sp.(sp_envfile) with Some f => [envfile_mount w f] | None => [] end)
        ++ [ws_mount w sp] ++ map (dep_mount w) sp.(sp_dep_mounts)) ->
  m = script_mount w sp \/ (exists f, sp.(sp_envfile) = Some f /\ m = envfile_mount w f) \/
  m = ws_mount w sp \/ (exists d, In d sp.(sp_dep_mounts) /\ m = dep_mount w d).
Proof.
  intros w sp m. cbn [app In].
  intros [<-|H]; [left; reflexivity | right]. apply in_app_or in H. destruct H as [H|[<-|H]].
  - left. destruct (sp_envfile sp) as [f|]; [|destruct H]. destruct H as [<-|[]]. eauto.
  - right; left. reflexivity.
  - right; right. apply in_map_iff in H. destruct H as [d [<- H]]. eauto.
Qed.

Lemma slim_items_whiteout_last : forall w, exists pre, flat_map item_mounts (slim_items w) = pre ++ [whiteout_mount w].
Proof. intro w. unfold slim_items. rewrite app_assoc, flat_map_app. eexists. reflexivity. Qed.

Lemma under_refl_prefix : forall d, under d d = true.
Proof. intros. unfold under. rewrite str_eqb_refl. reflexivity. Qed.

Lemma is_prefix_app : forall a b, is_prefix a (a ++ b) = true.
Proof. induction a; intro b; cbn; [reflexivity|]. rewrite N.eqb_refl. apply IHa. Qed.

Lemma under_os_join : forall e l, e <> [] -> is_abs l = false -> under e (os_join e l) = true.
Proof.
  intros e l He Hl. unfold os_join, under. rewrite Hl. destruct e as [|c e]; [congruence|].
  destruct (last_is_slash (c :: e)); apply orb_true_intro; right.
  - apply is_prefix_app.
  - rewrite app_assoc. apply is_prefix_app.
Qed.

Lemma resolve_app : forall a b p cur, resolve (a ++ b) p cur = resolve b p (resolve a p cur).
Proof. induction a as [|m a IH]; intros; cbn; [reflexivity | apply IH]. Qed.

Lemma resolve_in : forall l p cur m, resolve l p cur = Some m -> cur = Some m \/ In m l.
Proof.
  induction l as [|x l IH]; intros p cur m H; cbn in H; [left; exact H|].
  apply IH in H. destruct H as [H|H]; [|right; right; exact H].
  destruct (under (m_tgt x) p); [injection H as <-; right; left; reflexivity | left; exact H].
Qed.

Lemma resolve_after_cover : forall pre m0 post p cur m,
  under (m_tgt m0) p = true -> resolve (pre ++ m0 :: post) p cur = Some m -> m = m0 \/ In m post.
Proof.
  intros pre m0 post p cur m Hu Hr. rewrite resolve_app in Hr. cbn [resolve] in Hr. rewrite Hu in Hr.
  apply resolve_in in Hr. destruct Hr as [Hr|Hr]; [left; injection Hr as <-; reflexivity | right; exact Hr].
Qed.

Lemma chain_mounts_exact : forall s x,
  In x (chain_mounts s) <-> exists d, own_chain s d /\ st_valid d = true /\ x = (st_storage d, st_exec d).
Proof.
  intros s x. split.
  - induction s as [v c p e | v c p e a IH o]; cbn [chain_mounts]; [intros []|].
    destruct v, c; cbn [andb negb]; try (intros []). intro H. apply in_app_or in H. destruct H as [H|H].
    + destruct (st_valid a) eqn:Ea; [|destruct H]. destruct H as [<-|[]]. exists a. auto using oc_here.
    + destruct (IH H) as (d & H1 & H2). exists d. auto using oc_next.
  - intros (d & Hc & Hv & ->). induction Hc as [p e a o | p e a o d _ IH]; cbn [chain_mounts andb negb]; apply in_or_app.
    + left. rewrite Hv. left. reflexivity.
    + right. exact (IH Hv).
Qed.
