(* C10 — property theorems: workspace state commits atomically and is
   single-writer.  The P1 theorems are the consequences of the invariant of
   Proofs.v, read on the world a history reaches ([b_reachable_inv]); the
   examples show that no hypothesis is vacuous.

   [bevent] histories are lists of commands that complete
   ([ECmd]: start of an instance, any public mutator/getter call,
   setAsynchronous/setSynchronous, finalize) and machine crashes
   ([ECrashDuring c k adv]: the crash hits after the first k file-system
   operations of command c; every file written but not fsynced is then found
   with the content [adv] chooses; the lock file is removed by hand as the
   error message of Bob instructs).  [enc]/[dec] is pickle (opaque; [dec]
   is given the whole file, trailer included, as pickle.load is), the checksum
   is the concrete Adler-32.  [b_detectable_run] is the explicit
   assumption on torn content: what is found in the *uncommitted* file after a
   crash is what was written or fails the trailer check. *)
From Coq Require Import List NArith Bool.
Require Import BobV.C10.Fs BobV.C10.Model BobV.C10.Proofs.
Import ListNotations.
Open Scope N_scope.

(* P2.  Adler-32 trailer: a completely written file always verifies; a file
   shorter than the trailer and a zero-filled file of any length never do. *)
Theorem sealed_file_verifies : forall p, verify_ok (seal p) = true.
Proof. intros p. unfold seal. rewrite verify_ok_app by reflexivity. apply bytes_eqb_refl. Qed.

Theorem short_file_rejected : forall d, (length d < 4)%nat -> verify_ok d = false.
Proof.
  intros d H. apply not_true_is_false. intros E.
  now apply verify_ok_length, PeanoNat.Nat.le_ngt in E.
Qed.

(* zeros only: a file that was allocated but never written, the classical
   result of delayed allocation *)
Theorem zero_file_rejected : forall n, verify_ok (repeat 0 n) = false.
Proof.
  intros n. apply not_true_is_false. intros E.
  pose proof (verify_ok_length _ E) as Hn. rewrite repeat_length in Hn.
  rewrite <- (PeanoNat.Nat.sub_add 4 n Hn), repeat_app in E.
  (* the last four zeros are the trailer of the value 0 *)
  change (repeat 0 4) with (le32 0) in E.
  apply trailer_match in E. rewrite bsum_zeros in E. discriminate E.
Qed.

(* P2.  A single changed byte of the payload is always detected. *)
Theorem adler_detects_single_byte : forall l1 x y l2,
  x < 256 -> y < 256 -> x <> y ->
  verify_ok (l1 ++ y :: l2 ++ le32 (adler32 (l1 ++ x :: l2))) = false.
Proof.
  intros l1 x y l2 Hx Hy Hne.
  rewrite app_comm_cons, app_assoc. apply not_true_is_false. intros E.
  now apply single_byte_detected in E.
Qed.

(* P1.  Every public mutator either leaves the memory unchanged or calls
   __save ("save skipped on change" is impossible). *)
Theorem mutators_save_on_change :
  forall norm s a s' r, mutate norm s a = (s', false, r) -> s' = s.
Proof.
  intros norm s a s' r H.
  (* on the projections of the result the cases need no inversion *)
  enough (L : snd (fst (mutate norm s a)) = false -> fst (fst (mutate norm s a)) = s)
    by (rewrite H in L; exact (L eq_refl)).
  (* by cases over the API; workspace reset is the only call with more than a
     test or two *)
  clear H. destruct a; cbn;
    try match goal with |- context [reset_ws s ?k ?v] =>
      destruct (reset_ws s k v) as [s1 []] eqn:E; cbn;
        [discriminate|intros _; exact (reset_ws_same _ _ _ _ E)]
    end;
    repeat match goal with |- context [match ?x with _ => _ end] => destruct x end;
    (reflexivity || discriminate).
Qed.

Lemma b_reachable_inv :
  forall (enc : state -> bytes) (dec : bytes -> option state) (norm : key -> key),
  (forall s, dec (seal (enc s)) = Some s) ->
  forall evs : list bevent,
  b_detectable_run enc dec norm b_w0 evs ->
  Inv state bytes init_state (b_seal enc) verify_ok
      (fst (b_run enc dec norm b_w0 evs)) (b_candidates [init_state] (snd (b_run enc dec norm b_w0 evs))).
Proof.
  exact (fun enc dec norm H =>
    reachable_inv (fun s => sealed_file_verifies (enc s)) H (mutators_save_on_change norm)).
Qed.
Arguments b_reachable_inv {enc dec norm} _ {evs} _.

(* P1.  After any history, once no instance is alive (crash or finalize), the
   next start loads, without error, exactly one candidate snapshot: never a
   mixture, never older than the state of the last started/completed
   invocation. *)
Theorem recover_is_saved_snapshot :
  forall (enc : state -> bytes) (dec : bytes -> option state) (norm : key -> key),
  (forall s, dec (seal (enc s)) = Some s) ->
  forall evs : list bevent,
  b_detectable_run enc dec norm b_w0 evs ->
  w_proc (fst (b_run enc dec norm b_w0 evs)) = None ->
  exists s, fst (b_start dec (w_fs (fst (b_run enc dec norm b_w0 evs)))) = SLoaded s /\
            In s (b_candidates [init_state] (snd (b_run enc dec norm b_w0 evs))).
Proof.
  intros enc dec norm H evs Hd.
  exact (recover_generic H (b_reachable_inv H Hd)).
Qed.

(* P1.  ... in particular for a crash at every operation boundary of every
   command of every history (including crashes during recovery itself). *)
Theorem recover_after_any_crash :
  forall (enc : state -> bytes) (dec : bytes -> option state) (norm : key -> key),
  (forall s, dec (seal (enc s)) = Some s) ->
  forall (evs : list bevent) cm k adv,
  b_detectable_run enc dec norm b_w0 (evs ++ [ECrashDuring cm k adv]) ->
  exists s,
    fst (b_start dec (w_fs (fst (b_run enc dec norm b_w0 (evs ++ [ECrashDuring cm k adv]))))) = SLoaded s /\
    In s (b_candidates [init_state] (snd (b_run enc dec norm b_w0 (evs ++ [ECrashDuring cm k adv])))).
Proof.
  intros enc dec norm H evs cm k adv Hd.
  exact (recover_is_saved_snapshot enc dec norm H _ Hd (run_snoc_crash_dead evs _ cm k adv)).
Qed.

(* P1.  The file under the committed name is fully durable at every instant
   (fsync precedes the rename in every trace). *)
Theorem committed_file_always_durable :
  forall (enc : state -> bytes) (dec : bytes -> option state) (norm : key -> key),
  (forall s, dec (seal (enc s)) = Some s) ->
  forall (evs : list bevent) cm k x,
  b_detectable_run enc dec norm b_w0 evs ->
  at_pickle (b_fs_at_crash enc dec norm (fst (b_run enc dec norm b_w0 evs)) cm k) = Some x ->
  f_synced x = true.
Proof.
  intros enc dec norm H evs cm k x Hd.
  exact (pickle_durable_generic (fun s => sealed_file_verifies (enc s)) H (mutators_save_on_change norm)
           cm k x (b_reachable_inv H Hd)).
Qed.

(* P1.  While an instance is alive a second one refuses and touches nothing. *)
Theorem single_writer :
  forall (enc : state -> bytes) (dec : bytes -> option state) (norm : key -> key),
  (forall s, dec (seal (enc s)) = Some s) ->
  forall (evs : list bevent) p,
  b_detectable_run enc dec norm b_w0 evs ->
  w_proc (fst (b_run enc dec norm b_w0 evs)) = Some p ->
  b_start dec (w_fs (fst (b_run enc dec norm b_w0 evs))) = (SRefused, []).
Proof.
  intros enc dec norm H evs p Hd.
  exact (single_writer_generic (b_reachable_inv H Hd)).
Qed.

(* P1.  Outside asynchronous sections nothing is pending and the newest file
   on disk is the sealed pickle of the in-memory state (every change is saved;
   leaving the last asynchronous section flushes). *)
Theorem sync_state_is_on_disk :
  forall (enc : state -> bytes) (dec : bytes -> option state) (norm : key -> key),
  (forall s, dec (seal (enc s)) = Some s) ->
  forall (evs : list bevent) p,
  b_detectable_run enc dec norm b_w0 evs ->
  w_proc (fst (b_run enc dec norm b_w0 evs)) = Some p ->
  p_async p = 0%nat ->
  p_dirty p = false /\
  match disk_latest bytes (w_fs (fst (b_run enc dec norm b_w0 evs))) with
  | Some c => c = seal (enc (p_mem p))
  | None => p_mem p = init_state
  end.
Proof.
  intros enc dec norm H evs p Hd.
  exact (sync_on_disk_generic (b_reachable_inv H Hd)).
Qed.

(* P1.  A completed invocation leaves exactly its final state committed and
   durable, no uncommitted file, no lock. *)
Theorem finalize_commits_final_state :
  forall (enc : state -> bytes) (dec : bytes -> option state) (norm : key -> key),
  (forall s, dec (seal (enc s)) = Some s) ->
  forall (evs : list bevent) p,
  b_detectable_run enc dec norm b_w0 evs ->
  w_proc (fst (b_run enc dec norm b_w0 evs)) = Some p ->
  p_async p = 0%nat ->
  let w' := fst (b_step enc dec norm (fst (b_run enc dec norm b_w0 evs)) (ECmd CFinalize)) in
  w_proc w' = None /\ at_lock (w_fs w') = None /\ at_new (w_fs w') = None /\
  match at_pickle (w_fs w') with
  | Some x => f_synced x = true /\ f_data x = seal (enc (p_mem p))
  | None => p_mem p = init_state
  end.
Proof.
  intros enc dec norm H evs p Hd.
  exact (finalize_commits_generic (fun s => sealed_file_verifies (enc s)) (b_reachable_inv H Hd)).
Qed.

(* P1.  Nothing is lost needlessly: if the uncommitted file survives intact
   (SIGKILL, or the data had reached the disk) the next start loads exactly
   the memory of the killed instance (uses: a sealed file passes Adler-32). *)
Theorem intact_file_recovers_memory :
  forall (enc : state -> bytes) (dec : bytes -> option state) (norm : key -> key),
  (forall s, dec (seal (enc s)) = Some s) ->
  forall (evs : list bevent) p adv,
  b_detectable_run enc dec norm b_w0 evs ->
  w_proc (fst (b_run enc dec norm b_w0 evs)) = Some p ->
  p_async p = 0%nat ->
  (forall y, at_new (w_fs (fst (b_run enc dec norm b_w0 evs))) = Some y -> adv NNew = f_data y) ->
  fst (b_start dec (recover adv (w_fs (fst (b_run enc dec norm b_w0 evs))))) = SLoaded (p_mem p).
Proof.
  intros enc dec norm H evs p adv Hd.
  exact (intact_recovers_memory_generic (fun s => sealed_file_verifies (enc s)) H adv (b_reachable_inv H Hd)).
Qed.

(* A call that leaves the instance inside an asynchronous section writes
   nothing (the setSynchronous that leaves the outermost one flushes). *)
Theorem async_defers :
  forall norm (p : proc state) pc p' r sv,
  proc_step state api ret (mutate norm) p pc = (p', r, sv) -> (0 < p_async p')%nat -> sv = None.
Proof. intros norm. exact (async_defers_generic (mutators_save_on_change norm)). Qed.

(* The assumption on the opaque pickle is satisfiable for the model state
   (a self-delimiting serialisation exists), so P1 is not vacuous ... *)
Theorem pickle_assumption_satisfiable : forall s, ser_dec (seal (ser_enc s)) = Some s.
Proof. intros s. unfold ser_dec, seal, ser_enc. now rewrite cState_ok. Qed.

(* ... and P1 instantiated with it has no hypothesis left but [detectable]. *)
Theorem recover_is_saved_snapshot_closed :
  forall (norm : key -> key) (evs : list bevent),
  b_detectable_run ser_enc ser_dec norm b_w0 evs ->
  w_proc (fst (b_run ser_enc ser_dec norm b_w0 evs)) = None ->
  exists s, fst (b_start ser_dec (w_fs (fst (b_run ser_enc ser_dec norm b_w0 evs)))) = SLoaded s /\
            In s (b_candidates [init_state] (snd (b_run ser_enc ser_dec norm b_w0 evs))).
Proof. exact (fun norm => recover_is_saved_snapshot ser_enc ser_dec norm pickle_assumption_satisfiable). Qed.

Example source_constants_match_model : model_consts_ok = true.
Proof. vm_compute. reflexivity. Qed.

(* two invocations; the second saved 8, then crashes between the write of
   the .dirty file and its rename while saving 9; the uncommitted file (8) is
   found truncated to three bytes: the start discards it and loads 7 *)
Example recover_nonvacuous_torn :
  let adv := fun n => match n with NNew => firstn 3 (seal (toy_enc (toy_state 8))) | _ => [255] end in
  let evs := [ECmd CStart; ECmd (toy_set 7); ECmd CFinalize; ECmd CStart; ECmd (toy_set 8);
              ECrashDuring (toy_set 9) 1 adv] in
  b_detectable_run toy_enc toy_dec toy_norm b_w0 evs /\
  w_proc (fst (b_run toy_enc toy_dec toy_norm b_w0 evs)) = None /\
  fst (b_start toy_dec (w_fs (fst (b_run toy_enc toy_dec toy_norm b_w0 evs)))) = SLoaded (toy_state 7) /\
  b_candidates [init_state] (snd (b_run toy_enc toy_dec toy_norm b_w0 evs)) = [toy_state 7; toy_state 8; toy_state 9].
Proof.
  cbv zeta. split; [|repeat apply conj; vm_compute; reflexivity].
  vm_compute. repeat split. intros _. right. reflexivity.
Qed.

(* the same crash with the uncommitted file intact: 8 is recovered *)
Example recover_nonvacuous_intact :
  let adv := fun n => match n with NNew => seal (toy_enc (toy_state 8)) | _ => [255] end in
  let evs := [ECmd CStart; ECmd (toy_set 7); ECmd CFinalize; ECmd CStart; ECmd (toy_set 8);
              ECrashDuring (toy_set 9) 1 adv] in
  b_detectable_run toy_enc toy_dec toy_norm b_w0 evs /\
  fst (b_start toy_dec (w_fs (fst (b_run toy_enc toy_dec toy_norm b_w0 evs)))) = SLoaded (toy_state 8).
Proof.
  cbv zeta. split; [|vm_compute; auto].
  vm_compute. repeat split. intros _. left. reflexivity.
Qed.

(* crash inside the recovery (after its fsync, before its rename), then recovery again *)
Example recover_nonvacuous_crash_during_recovery :
  let adv := fun n => match n with NNew => seal (toy_enc (toy_state 8)) | _ => [255] end in
  let evs := [ECmd CStart; ECmd (toy_set 8); ECrashDuring CFinalize 0 adv; ECrashDuring CStart 2 (fun _ => [])] in
  b_detectable_run toy_enc toy_dec toy_norm b_w0 evs /\
  fst (b_start toy_dec (w_fs (fst (b_run toy_enc toy_dec toy_norm b_w0 evs)))) = SLoaded (toy_state 8).
Proof.
  cbv zeta. split; [|vm_compute; auto].
  vm_compute. repeat split; try (intros _; left; reflexivity). intros H; discriminate H.
Qed.

Example single_writer_nonvacuous :
  let evs := [ECmd CStart; ECmd (toy_set 7)] in
  (exists p, w_proc (fst (b_run toy_enc toy_dec toy_norm b_w0 evs)) = Some p) /\
  b_start toy_dec (w_fs (fst (b_run toy_enc toy_dec toy_norm b_w0 evs))) = (SRefused, []).
Proof. cbv zeta. split; [eexists|]; vm_compute; reflexivity. Qed.

(* the assumption [detectable] cannot be dropped: a garbage block that
   happens to carry a correct Adler-32 trailer (here of the one-byte payload 2;
   for the real code e.g. the four bytes 01 00 00 00, the trailer of the empty
   payload) is committed when found in the uncommitted file and the start
   fails *)
Example detectable_is_needed :
  verify_ok [1; 0; 0; 0] = true /\ verify_ok [2; 3; 0; 3; 0] = true /\
  let evs := [ECmd CStart; ECmd (toy_set 7); ECrashDuring CFinalize 0 (fun _ => [2; 3; 0; 3; 0])] in
  fst (b_start toy_dec (w_fs (fst (b_run toy_enc toy_dec toy_norm b_w0 evs)))) = SLoadError.
Proof. repeat apply conj; vm_compute; reflexivity. Qed.

(* asynchronous sections: two changes, one save when the section is left *)
Example async_nonvacuous :
  let evs := [ECmd CStart; ECmd (CProc PAsync); ECmd (toy_set 7); ECmd (toy_set 8); ECmd (CProc PSync)] in
  b_candidates [init_state] (snd (b_run toy_enc toy_dec toy_norm b_w0 evs)) = [init_state; toy_state 8].
Proof. vm_compute. reflexivity. Qed.
