(* C10 — proofs.  The Adler-32 trailer: what passes the check has the byte sum
   its trailer records.  The generic protocol (section ProtoProofs): an
   invariant [Inv w cands] of worlds, whose file part holds at every operation
   boundary of every command (where a crash may hit) and which holds as a
   whole when a command has completed or the machine has crashed ([effect_ok],
   [step_inv]); the P1 theorems are read off it.  For the Bob instance:
   workspace reset changes the state only if it asks for a save; the concrete
   pickle decodes what it encodes. *)
From Coq Require Import List NArith Bool Arith Lia.
Require BobV.Common.ListFacts.
Require Import BobV.C10.Fs BobV.C10.Model.
Import ListNotations.
Open Scope N_scope.

Lemma bytes_eqb_eq a b : bytes_eqb a b = true <-> a = b.
Proof. exact (ListFacts.list_eqb_eq _ _ N.eqb_spec a b). Qed.

Lemma bytes_eqb_refl a : bytes_eqb a a = true.
Proof. now apply bytes_eqb_eq. Qed.

Lemma le32_length v : length (le32 v) = 4%nat.
Proof. reflexivity. Qed.

Lemma verify_ok_app p t : length t = 4%nat -> verify_ok (p ++ t) = bytes_eqb (le32 (adler32 p)) t.
Proof.
  intros Ht. unfold verify_ok. rewrite app_length, Ht, Nat.add_sub.
  rewrite firstn_app, skipn_app, Nat.sub_diag, firstn_all, skipn_all. cbn [firstn skipn app].
  now rewrite app_nil_r.
Qed.

Lemma verify_ok_length d : verify_ok d = true -> (4 <= length d)%nat.
Proof.
  unfold verify_ok. intros H. apply bytes_eqb_eq, (f_equal (@length N)) in H.
  rewrite le32_length, skipn_length in H. rewrite H. apply Nat.le_sub_l.
Qed.

Lemma bsum_app a b : bsum (a ++ b) = bsum a + bsum b.
Proof. induction a as [|x a IH]; simpl; [|rewrite IH, N.add_assoc]; reflexivity. Qed.

Lemma bsum_zeros n : bsum (repeat 0 n) = 0.
Proof. induction n; simpl; auto. Qed.

Lemma adler_go_fst : forall d a b, a < ADLER_MOD -> fst (adler_go a b d) = (a + bsum d) mod ADLER_MOD.
Proof.
  induction d as [|x d IH]; intros a b Ha; simpl.
  - rewrite N.add_0_r. symmetry. apply N.mod_small. exact Ha.
  - rewrite IH by (apply N.mod_lt; discriminate).
    rewrite N.add_mod_idemp_l, N.add_assoc by discriminate. reflexivity.
Qed.

Lemma adler32_low d : adler32 d mod 65536 = (1 + bsum d) mod ADLER_MOD.
Proof.
  unfold adler32. pose proof (adler_go_fst d 1 0 eq_refl) as Ha.
  destruct (adler_go 1 0 d) as [a b]. cbn [fst] in Ha. subst a.
  rewrite N.add_comm, N.mod_add by discriminate. apply N.mod_small.
  apply N.lt_trans with ADLER_MOD; [apply N.mod_lt; discriminate|reflexivity].
Qed.

Lemma le32_low v w : le32 v = le32 w -> v mod 65536 = w mod 65536.
Proof.
  unfold le32. intros [= E0 E1 _ _]. change 65536 with (256 * 256).
  rewrite !N.mod_mul_r by discriminate. now rewrite E0, E1.
Qed.

Lemma trailer_match q v :
  verify_ok (q ++ le32 v) = true -> (1 + bsum q) mod ADLER_MOD = v mod 65536.
Proof.
  rewrite verify_ok_app by reflexivity. intros H. apply bytes_eqb_eq, le32_low in H.
  now rewrite <- adler32_low.
Qed.

(* the sums are congruent (low half of Adler-32), so they differ by a multiple
   of the modulus *)
Lemma close_sums_detected p q :
  verify_ok (q ++ le32 (adler32 p)) = true ->
  bsum p < bsum q + ADLER_MOD -> bsum q < bsum p + ADLER_MOD -> bsum q = bsum p.
Proof.
  intros E%trailer_match Hp Hq. rewrite adler32_low in E.
  pose proof (N.div_mod' (1 + bsum q) ADLER_MOD) as Dq.
  pose proof (N.div_mod' (1 + bsum p) ADLER_MOD) as Dp.
  rewrite E in Dq. clear E. unfold ADLER_MOD in *. lia.
Qed.

Lemma single_byte_detected l1 x y l2 :
  x < 256 -> y < 256 ->
  verify_ok ((l1 ++ y :: l2) ++ le32 (adler32 (l1 ++ x :: l2))) = true -> x = y.
Proof.
  intros Hx Hy E.
  pose proof (close_sums_detected _ _ E) as H.
  rewrite !bsum_app in H. cbn [bsum] in H. unfold ADLER_MOD in H. lia.
Qed.

Lemma apply_ops_app {C} (f : fs C) a b : apply_ops f (a ++ b) = apply_ops (apply_ops f a) b.
Proof. apply fold_left_app. Qed.

Section ProtoProofs.
  Context {S C A R : Type} {s0 : S} {sealS : S -> C} {verify : C -> bool}
          {load : C -> option S} {cempty : C} {mutate : S -> A -> S * bool * R}.

  Hypothesis Hvs : forall s, verify (sealS s) = true.
  Hypothesis Hls : forall s, load (sealS s) = Some s.
  Hypothesis Hmut : forall s a s' r, mutate s a = (s', false, r) -> s' = s.
  (* Hvs enters with commit_keeps and commit_unverified (memory that is on disk
     survives a commit, verified or not), Hls with start_eq (what a start
     loads), Hmut with proc_step_spec (a call that asks for no save) *)

  Notation world := (world S C).
  Notation start := (start S C s0 verify load cempty).
  Notation commit_ops := (commit_ops C verify).
  Notation finalize_ops := (finalize_ops C verify).
  Notation save_ops := (save_ops S C sealS).
  Notation exec := (exec S C A R s0 sealS verify load cempty mutate).
  Notation step := (step S C A R s0 sealS verify load cempty mutate).
  Notation run := (run S C A R s0 sealS verify load cempty mutate).
  Notation proc_step := (proc_step S A R mutate).
  Notation detectable := (detectable C verify).
  Notation detectable_run := (detectable_run S C A R s0 sealS verify load cempty mutate).
  Notation fs_at_crash := (fs_at_crash S C A R s0 sealS verify load cempty mutate).
  Notation candidates := (candidates S).
  Notation saved_marks := (saved_marks S).

  (* a slot of the file system holds snapshot s; no file holds the fresh
     state, which is what a start reads then *)
  Definition holds (x : option (file C)) (s : S) : Prop :=
    match x with Some y => f_data y = sealS s | None => s = s0 end.

  Definition stored (cands : list S) (x : option (file C)) : Prop :=
    exists s, In s cands /\ holds x s.

  (* the committed file is durable and a candidate; an uncommitted file is a
     candidate or fails the check, so that a start discards it *)
  Definition FInv (f : fs C) (cands : list S) : Prop :=
    (stored cands (at_pickle f) /\ forall x, at_pickle f = Some x -> f_synced x = true) /\
    match at_new f with
    | None => True
    | Some y => stored cands (Some y) \/ verify (f_data y) = false
    end.

  (* disk_latest as a slot: [holds (newest f) m] is the form commit_keeps
     carries across a commit; sync_on_disk_generic converts back *)
  Definition newest (f : fs C) : option (file C) :=
    match at_new f with Some y => Some y | None => at_pickle f end.

  (* nothing is pending outside asynchronous sections; while nothing is
     pending, L holds of the memory *)
  Definition tracks (L : S -> Prop) (p : proc S) : Prop :=
    (p_async p = 0%nat -> p_dirty p = false) /\ (p_dirty p = false -> L (p_mem p)).

  Definition PInv (w : world) : Prop :=
    match w_proc w with
    | None => at_lock (w_fs w) = None
    | Some p => at_lock (w_fs w) <> None /\ tracks (holds (newest (w_fs w))) p
    end.

  Definition Inv (w : world) (cands : list S) : Prop := FInv (w_fs w) cands /\ PInv w.

  Lemma stored_mono c c' x : incl c c' -> stored c x -> stored c' x.
  Proof. intros Hi (s & Hs & Hd). exists s. split; [apply Hi, Hs|exact Hd]. Qed.

  Lemma FInv_mono f c c' : incl c c' -> FInv f c -> FInv f c'.
  Proof.
    intros Hi [[Hp Hd] Hn]. split; [split; eauto using stored_mono|].
    destruct (at_new f); [|exact I]. destruct Hn; [left; eauto using stored_mono|right; assumption].
  Qed.

  Lemma FInv_quiet f c m : FInv f c -> at_new f = None -> holds (at_pickle f) m -> FInv f [m].
  Proof.
    unfold FInv. intros [[_ Hd] _] -> Hm. split; [|exact I].
    split; [|exact Hd]. exists m. split; [left; reflexivity|exact Hm].
  Qed.

  Lemma FInv_recover f c adv : FInv f c -> detectable adv f -> FInv (recover adv f) c.
  Proof.
    intros [[Hp Hs] Hn] Hd. destruct f as [pk nw dt lk]. unfold detectable in Hd. cbn in *.
    split; cbn.
    - (* the committed file is synced: the crash leaves it alone *)
      destruct pk as [x|]; cbn; [rewrite (Hs x eq_refl)|]; exact (conj Hp Hs).
    - (* an unsynced uncommitted file is found as written, or fails the check *)
      destruct nw as [y|]; cbn; [|exact I].
      destruct (f_synced y) eqn:E; cbn; [exact Hn|].
      destruct (Hd eq_refl) as [H|H]; [rewrite H; exact Hn|right; exact H].
  Qed.

  Lemma commit_effect f :
    let f' := apply_ops f (commit_ops true f) in
    at_new f' = None /\
    at_pickle f' = match at_new f with
                   | Some y => if verify (f_data y) then Some (mkFile (f_data y) true) else at_pickle f
                   | None => at_pickle f
                   end.
  Proof.
    destruct f as [pk [y|] dt lk]; unfold Model.commit_ops; cbn;
      [destruct (verify (f_data y)); cbn|]; auto.
  Qed.

  Lemma commit_under_lock v f :
    apply_ops (update NLock v f) (commit_ops true f) = update NLock v (apply_ops f (commit_ops true f)).
  Proof.
    destruct f as [pk [y|] dt lk]; unfold Model.commit_ops; cbn;
      [destruct (verify (f_data y))|]; reflexivity.
  Qed.

  Lemma commit_keeps f m :
    holds (newest f) m -> holds (at_pickle (apply_ops f (commit_ops true f))) m.
  Proof.
    destruct (commit_effect f) as (_ & Hp). rewrite Hp. unfold newest.
    destruct (at_new f); [|auto]. intros Hd. cbn in Hd. rewrite Hd, Hvs. reflexivity.
  Qed.

  (* the commit of finalize skips the check; with the memory on disk the file
     would pass it, so finalize commits as a start does *)
  Lemma commit_unverified f m : holds (newest f) m -> commit_ops false f = commit_ops true f.
  Proof.
    unfold Model.commit_ops, newest. cbn [lookup].
    destruct (at_new f); [|reflexivity]. cbn. intros ->. rewrite Hvs. reflexivity.
  Qed.

  Lemma commit_prefix f c k :
    FInv f c -> FInv (apply_ops f (firstn k (commit_ops true f))) c.
  Proof.
    intros [Hp Hn]. destruct f as [pk [y|] dt lk]; unfold Model.commit_ops; cbn in *.
    2: { rewrite firstn_nil. split; assumption. }
    (* nothing done yet, or only the fsync (same content): the invariant as it was *)
    destruct (verify (f_data y)) eqn:Ev in |- *;
      (destruct k as [|[|k]]; [exact (conj Hp Hn)..|cbn; rewrite firstn_nil]).
    - (* renamed: what passed the check is a candidate, and it is synced *)
      destruct Hn as [Hy|Hy]; [|congruence].
      split; [split; [exact Hy|intros x [= <-]; reflexivity]|exact I].
    - (* unlinked: the file that failed the check is gone *)
      exact (conj Hp I).
  Qed.

  Lemma commit_full f c : FInv f c -> FInv (apply_ops f (commit_ops true f)) c.
  Proof. intros HF. rewrite <- (firstn_all (commit_ops true f)). now apply commit_prefix. Qed.

  Lemma start_locked f : at_lock f <> None -> start f = (SRefused, []).
  Proof. intros H. unfold start. cbn [lookup]. destruct (at_lock f); [reflexivity|congruence]. Qed.

  Lemma lock_created f ops :
    at_lock f = None ->
    apply_ops f (OCreateExcl NLock cempty :: ops) = apply_ops (update NLock (Some (mkFile cempty false)) f) ops.
  Proof. intros H. cbn. rewrite H. reflexivity. Qed.

  Lemma start_eq f s :
    at_lock f = None -> holds (at_pickle (apply_ops f (commit_ops true f))) s ->
    start f = (SLoaded s, OCreateExcl NLock cempty :: commit_ops true f).
  Proof.
    intros Hl H. unfold start. cbn [lookup]. rewrite Hl. cbv zeta.
    rewrite (lock_created f [] Hl). cbn [apply_ops fold_left].
    rewrite (commit_under_lock _ f). cbn [lookup update at_pickle].
    destruct (at_pickle _) as [x|]; cbn in H; [rewrite H, Hls|rewrite H]; reflexivity.
  Qed.

  Lemma start_prefix f c k :
    FInv f c -> at_lock f = None ->
    FInv (apply_ops f (firstn k (OCreateExcl NLock cempty :: commit_ops true f))) c.
  Proof.
    intros HF Hl. destruct k as [|k]; [exact HF|]. cbn [firstn]. rewrite lock_created by exact Hl.
    now apply (commit_prefix (update NLock _ f)).
  Qed.

  Lemma start_full f c :
    FInv f c -> at_lock f = None ->
    let ops := OCreateExcl NLock cempty :: commit_ops true f in
    exists s, In s c /\ start f = (SLoaded s, ops) /\
              Inv (mkWorld (apply_ops f ops) (Some (mkProc s 0 false))) [s].
  Proof.
    intros HF Hl. cbv zeta. rewrite lock_created, commit_under_lock by exact Hl.
    (* the committed file system with the lock on top: only at_lock sees the lock *)
    destruct (commit_effect f) as (Hn & _).
    pose proof (commit_full f c HF) as HF'. destruct (proj1 (proj1 HF')) as (s & Hs & Hm).
    exists s. split; [exact Hs|]. split; [exact (start_eq f s Hl Hm)|].
    split; [exact (FInv_quiet _ _ _ HF' Hn Hm)|].
    split; [discriminate|]. split; [reflexivity|]. intros _.
    unfold newest. cbn [w_fs update at_new at_pickle]. now rewrite Hn.
  Qed.

  Lemma save_prefix f c s k :
    FInv f c ->
    FInv (apply_ops f (firstn k (save_ops s))) (candidates c (saved_marks (Some s) k)).
  Proof.
    intros Hf. destruct k as [|k]; [exact Hf|].
    apply FInv_mono with (c' := c ++ [s]) in Hf; [|apply incl_appl, incl_refl].
    destruct k; [exact Hf|]. cbn [firstn Model.save_ops]. rewrite firstn_nil.
    split; [apply Hf|left]. exists s. split; [apply in_or_app; right; left|]; reflexivity.
  Qed.

  Lemma save_full f s :
    let f' := apply_ops f (save_ops s) in
    at_lock f' = at_lock f /\ at_pickle f' = at_pickle f /\
    exists y, at_new f' = Some y /\ f_data y = sealS s.
  Proof. destruct f as [pk nw dt lk]. cbn. repeat split. eexists; split; reflexivity. Qed.

  Lemma finalize_prefix f c m k :
    FInv f c -> holds (newest f) m -> FInv (apply_ops f (firstn k (finalize_ops f))) c.
  Proof.
    intros HF Hm. unfold Model.finalize_ops.
    rewrite (commit_unverified f m Hm), firstn_app, apply_ops_app.
    pose proof (commit_prefix f c k HF) as H.
    (* what remains only removes the lock, which FInv does not look at *)
    destruct (k - _)%nat as [|j]; [exact H|]. cbn. rewrite firstn_nil. exact H.
  Qed.

  Lemma finalize_full f c m :
    FInv f c -> holds (newest f) m ->
    let f' := apply_ops f (finalize_ops f) in
    Inv (mkWorld f' None) [m] /\ at_new f' = None /\ holds (at_pickle f') m.
  Proof.
    intros HF Hm. unfold Model.finalize_ops. rewrite (commit_unverified f m Hm), apply_ops_app.
    destruct (commit_effect f) as (Hn & _).
    pose proof (commit_keeps f m Hm) as Hm'.
    split; [split; [|reflexivity]|split; assumption].
    apply FInv_quiet with c; [apply commit_full; auto|exact Hn|exact Hm'].
  Qed.

  (* what a call on the instance does to [tracks], whatever L; stated under a
     let on the result of proc_step, the cases need no inversion *)
  Lemma proc_step_spec L p pc :
    let '(p', _, sv) := proc_step p pc in
    match sv with
    | Some s => p' = mkProc s 0 false
    | None => tracks L p -> tracks L p'
    end.
  Proof.
    destruct p as [m a d], pc as [ap| |]; cbn.
    - (* a mutator: saves now, or defers (asynchronous), or asks for no save *)
      pose proof (Hmut m ap) as Hm.
      destruct (mutate m ap) as [[s' []] r]; [unfold Model.request_save; destruct a|]; cbn.
      + reflexivity.
      + intros _. split; discriminate.
      + rewrite (Hm _ _ eq_refl). exact id.
    - intros [_ H]. split; [discriminate|exact H].
    - (* setSynchronous: the assertion; the outermost level, which flushes what
         is pending; an inner level *)
      destruct a as [|[|n]]; [|destruct d|]; cbn; [exact id|reflexivity|..];
        intros [_ H]; split; [reflexivity|exact H|discriminate|exact H].
  Qed.

  Definition effect_ok (w : world) (c : list S) (ef : effect S C R) : Prop :=
    (forall k, FInv (apply_ops (w_fs w) (firstn k (e_ops _ _ _ ef)))
                    (candidates c (saved_marks (e_saved _ _ _ ef) k))) /\
    Inv (mkWorld (apply_ops (w_fs w) (e_ops _ _ _ ef)) (e_proc _ _ _ ef))
        (candidates c (saved_marks (e_saved _ _ _ ef) 1 ++ e_done _ _ _ ef)).

  Lemma idle_ok w c o : Inv w c -> effect_ok w c (mkEffect S C R [] (w_proc w) o None []).
  Proof.
    intros HI. split; cbn; [intros k; rewrite firstn_nil; apply HI|]. destruct w. exact HI.
  Qed.

  Lemma exec_ok w c cm : Inv w c -> effect_ok w c (exec w cm).
  Proof.
    intros HI. pose proof (fun o => idle_ok w c o HI) as Hidle.
    destruct HI as [HF HP], w as [f pr]. unfold PInv in HP. cbn [w_fs w_proc] in *.
    destruct cm as [| |pc], pr as [p|]; cbn [exec Model.exec w_fs w_proc].
    - rewrite start_locked by apply HP. apply Hidle.
    - destruct (start_full f c HF HP) as (s & _ & E & HI'). rewrite E.
      split; [intros k; now apply start_prefix|exact HI'].
    - destruct (Nat.eqb (p_async p) 0 && negb (p_dirty p)) eqn:E; [|apply Hidle].
      apply andb_true_iff in E as [_ Ed%negb_true_iff]. destruct HP as (_ & _ & HB).
      split; [intros k; exact (finalize_prefix f c _ k HF (HB Ed))|].
      exact (proj1 (finalize_full f c (p_mem p) HF (HB Ed))).
    - apply Hidle.
    - destruct HP as (HL & HT).
      pose proof (proc_step_spec (holds (newest f)) p pc) as Hsv.
      destruct (proc_step p pc) as [[p' r] [s|]].
      + subst p'. split; [intros k; now apply save_prefix|].
        split; [exact (save_prefix f c _ 2 HF) (* 2: both operations of the save *)|].
        split; [exact HL|]. split; [reflexivity|intros _; reflexivity].
      + split; [intros k; cbn; rewrite firstn_nil; exact HF|].
        exact (conj HF (conj HL (Hsv HT))).
    - apply Hidle.
  Qed.

  Lemma step_inv w c e :
    Inv w c ->
    match e with ECrashDuring cm k adv => detectable adv (fs_at_crash w cm k) | ECmd _ => True end ->
    Inv (fst (step w e)) (candidates c (snd (step w e))).
  Proof.
    intros HI Hd. destruct e as [cm|cm k adv]; destruct (exec_ok w c cm HI) as [Hk Hc].
    - exact Hc.
    - (* recover removes the lock *)
      exact (conj (FInv_recover _ _ adv (Hk k) Hd) eq_refl).
  Qed.

  Lemma run_cons w e r :
    run w (e :: r) = (fst (run (fst (step w e)) r), snd (step w e) ++ snd (run (fst (step w e)) r)).
  Proof. cbn [run Model.run]. destruct (step w e) as [w1 m1]. cbn. now destruct (run w1 r). Qed.

  Lemma run_snoc_crash_dead : forall evs w cm k adv,
    w_proc (fst (run w (evs ++ [ECrashDuring cm k adv]))) = None.
  Proof.
    induction evs as [|e evs IH]; intros w cm k adv; [reflexivity|].
    cbn [app]. rewrite run_cons. apply IH.
  Qed.

  Lemma candidates_app c m1 m2 : candidates c (m1 ++ m2) = candidates (candidates c m1) m2.
  Proof. revert c; induction m1 as [|[s|s|s] m1 IH]; intros c; simpl; auto. Qed.

  Lemma run_inv : forall evs w c,
    Inv w c -> detectable_run w evs ->
    Inv (fst (run w evs)) (candidates c (snd (run w evs))).
  Proof.
    induction evs as [|e evs IH]; intros w c HI Hd; [exact HI|]. destruct Hd as [Hd1 Hd2].
    rewrite run_cons. cbn [fst snd]. rewrite candidates_app. apply IH; [now apply step_inv|exact Hd2].
  Qed.

  Lemma Inv_w0 : Inv (w0 S C) [s0].
  Proof. split; [split; [split; [exists s0; cbn; auto|discriminate]|exact I]|reflexivity]. Qed.

  Lemma reachable_inv evs :
    detectable_run (w0 S C) evs ->
    Inv (fst (run (w0 S C) evs)) (candidates [s0] (snd (run (w0 S C) evs))).
  Proof. apply run_inv, Inv_w0. Qed.

  Theorem recover_generic {w c} :
    Inv w c -> w_proc w = None ->
    exists s, fst (start (w_fs w)) = SLoaded s /\ In s c.
  Proof.
    intros [HF HP] Hp. unfold PInv in HP. rewrite Hp in HP.
    destruct (start_full _ _ HF HP) as (s & Hs & E & _). exact (ex_intro _ s (conj (f_equal fst E) Hs)).
  Qed.

  Theorem pickle_durable_generic {w c} cm k x :
    Inv w c -> at_pickle (fs_at_crash w cm k) = Some x -> f_synced x = true.
  Proof.
    intros HI Hx. destruct (exec_ok w c cm HI) as [Hk _]. destruct (Hk k) as [[_ Hs] _].
    exact (Hs x Hx).
  Qed.

  Theorem single_writer_generic {w c p} :
    Inv w c -> w_proc w = Some p -> start (w_fs w) = (SRefused, []).
  Proof.
    intros [_ HP] Hp. unfold PInv in HP. rewrite Hp in HP. apply start_locked, HP.
  Qed.

  Lemma Inv_sync w c p :
    Inv w c -> w_proc w = Some p -> p_async p = 0%nat ->
    FInv (w_fs w) c /\ p_dirty p = false /\ holds (newest (w_fs w)) (p_mem p).
  Proof.
    intros [HF HP] Hp Ha. unfold PInv in HP. rewrite Hp in HP. destruct HP as (_ & HA & HB).
    specialize (HA Ha). exact (conj HF (conj HA (HB HA))).
  Qed.

  Theorem sync_on_disk_generic {w c p} :
    Inv w c -> w_proc w = Some p -> p_async p = 0%nat ->
    p_dirty p = false /\
    match disk_latest C (w_fs w) with
    | Some d => d = sealS (p_mem p)
    | None => p_mem p = s0
    end.
  Proof.
    intros HI Hp Ha. destruct (Inv_sync w c p HI Hp Ha) as (_ & HA & HB).
    split; [exact HA|]. unfold newest in HB. unfold disk_latest. cbn.
    destruct (at_new _); [exact HB|]. destruct (at_pickle _); exact HB.
  Qed.

  Theorem finalize_commits_generic {w c p} :
    Inv w c -> w_proc w = Some p -> p_async p = 0%nat ->
    let w' := fst (step w (ECmd CFinalize)) in
    w_proc w' = None /\ at_lock (w_fs w') = None /\ at_new (w_fs w') = None /\
    match at_pickle (w_fs w') with
    | Some x => f_synced x = true /\ f_data x = sealS (p_mem p)
    | None => p_mem p = s0
    end.
  Proof.
    intros HI Hp Ha. destruct (Inv_sync w c p HI Hp Ha) as (HF & HA & HB).
    destruct w as [f pr]. cbn in Hp. subst pr.
    cbn [step Model.step exec Model.exec w_proc w_fs fst] in *.
    rewrite Ha, HA. cbn [Nat.eqb negb andb e_ops e_proc].
    destruct (finalize_full f _ (p_mem p) HF HB) as ([[[_ HS'] _] HL'] & HN' & HM').
    cbn [w_proc w_fs]. repeat split; auto.
    destruct (at_pickle _) as [x|]; [|exact HM']. exact (conj (HS' x eq_refl) HM').
  Qed.

  Theorem intact_recovers_memory_generic {w c p} adv :
    Inv w c -> w_proc w = Some p -> p_async p = 0%nat ->
    (forall y, at_new (w_fs w) = Some y -> adv NNew = f_data y) ->
    fst (start (recover adv (w_fs w))) = SLoaded (p_mem p).
  Proof.
    intros HI Hp Ha Hadv. destruct (Inv_sync w c p HI Hp Ha) as ([[_ HS] _] & _ & HB).
    set (f := w_fs w) in *. rewrite (start_eq (recover adv f) (p_mem p) eq_refl); [reflexivity|].
    apply commit_keeps.
    (* the crash keeps what is on disk *)
    destruct f as [pk [y|] dt lk]; unfold newest in *; cbn in *.
    - destruct (f_synced y); cbn; [|rewrite (Hadv y eq_refl)]; exact HB.
    - destruct pk as [x|]; cbn; [rewrite (HS x eq_refl)|]; exact HB.
  Qed.

  Theorem async_defers_generic p pc p' r sv :
    proc_step p pc = (p', r, sv) -> (0 < p_async p')%nat -> sv = None.
  Proof.
    intros H Ha. pose proof (proc_step_spec (fun _ => True) p pc) as Hs. rewrite H in Hs.
    destruct sv; [|reflexivity]. subst p'. inversion Ha.
  Qed.
End ProtoProofs.

Arguments Inv : clear implicits.
Arguments save_full : clear implicits.

(* one stage of reset_ws: the "changed" flag is false only while the state is
   still the one the reset started from; K is the rest of the stages *)
Lemma reset_step s s' (c : bool) (a b : state * bool) (K : state -> bool -> state * bool) :
  (snd a = false -> fst a = s) -> (snd b = false -> fst b = s) ->
  (forall s1 n1, (n1 = false -> s1 = s) -> K s1 n1 = (s', false) -> s' = s) ->
  (let '(s1, n1) := if c then a else b in K s1 n1) = (s', false) -> s' = s.
Proof. intros Ha Hb HK. destruct c; [destruct a|destruct b]; apply HK; assumption. Qed.

Lemma reset_ws_same s k v s' : reset_ws s k v = (s', false) -> s' = s.
Proof.
  unfold reset_ws.
  apply reset_step; [discriminate|reflexivity|intros s1 n1 H1].
  apply reset_step; [discriminate|exact H1|intros s2 n2 H2].
  apply reset_step; [exact H2|discriminate|intros s3 n3 H3].
  apply reset_step; [discriminate|exact H3|intros s4 n4 H4].
  apply reset_step; [discriminate|exact H4|intros s5 n5 H5].
  intros [= <- E]. exact (H5 E).
Qed.

Lemma cN_ok : codec_ok cN. Proof. intros x r. reflexivity. Qed.

Lemma cBool_ok : codec_ok cBool. Proof. intros [|] r; reflexivity. Qed.

Lemma cPair_ok {A B} (a : codec A) (b : codec B) : codec_ok a -> codec_ok b -> codec_ok (cPair a b).
Proof. intros Ha Hb [x y] r. cbn. rewrite <- app_assoc, Ha, Hb. reflexivity. Qed.

Lemma cOpt_ok {A} (a : codec A) : codec_ok a -> codec_ok (cOpt a).
Proof. intros Ha [x|] r; cbn; [rewrite Ha|]; reflexivity. Qed.

Lemma cList_ok {A} (a : codec A) : codec_ok a -> codec_ok (cList a).
Proof.
  intros Ha l r. cbn. rewrite Nat2N.id.
  induction l as [|x l IH]; cbn; [reflexivity|].
  rewrite <- app_assoc, Ha, IH. reflexivity.
Qed.

Lemma cMap_ok {T U} (f : T -> U) (g : U -> T) (c : codec U) :
  (forall x, g (f x) = x) -> codec_ok c -> codec_ok (cMap f g c).
Proof. intros Hgf Hc x r. cbn. rewrite Hc, Hgf. reflexivity. Qed.

Lemma cKey_ok : codec_ok cKey. Proof. apply cList_ok, cN_ok. Qed.

Lemma cVal_ok : codec_ok cVal. Proof. apply cOpt_ok, cList_ok, cN_ok. Qed.

Lemma cAmap_ok {V} (v : codec V) : codec_ok v -> codec_ok (cAmap v).
Proof. intros H. apply cList_ok, cPair_ok; [apply cKey_ok|exact H]. Qed.

Create HintDb codec.
#[local] Hint Resolve cN_ok cBool_ok cPair_ok cOpt_ok cList_ok cKey_ok cVal_ok cAmap_ok : codec.

Lemma cJenk_ok : codec_ok cJenk.
Proof. apply cMap_ok; [intros []; reflexivity|repeat apply cPair_ok; auto with codec]. Qed.
#[local] Hint Resolve cJenk_ok : codec.

Lemma cState_ok : codec_ok cState.
Proof. apply cMap_ok; [intros []; reflexivity|repeat apply cPair_ok; auto with codec]. Qed.
