(* C18 — the evaluators of Model.v against the declarative semantics: every
   model function gets one lemma that gives its result in terms of [edge],
   [tc], [sem_path], [real_path] and [inside] (reachable through a node set).
   The loops over the children of a package are [fold_left]s and go through
   [fold_left_ind]; the loops on fuel terminate by [measure] or by the
   topological numbering ([edge_fuel]); '//' is reduced to a
   descendant-or-self step once, in [path_dsl_ind]. *)
From Coq Require Import List NArith Bool Arith Lia.
Require BobV.Common.ListFacts.
Require Import BobV.C18.Model.
Import ListNotations.

Lemma and_iff_true : forall A B : Prop, B -> (A <-> A /\ B).
Proof. intros A B HB. split; [intros HA; split; assumption | intros [HA _]; exact HA]. Qed.

Lemma memb_In : forall n l, memb n l = true <-> In n l.
Proof. exact (ListFacts.mem_In _ _ Nat.eqb_spec). Qed.

Lemma memb_false : forall n l, memb n l = false <-> ~ In n l.
Proof. intros. rewrite <- memb_In. destruct (memb n l); split; congruence. Qed.

Lemma In_dedup : forall x l, In x (dedup l) <-> In x l.
Proof.
  induction l as [|y r IH]; cbn [dedup In]; [reflexivity|].
  destruct (memb y r) eqn:E.
  - rewrite IH. apply memb_In in E. split; [auto|]. intros [->|H]; auto.
  - cbn [In]. rewrite IH. reflexivity.
Qed.

Lemma In_inter : forall x a b, In x (inter a b) <-> In x a /\ In x b.
Proof. intros. unfold inter. rewrite filter_In, memb_In. reflexivity. Qed.

Lemma In_diff : forall x a b, In x (diff a b) <-> In x a /\ ~ In x b.
Proof.
  intros. unfold diff. rewrite filter_In, negb_true_iff, memb_false. reflexivity.
Qed.

Lemma In_union : forall x a b, In x (union a b) <-> In x a \/ In x b.
Proof.
  intros. unfold union. rewrite in_app_iff, In_dedup, In_diff. split; [intros [H|[H _]]; auto|].
  intros [H|H]; [auto | destruct (in_dec Nat.eq_dec x a); auto].
Qed.

Lemma incl_union_l : forall a b, incl a (union a b).
Proof. intros a b x Hx. apply In_union. auto. Qed.

Lemma incl_union_r : forall a b, incl b (union a b).
Proof. intros a b x Hx. apply In_union. auto. Qed.

Lemma subset_spec : forall a b, subset a b = true <-> incl a b.
Proof.
  intros. unfold subset. rewrite forallb_forall.
  split; intros H x Hx; apply memb_In; auto.
Qed.

Lemma In_remove1 : forall x n l, In x (remove1 n l) <-> In x l /\ x <> n.
Proof.
  intros. unfold remove1. rewrite filter_In, negb_true_iff, Nat.eqb_neq. reflexivity.
Qed.

Lemma remove1_self : forall n l, ~ In n (remove1 n l).
Proof. intros n l H. apply In_remove1 in H. apply (proj2 H). reflexivity. Qed.

Lemma is_empty_spec : forall l, is_empty l = true <-> (forall x : node, ~ In x l).
Proof.
  destruct l; cbn; split; intros H; try reflexivity; try discriminate; auto.
  exfalso. apply (H n). auto.
Qed.

Lemma is_empty_false : forall l, is_empty l = false -> exists x : node, In x l.
Proof. destruct l; cbn; [discriminate|]. intros _. exists n. auto. Qed.

Lemma In_nodes : forall g n, In n (nodes g) <-> n < length g.
Proof. intros. unfold nodes. rewrite in_seq. lia. Qed.

Lemma In_hop : forall next ns m, In m (hop next ns) <-> exists n, In n ns /\ In m (next n).
Proof. intros. unfold hop. rewrite In_dedup, in_flat_map. reflexivity. Qed.

Lemma fold_left_ind : forall (A B : Type) (f : B -> A -> B) (P : list A -> B -> Prop) l b,
  P [] b ->
  (forall pre x b', In x l -> P pre b' -> P (pre ++ [x]) (f b' x)) ->
  P l (fold_left f l b).
Proof.
  intros A B f P l b H0 Hstep. change l with ([] ++ l) at 1. revert H0. generalize (@nil A) as pre.
  revert b. induction l as [|x l IH]; intros b pre H0.
  - rewrite app_nil_r. assumption.
  - replace (pre ++ x :: l) with ((pre ++ [x]) ++ l) by (rewrite <- app_assoc; reflexivity).
    apply IH.
    + intros pre' y b' Hy. apply Hstep. right. assumption.
    + apply Hstep; [left; reflexivity | assumption].
Qed.

(* what a worklist loop ([closure_loop], [reach_loop]) can still add to ret;
   their fuel is compared with it *)
Definition measure (N : nat) (ret : list node) : nat := length (diff (seq 0 N) ret).

Lemma diff_seq_NoDup : forall N ret, NoDup (diff (seq 0 N) ret).
Proof. intros. apply NoDup_filter, seq_NoDup. Qed.

Lemma filter_seq_length : forall (f : nat -> bool) N, length (filter f (seq 0 N)) <= N.
Proof. intros. rewrite <- (seq_length N 0) at 2. apply ListFacts.filter_length_le. Qed.

Lemma measure_le : forall N ret, measure N ret <= N.
Proof. intros. apply filter_seq_length. Qed.

Lemma measure_mono : forall N ret ret', incl ret ret' -> measure N ret' <= measure N ret.
Proof.
  intros N ret ret' Hinc. apply NoDup_incl_length; [apply diff_seq_NoDup|].
  intros y Hy. apply In_diff in Hy. apply In_diff. split; [apply Hy | intros H; apply Hy, Hinc, H].
Qed.

Lemma measure_lt : forall N ret ret' x, incl ret ret' -> x < N -> ~ In x ret -> In x ret' ->
  measure N ret' < measure N ret.
Proof.
  intros N ret ret' x Hinc Hx Hn Hi.
  apply NoDup_incl_length with (l := x :: diff (seq 0 N) ret').
  - constructor; [|apply diff_seq_NoDup]. intros H. apply In_diff in H. apply H, Hi.
  - intros y [<-|Hy]; apply In_diff.
    + split; [apply in_seq; split; [apply Nat.le_0_l | exact Hx] | exact Hn].
    + apply In_diff in Hy. split; [apply Hy | intros H; apply Hy, Hinc, H].
Qed.

Lemma tc_trans : forall (R : node -> node -> Prop) n x m, tc R n x -> tc R x m -> tc R n m.
Proof.
  intros R n x m H Hm. induction H as [a b Hab | a b c Hab Hbc IH]; eapply tc_more; eauto.
Qed.

Lemma tc_r : forall (R : node -> node -> Prop) n x m, tc R n x -> R x m -> tc R n m.
Proof. intros R n x m H Hm. eapply tc_trans; [eassumption | apply tc_one; assumption]. Qed.

Lemma tc_first : forall (R : node -> node -> Prop) n m, tc R n m -> exists x, R n x /\ (x = m \/ tc R x m).
Proof. intros R n m H. destruct H as [a b Hab | a b c Hab Hbc]; eauto. Qed.

Lemma tc_flip : forall (R : node -> node -> Prop) n m, tc R n m -> tc (fun a b => R b a) m n.
Proof.
  intros R n m H. induction H as [a b Hab | a b c Hab Hbc IH].
  - apply tc_one. assumption.
  - eapply tc_r; [eassumption | assumption].
Qed.

Lemma tc_last : forall (R : node -> node -> Prop) n m, tc R n m -> exists x, (n = x \/ tc R n x) /\ R x m.
Proof.
  intros R n m H. apply tc_flip, tc_first in H. destruct H as [x [Hr Hx]]. exists x. split; [|exact Hr].
  destruct Hx as [->|Ht]; [left; reflexivity | right; apply tc_flip in Ht; exact Ht].
Qed.

Section Closure.
Variable N : nat.
Variable next : node -> list node.
Variable R : node -> node -> Prop.
Hypothesis next_R : forall n m, In m (next n) <-> R n m.
Hypothesis R_bound : forall n m, R n m -> m < N.
Variable S0 : list node.

Lemma hop_correct : forall ns m, In m (hop next ns) <-> exists n, In n ns /\ R n m.
Proof.
  intros. rewrite In_hop.
  split; intros [n [H1 H2]]; exists n; (split; [assumption|]); apply next_R; assumption.
Qed.

Definition reach1 (x : node) : Prop := exists s, In s S0 /\ tc R s x.

Lemma hop_reach : forall todo x, (forall t, In t todo -> In t S0 \/ reach1 t) ->
  In x (hop next todo) -> reach1 x /\ x < N.
Proof.
  intros todo x Htodo [t [Ht Hn]]%hop_correct.
  split; [|eapply R_bound; eassumption].
  destruct (Htodo t Ht) as [Hs|[s [Hs Hts]]]; [exists t | exists s]; split; auto.
  - apply tc_one; assumption.
  - eapply tc_r; eassumption.
Qed.

Record cinv (todo ret : list node) : Prop := {
  c_ret : forall x, In x ret -> reach1 x;
  c_todo : forall x, In x todo -> In x S0 \/ reach1 x;
  c_closed : forall x c, In x S0 \/ In x ret -> R x c -> In c ret \/ In x todo
}.

Lemma cinv_final : forall ret, cinv [] ret -> forall m, In m ret <-> reach1 m.
Proof.
  intros ret I m. split; [apply (c_ret _ _ I)|].
  intros [s [Hs Ht]]. assert (Hs' : In s S0 \/ In s ret) by auto. clear Hs.
  induction Ht as [a b Hab | a b c Hab Hbc IH];
    destruct (c_closed _ _ I a b Hs' Hab) as [H|[]]; auto.
Qed.

Lemma cinv_step : forall todo ret, cinv todo ret ->
  cinv (diff (hop next todo) ret) (union ret (hop next todo)).
Proof.
  intros todo ret I.
  pose proof (fun x => hop_reach todo x (c_todo _ _ I)) as Hch.
  constructor.
  - intros x [Hx|Hx]%In_union; [apply (c_ret _ _ I) | apply Hch]; assumption.
  - intros x Hx. apply In_diff in Hx. right. apply Hch, Hx.
  - intros x c Hx Hr.
    assert (Hold : In x S0 \/ In x ret -> In c (union ret (hop next todo)) \/ In x (diff (hop next todo) ret)).
    { intros Hx'. left. apply In_union. destruct (c_closed _ _ I x c Hx' Hr) as [H|H]; [left; assumption | right].
      apply hop_correct. exists x. auto. }
    destruct Hx as [Hx|[Hx|Hx]%In_union]; [apply Hold; auto | apply Hold; auto|].
    destruct (in_dec Nat.eq_dec x ret) as [Hxr|Hxr]; [apply Hold; auto | right; apply In_diff; split; assumption].
Qed.

Lemma closure_loop_inv : forall fuel todo ret,
  (todo = [] \/ measure N ret < fuel) -> cinv todo ret ->
  forall m, In m (closure_loop next fuel todo ret) <-> reach1 m.
Proof.
  induction fuel as [|f IH]; intros todo ret Hf I m.
  - destruct Hf as [->|Hf]; [|destruct (Nat.nlt_0_r _ Hf)]. apply cinv_final. assumption.
  - destruct todo as [|t0 todo']; [apply cinv_final; assumption|].
    destruct Hf as [Hf|Hf]; [discriminate|].
    apply IH; [|apply cinv_step; assumption].
    (* a node is left to do only if it is new in ret, which then has grown *)
    destruct (diff (hop next (t0 :: todo')) ret) as [|x r] eqn:E; [left; reflexivity|right].
    assert (Hx : In x (diff (hop next (t0 :: todo')) ret)) by (rewrite E; left; reflexivity).
    apply In_diff in Hx. destruct Hx as [Hx1 Hx2].
    apply Nat.lt_le_trans with (measure N ret); [|apply Nat.lt_succ_r, Hf].
    apply measure_lt with (x := x); [| |assumption|].
    + apply incl_union_l.
    + eapply hop_reach; [apply (c_todo _ _ I) | eassumption].
    + apply incl_union_r. assumption.
Qed.

Lemma closure_loop_correct : forall m,
  In m (closure_loop next (S N) S0 []) <-> exists s, In s S0 /\ tc R s m.
Proof.
  intros m. apply closure_loop_inv.
  - right. apply Nat.lt_succ_r, measure_le.
  - constructor; [intros x [] | auto | intros x c [Hx|[]] _; auto].
Qed.

End Closure.

Section Graph.
Variable g : graph.
Hypothesis wf : wf_graph g.

Lemma In_kids_f : forall ind n m, In m (kids_f g ind n) <-> edge g ind n m.
Proof.
  intros. unfold kids_f, edge. rewrite in_map_iff. split.
  - intros [[c d] [<- [H1 H2]%filter_In]]. apply orb_true_iff in H2. exists d. destruct H2; auto.
  - intros [d [H1 H2]]. exists (m, d). split; [reflexivity|]. apply filter_In. split; [assumption|].
    apply orb_true_iff. destruct H2; auto.
Qed.

Lemma edge_bound : forall ind n m, edge g ind n m -> n < m /\ m < length g.
Proof. intros ind n m [d [H _]]. destruct wf as [_ W]. eapply W; eassumption. Qed.

Lemma edge_weaken : forall ind n m, edge g ind n m -> edge g true n m.
Proof. intros ind n m [d [H _]]. exists d. auto. Qed.

Lemma tc_edge_bound : forall ind n m, tc (edge g ind) n m -> n < m /\ m < length g.
Proof.
  intros ind n m H. induction H as [a b Hab | a b c Hab Hbc [IH1 IH2]]; apply edge_bound in Hab; [assumption|].
  split; [eapply Nat.lt_trans; [apply Hab | assumption] | assumption].
Qed.

(* the walks run on fuel that exceeds the distance to the largest node number *)
Lemma edge_fuel : forall ind n c f, edge g ind n c -> length g - n < S f -> length g - c < f.
Proof. intros ind n c f He. apply edge_bound in He. lia. Qed.

Lemma In_parents : forall ind n p, In p (parents g ind n) <-> edge g ind p n.
Proof.
  intros. unfold parents. rewrite filter_In, memb_In, In_kids_f, In_nodes. split; [tauto|].
  intros H. split; [|assumption]. apply edge_bound in H. eapply Nat.lt_trans; apply H.
Qed.

Lemma ax_desc_correct : forall ind ns m,
  In m (ax_desc g ind ns) <-> exists n, In n ns /\ tc (edge g ind) n m.
Proof.
  intros. apply closure_loop_correct; [apply In_kids_f|].
  intros n x H. apply (edge_bound _ _ _ H).
Qed.

Lemma ax_anc_correct : forall ind ns m,
  In m (ax_anc g ind ns) <-> exists n, In n ns /\ tc (edge g ind) m n.
Proof.
  intros. unfold ax_anc, closure.
  rewrite (closure_loop_correct (length g) _ (fun a b => edge g ind b a) (In_parents ind)).
  - split; intros [n [H1 H2]]; exists n; (split; [assumption|]); apply tc_flip in H2; exact H2.
  - intros n x H. apply edge_bound in H. eapply Nat.lt_trans; apply H.
Qed.

Lemma ax_child_correct : forall ind ns m,
  In m (ax_child g ind ns) <-> exists n, In n ns /\ edge g ind n m.
Proof. intros. apply hop_correct, In_kids_f. Qed.

Lemma ax_parent_correct : forall ind ns m,
  In m (ax_parent g ind ns) <-> exists n, In n ns /\ edge g ind m n.
Proof. intros. apply (hop_correct _ (fun a b => edge g ind b a)), In_parents. Qed.

End Graph.

Lemma str_eqb_eq : forall a b, str_eqb a b = true <-> a = b.
Proof. exact (ListFacts.list_eqb_eq _ _ N.eqb_spec). Qed.

Lemma glob_star : forall pat s,
  glob (ch_star :: pat) s = glob pat s || match s with [] => false | _ :: s' => glob (ch_star :: pat) s' end.
Proof. intros pat s. destruct s; reflexivity. Qed.

Lemma glob_char : forall c pat s, c <> ch_star ->
  glob (c :: pat) s = match s with [] => false | d :: s' => N.eqb c d && glob pat s' end.
Proof. intros c pat s Hc. apply N.eqb_neq in Hc. cbn [glob]. rewrite Hc. reflexivity. Qed.

Lemma glob_complete : forall pat s, gmatch pat s -> glob pat s = true.
Proof.
  intros pat s H. induction H as [|pat s1 s2 H IH|c pat s Hc H IH].
  - reflexivity.
  - induction s1 as [|d s1 IHs]; cbn [app]; rewrite glob_star; [rewrite IH | rewrite IHs, orb_true_r]; reflexivity.
  - rewrite glob_char by assumption. rewrite N.eqb_refl, IH. reflexivity.
Qed.

Lemma glob_sound : forall pat s, glob pat s = true -> gmatch pat s.
Proof.
  induction pat as [|c pat IH]; intros s.
  - destruct s; [constructor | discriminate].
  - destruct (N.eq_dec c ch_star) as [->|Hc].
    + induction s as [|d s IHs]; rewrite glob_star.
      * intros [H|H]%orb_true_iff; [|discriminate]. apply (gm_star pat [] []), IH, H.
      * intros [H|H]%orb_true_iff; [apply (gm_star pat [] (d :: s)), IH, H|].
        apply IHs in H. inversion H; subst; [|contradiction].
        rewrite app_comm_cons. apply gm_star. assumption.
    + rewrite glob_char by assumption. destruct s as [|d s]; [discriminate|].
      intros [<-%N.eqb_eq H]%andb_true_iff. apply gm_char; auto.
Qed.

Lemma axis_eqb_eq : forall a b, axis_eqb a b = true <-> a = b.
Proof. intros a b. split; [destruct a, b; intros [=]; reflexivity | intros ->; destruct b; reflexivity]. Qed.

Lemma is_pnone_eq : forall p, is_pnone p = true <-> p = PNone.
Proof. destruct p; cbn; split; intros H; try reflexivity; try discriminate. Qed.

Lemma test_star : forall nm, test_match star nm = true.
Proof. intros. reflexivity. Qed.

(* the shape of [trivial_self] and [fusable] *)
Lemma star_step : forall a0 a t pr,
  axis_eqb a a0 && str_eqb t star && is_pnone pr = true -> a = a0 /\ t = star /\ pr = PNone.
Proof.
  intros a0 a t pr [[Ha%axis_eqb_eq Ht%str_eqb_eq]%andb_true_iff Hp%is_pnone_eq]%andb_true_iff. auto.
Qed.

Scheme pred_mut := Induction for pred Sort Prop
with path_mut := Induction for path Sort Prop.
Combined Scheme pred_path_ind from pred_mut, path_mut.

(* '//' in front of a step is the step descendant-or-self::* in front of it,
   for [fwd_loop] by computation and for [sem_path] by [sem_dsl] *)
Lemma path_dsl_ind : forall P : path -> Prop,
  P PNil ->
  (forall a t pr rest, P rest -> P (PCons false a t pr rest)) ->
  (forall a t pr rest, P (PCons false ADescSelf star PNone (PCons false a t pr rest)) -> P (PCons true a t pr rest)) ->
  forall q, P q.
Proof. intros P H0 H1 H2. induction q as [|[] a t pr rest IH]; auto. Qed.

(* an error counts as the empty selection, so that one equivalence
   ([eval_forward_nodes]) covers the result and the two errors *)
Definition res_nodes (r : fres) : list node := match r with FOk ns _ => ns | _ => [] end.

Section Sem.
Variable g : graph.
Variable sv : sexpr -> node -> str.

(* unfolding equations to rewrite with: [cbn] leaves a bare [fix] where one of
   these mutual fixpoints calls the other *)
Lemma holds_path : forall abs q n,
  holds g sv (PPath abs q) n = exists m, sem_path g sv q (if abs then root else n) m.
Proof. reflexivity. Qed.
Lemma holds_not : forall a n, holds g sv (PNot a) n = ~ holds g sv a n.
Proof. reflexivity. Qed.
Lemma holds_and : forall a b n, holds g sv (PAnd a b) n = (holds g sv a n /\ holds g sv b n).
Proof. reflexivity. Qed.
Lemma holds_or : forall a b n, holds g sv (POr a b) n = (holds g sv a n \/ holds g sv b n).
Proof. reflexivity. Qed.
Lemma holds_none : forall n, holds g sv PNone n = True.
Proof. reflexivity. Qed.
Lemma sem_nil : forall n m, sem_path g sv PNil n m = (n = m).
Proof. reflexivity. Qed.
Lemma sem_cons : forall dsl a t pr rest n m,
  sem_path g sv (PCons dsl a t pr rest) n m =
  exists x y, (if dsl then axis_rel g ADescSelf n x else n = x) /\ axis_rel g a x y /\
              test_match t (name g y) = true /\ holds g sv pr y /\ sem_path g sv rest y m.
Proof. reflexivity. Qed.
Lemma pred_back_path : forall abs q,
  pred_back g sv (PPath abs q) =
  if abs then (if memb root (path_back g sv q) then all g else []) else path_back g sv q.
Proof. reflexivity. Qed.
Lemma path_back_cons : forall dsl a t pr rest,
  path_back g sv (PCons dsl a t pr rest) =
  let ns := axis_back g a (if is_pnone pr then by_test g t (path_back g sv rest)
                           else inter (by_test g t (path_back g sv rest)) (pred_back g sv pr)) in
  if dsl then axis_back g ADescSelf ns else ns.
Proof. reflexivity. Qed.

Lemma sem_dsl : forall a t pr rest n m,
  sem_path g sv (PCons true a t pr rest) n m <->
  sem_path g sv (PCons false ADescSelf star PNone (PCons false a t pr rest)) n m.
Proof.
  intros. rewrite !sem_cons. split.
  - intros [x [y [Hd H]]]. exists n, x. rewrite sem_cons, holds_none. eauto 10.
  - intros [x [y [<- [Hd [_ [_ Hs]]]]]]. rewrite sem_cons in Hs.
    destruct Hs as [x' [y' [<- H]]]. eauto.
Qed.

Lemma sem_cons_ex : forall dsl a t pr rest n,
  (exists m, sem_path g sv (PCons dsl a t pr rest) n m) <->
  exists x, (if dsl then axis_rel g ADescSelf n x else n = x) /\
  exists y, axis_rel g a x y /\ test_match t (name g y) = true /\ holds g sv pr y /\
            exists m, sem_path g sv rest y m.
Proof.
  intros. split.
  - intros [m H]. rewrite sem_cons in H. destruct H as [x [y [H1 [H2 [H3 [H4 H5]]]]]]. eauto 10.
  - intros [x [H1 [y [H2 [H3 [H4 [m H5]]]]]]]. exists m. exists x, y. auto.
Qed.

(* the 'search' flag [snd (axis_fwd g a S)] depends on the axis only; S is there
   because [axis_fwd] takes it *)
Lemma axis_rel_search : forall a S n m, axis_rel g a n m ->
  n = m \/ match snd (axis_fwd g a S) with
           | None => edge g true n m
           | Some ind => tc (edge g ind) n m
           end.
Proof.
  intros a S n m H. destruct a; auto.
  right. eapply edge_weaken. eassumption.
Qed.

Hypothesis wf : wf_graph g.

Notation len := (length g).

Lemma wf_root : root < len.
Proof. destruct wf as [H _]. exact H. Qed.

Lemma axis_rel_len : forall a n m, axis_rel g a n m -> (n < len <-> m < len).
Proof.
  intros a n m H. destruct (axis_rel_search a [] n m H) as [->|H']; [reflexivity|].
  assert (Hlt : n < m /\ m < len)
    by (destruct (snd (axis_fwd g a [])); [apply (tc_edge_bound g wf) in H' | apply (edge_bound g wf) in H']; exact H').
  destruct Hlt as [H1 H2]. split; [auto | intros _; eapply Nat.lt_trans; eassumption].
Qed.

Lemma anc_self_correct : forall ind ns x,
  In x (union (ax_anc g ind ns) ns) <-> exists y, In y ns /\ (x = y \/ tc (edge g ind) x y).
Proof.
  intros. rewrite In_union, (ax_anc_correct g wf). split.
  - intros [[y [H1 H2]]|H]; [exists y | exists x]; auto.
  - intros [y [H1 [->|H2]]]; [right | left; exists y]; auto.
Qed.

Lemma desc_self_correct : forall ind ns m,
  In m (union (ax_desc g ind ns) ns) <-> exists n, In n ns /\ (n = m \/ tc (edge g ind) n m).
Proof.
  intros. rewrite In_union, (ax_desc_correct g wf). split.
  - intros [[y [H1 H2]]|H]; [exists y | exists m]; auto.
  - intros [y [H1 [->|H2]]]; [right | left; exists y]; auto.
Qed.

Lemma axis_back_correct : forall a ns x,
  In x (axis_back g a ns) <-> exists y, In y ns /\ axis_rel g a x y.
Proof.
  intros a ns x. destruct a; cbn [axis_back axis_rel];
    auto using (ax_parent_correct g wf), (ax_anc_correct g wf), anc_self_correct.
  split; [intros H; exists x; auto | intros [y [H ->]]; assumption].
Qed.

Lemma axis_fwd_correct : forall a ns m,
  In m (fst (axis_fwd g a ns)) <-> exists n, In n ns /\ axis_rel g a n m.
Proof.
  intros a ns m. destruct a; cbn [axis_fwd axis_rel fst];
    auto using (ax_child_correct g), (ax_desc_correct g wf), desc_self_correct.
  split; [intros H; exists m; auto | intros [y [H ->]]; assumption].
Qed.

Lemma In_by_test : forall t ns y, In y (by_test g t ns) <-> In y ns /\ test_match t (name g y) = true.
Proof. intros. apply filter_In. Qed.

Lemma axis_back_sem : forall a B (Q : node -> Prop),
  (forall y, In y B <-> y < len /\ Q y) ->
  forall x, In x (axis_back g a B) <-> x < len /\ exists y, axis_rel g a x y /\ Q y.
Proof.
  intros a B Q HB x. rewrite axis_back_correct. split.
  - intros [y [Hy Hr]]. apply HB in Hy. destruct Hy as [Hy HQ].
    split; [apply (axis_rel_len _ _ _ Hr); assumption | exists y; auto].
  - intros [Hx [y [Hr HQ]]]. exists y. split; [|assumption]. apply HB.
    split; [apply (axis_rel_len _ _ _ Hr); assumption | assumption].
Qed.

Lemma back_correct :
  (forall p n, In n (pred_back g sv p) <-> n < len /\ holds g sv p n) /\
  (forall q n, In n (path_back g sv q) <-> n < len /\ exists m, sem_path g sv q n m).
Proof.
  apply pred_path_ind.
  - intros n. cbn [pred_back]. rewrite In_nodes. apply and_iff_true, I.
  - intros abs q IH n. rewrite pred_back_path. destruct abs; [|apply IH].
    destruct (memb root (path_back g sv q)) eqn:Em.
    + apply memb_In in Em. apply IH in Em. destruct Em as [_ Em]. rewrite In_nodes. apply and_iff_true, Em.
    + apply memb_false in Em. split; [intros [] | intros [_ H]]. apply Em, IH. split; [apply wf_root | exact H].
  - intros a IH n. rewrite holds_not. cbn [pred_back]. rewrite In_diff, In_nodes, IH.
    split; intros [Hl Hn]; (split; [exact Hl|]); [intros Hh; apply Hn; auto | intros [_ Hh]; exact (Hn Hh)].
  - intros a IHa b IHb n. rewrite holds_and. cbn [pred_back]. rewrite In_inter, IHa, IHb.
    split; [intros [[Hl Ha] [_ Hb]]; auto | intros [Hl [Ha Hb]]; auto].
  - intros a IHa b IHb n. rewrite holds_or. cbn [pred_back]. rewrite In_union, IHa, IHb.
    split; [intros [[Hl H]|[Hl H]]; auto | intros [Hl [H|H]]; auto].
  - intros o l r n. cbn [pred_back holds]. rewrite filter_In, In_nodes. reflexivity.
  - intros e n. cbn [pred_back holds]. rewrite filter_In, In_nodes. reflexivity.
  - intros n. cbn [path_back]. rewrite In_nodes. apply and_iff_true. exists n. reflexivity.
  - intros dsl a t pr IHp rest IHr n. rewrite path_back_cons, sem_cons_ex.
    set (B := if is_pnone pr then by_test g t (path_back g sv rest)
              else inter (by_test g t (path_back g sv rest)) (pred_back g sv pr)).
    assert (HB : forall y, In y B <-> y < len /\ (test_match t (name g y) = true /\ holds g sv pr y /\
                                                 exists m, sem_path g sv rest y m)).
    { intros y. unfold B. destruct (is_pnone pr) eqn:Ep.
      - apply is_pnone_eq in Ep. subst pr. rewrite In_by_test, IHr, holds_none.
        split; [intros [[Hl Hm] Ht]; auto | intros [Hl [Ht [_ Hm]]]; auto].
      - rewrite In_inter, In_by_test, IHr, IHp.
        split; [intros [[[Hl Hm] Ht] [_ Hh]]; auto | intros [Hl [Ht [Hh Hm]]]; auto]. }
    pose proof (axis_back_sem a B _ HB) as HC. destruct dsl.
    + apply (axis_back_sem ADescSelf _ _ HC).
    + rewrite HC. split; [intros [Hl [y H]]; eauto | intros [Hl [x [<- H]]]; auto].
Qed.

Definition pred_back_correct := proj1 back_correct.
Definition path_back_correct := proj2 back_correct.

(* the declarative meaning of one step from the context set S: the
   specification of [step_fwd], and the unit by which [sem_cons_from] peels a
   step off [sem_path] *)
Definition step_sel (a : axis) (t : str) (pr : pred) (S : list node) (m : node) : Prop :=
  (exists n, In n S /\ axis_rel g a n m) /\ test_match t (name g m) = true /\ holds g sv pr m.

(* kept of the context sets, because [pred_back] lists only numbers below
   [len] while [holds] can be true of any number *)
Definition bounded (S : list node) : Prop := forall x, In x S -> x < len.

Lemma step_fwd_correct : forall a t pr S, bounded S ->
  forall m, In m (fst (fst (step_fwd g sv a t pr S))) <-> step_sel a t pr S m.
Proof.
  intros a t pr S HS m. unfold step_fwd, step_sel.
  pose proof (axis_fwd_correct a S m) as HA. destruct (axis_fwd g a S) as [ns1 search]. cbn [fst] in HA.
  assert (Hlen : In m ns1 -> m < len).
  { intros H. apply HA in H. destruct H as [n [H1 H2]]. apply (axis_rel_len _ _ _ H2), HS, H1. }
  rewrite <- HA. destruct (is_pnone pr) eqn:Ep; cbn [fst].
  - apply is_pnone_eq in Ep. subst pr. rewrite In_by_test, holds_none. split; [intros [H Ht]; auto | intros [H [Ht _]]; auto].
  - rewrite In_inter, In_by_test, pred_back_correct.
    split; [intros [[H Ht] [_ Hh]]; auto | intros [H [Ht Hh]]; auto].
Qed.

Lemma step_fwd_bounded : forall a t pr S, bounded S -> bounded (fst (fst (step_fwd g sv a t pr S))).
Proof.
  intros a t pr S HS y [[n [H1 H2]] _]%(step_fwd_correct _ _ _ _ HS). apply (axis_rel_len _ _ _ H2), HS, H1.
Qed.

Lemma step_fwd_search : forall a t pr S,
  snd (fst (step_fwd g sv a t pr S)) = snd (axis_fwd g a S).
Proof.
  intros. unfold step_fwd. destruct (axis_fwd g a S) as [ns1 search]. destruct (is_pnone pr); reflexivity.
Qed.

(* the 'valid' set after a step: LocationPath.evalForward, second half of the loop body *)
Definition next_valid (st : fstate) (ns : list node) (search : option bool) : list node :=
  let valid1 := match search with
                | Some ind => union (f_valid st) (find_intermediate g (f_nodes st) ns ind)
                | None => union (f_valid st) ns
                end in
  let valid2 := union valid1 ns in
  inter valid2 (find_reachable_subset g valid2 ns).

Inductive fwd_outcome (mode : emode) (st : fstate) (ns : list node) (search : option bool) (wc : bool)
  : fres + fstate -> Prop :=
| fwd_not_found : ns = [] -> mode <> NullSet -> wc = false ->
    fwd_outcome mode st ns search wc (inl (FNotFound (S (f_k st))))
| fwd_no_match : ns = [] -> mode = NullFail ->
    fwd_outcome mode st ns search wc (inl (FNoMatch (S (f_k st))))
| fwd_next : (ns = [] -> mode = NullSet \/ mode = NullGlob /\ wc = true) ->
    fwd_outcome mode st ns search wc
      (inr {| f_nodes := ns; f_valid := next_valid st ns search; f_complex := wc; f_k := S (f_k st) |}).

Lemma fwd_one_cases : forall mode a t pr st,
  let sf := step_fwd g sv a t pr (f_nodes st) in
  fwd_outcome mode st (fst (fst sf)) (snd (fst sf)) (f_complex st || snd sf) (fwd_one g sv mode a t pr st).
Proof.
  intros. subst sf. unfold fwd_one, next_valid.
  destruct (step_fwd g sv a t pr (f_nodes st)) as [[ns search] cq]. cbn [fst snd].
  destruct ns as [|x ns]; [|apply fwd_next; discriminate].
  destruct mode, (f_complex st || cq); constructor; auto; discriminate.
Qed.

Lemma fwd_loop_inv : forall mode (P : fstate -> Prop) (Q : fres -> Prop),
  (forall a t pr st, P st -> match fwd_one g sv mode a t pr st with inl e => Q e | inr st2 => P st2 end) ->
  (forall st, P st -> Q (FOk (f_nodes st) (f_valid st))) ->
  forall q st, P st -> Q (fwd_loop g sv mode q st).
Proof.
  intros mode P Q Hone Hend q.
  induction q as [|a t pr rest IH|a t pr rest IH] using path_dsl_ind; intros st HP.
  - apply Hend. assumption.
  - cbn [fwd_loop]. specialize (Hone a t pr st HP). destruct (fwd_one g sv mode a t pr st); auto.
  - exact (IH st HP).
Qed.

Lemma sem_cons_from : forall a t pr rest S S', (forall y, In y S' <-> step_sel a t pr S y) ->
  forall m, (exists n, In n S /\ sem_path g sv (PCons false a t pr rest) n m) <->
            (exists y, In y S' /\ sem_path g sv rest y m).
Proof.
  intros a t pr rest S S' F m. split.
  - intros [n [Hn Hs]]. rewrite sem_cons in Hs. destruct Hs as [x [y [<- [Hr [Ht [Hh Hm]]]]]].
    exists y. split; [|assumption]. apply F. split; eauto.
  - intros [y [Hy Hm]]. apply F in Hy. destruct Hy as [[x [Hx Hr]] [Ht Hh]].
    exists x. split; [assumption|]. exists x, y. auto.
Qed.

Lemma fwd_loop_correct : forall mode q st, bounded (f_nodes st) ->
  forall m, In m (res_nodes (fwd_loop g sv mode q st)) <-> exists n, In n (f_nodes st) /\ sem_path g sv q n m.
Proof.
  intros mode q. induction q as [|a t pr rest IH|a t pr rest IH] using path_dsl_ind; intros st HS m.
  - cbn [fwd_loop res_nodes sem_path]. split; [intros H; exists m; auto | intros [n [H ->]]; assumption].
  - cbn [fwd_loop]. rewrite (sem_cons_from a t pr rest _ _ (step_fwd_correct a t pr _ HS)).
    destruct (fwd_one_cases mode a t pr st) as [-> _ _| -> _|_].
    1, 2: split; [intros [] | intros [y [[] _]]].
    apply IH, step_fwd_bounded, HS.
  - etransitivity; [exact (IH st HS m)|].
    split; intros [n [Hn Hs]]; exists n; (split; [assumption|]); apply sem_dsl; assumption.
Qed.

Lemma eval_forward_nodes : forall mode q m,
  In m (res_nodes (eval_forward g sv mode q)) <-> sem_path g sv q root m.
Proof.
  intros. unfold eval_forward. rewrite fwd_loop_correct; cbn [f_nodes].
  - split; [intros [n [[<-|[]] H]]; exact H | intros H; exists root; split; [left; reflexivity | exact H]].
  - intros x [<-|[]]. apply wf_root.
Qed.

End Sem.

Section Modes.
Variable g : graph.
Variable sv : sexpr -> node -> str.

Lemma eval_forward_modes : forall mode q,
  match eval_forward g sv mode q with
  | FOk ns _ => mode = NullFail -> ns <> []
  | FNotFound _ => mode <> NullSet
  | FNoMatch _ => mode = NullFail
  end.
Proof.
  intros mode q. unfold eval_forward.
  apply (fwd_loop_inv g sv mode (fun st => mode = NullFail -> f_nodes st <> [])).
  - intros a t pr st _. destruct (fwd_one_cases g sv mode a t pr st) as [| |H]; [assumption | assumption|].
    cbn [f_nodes]. intros Hm Hn. destruct (H Hn) as [E|[E _]]; rewrite Hm in E; discriminate.
  - intros st H. exact H.
  - intros _. discriminate.
Qed.

Lemma simple_step_not_complex : forall a t S,
  simple_axis a = true -> mem_N ch_star t = false -> snd (step_fwd g sv a t PNone S) = false.
Proof.
  intros a t S Ha Ht. unfold step_fwd.
  assert (Hs : str_eqb t star = false).
  { destruct (str_eqb t star) eqn:E; [|reflexivity]. apply str_eqb_eq in E. subst. discriminate. }
  destruct a; try discriminate; cbn [axis_fwd is_pnone snd]; rewrite Hs, Ht; reflexivity.
Qed.

(* a plain query stays plain, so with nullglob an empty step raises "not found" *)
Lemma nullglob_simple_loop : forall q st ns v,
  simple_path q = true -> f_complex st = false -> f_nodes st <> [] ->
  fwd_loop g sv NullGlob q st = FOk ns v -> ns <> [].
Proof.
  induction q as [|dsl a t pr rest IH]; intros st ns v Hq Hc Hst; cbn [fwd_loop].
  - intros [= <- _]. assumption.
  - cbn [simple_path] in Hq. destruct dsl; [discriminate|].
    destruct (simple_axis a) eqn:Ha; [|discriminate]. destruct (mem_N ch_star t) eqn:Ht; [discriminate|].
    destruct pr; try discriminate.
    pose proof (fwd_one_cases g sv NullGlob a t PNone st) as H1. cbv zeta in H1.
    rewrite (simple_step_not_complex a t (f_nodes st) Ha Ht), Hc in H1.
    destruct H1 as [| |H1]; [discriminate | discriminate|].
    apply IH; [assumption | reflexivity|]. cbn [f_nodes]. intros Hn.
    destruct (H1 Hn) as [?|[_ ?]]; discriminate.
Qed.

End Modes.

Section Norm.
Variable g : graph.
Variable sv : sexpr -> node -> str.

Notation sem := (sem_path g sv).
Notation hold := (holds g sv).

Lemma sem_congr : forall dsl a t p1 p2 r1 r2,
  (forall y, hold p1 y <-> hold p2 y) -> (forall y m, sem r1 y m <-> sem r2 y m) ->
  forall n m, sem (PCons dsl a t p1 r1) n m <-> sem (PCons dsl a t p2 r2) n m.
Proof.
  intros dsl a t p1 p2 r1 r2 Hp H n m.
  split; intros [x [y [H1 [H2 [H3 [H4 H5]]]]]]; exists x, y; repeat (split; [assumption|]);
    (split; [apply Hp; assumption | apply H; assumption]).
Qed.

Lemma expand_sem : forall q n m, sem (expand q) n m <-> sem q n m.
Proof.
  induction q as [|dsl a t pr rest IH]; intros n m; cbn [expand]; [reflexivity|].
  destruct dsl; [rewrite sem_dsl; apply sem_congr; [reflexivity|]|]; intros; apply sem_congr; (reflexivity || assumption).
Qed.

Lemma drop_self_sem : forall q n m, sem (drop_self q) n m <-> sem q n m.
Proof.
  induction q as [|dsl a t pr rest IH]; intros n m; cbn [drop_self]; [reflexivity|].
  destruct (trivial_self a t pr && negb dsl) eqn:Et; [|apply sem_congr; [reflexivity | assumption]].
  apply andb_true_iff in Et. destruct Et as [[-> [-> ->]]%star_step Ed].
  destruct dsl; [discriminate|]. rewrite IH. split.
  - intros H. exists n, n. cbn [axis_rel holds]. auto.
  - intros [x [y [<- [Hs [_ [_ H]]]]]]. cbn [axis_rel] in Hs. subst. assumption.
Qed.

Definition dos (ind : bool) (n m : node) : Prop := n = m \/ tc (edge g ind) n m.

Lemma dos_refl : forall ind n, dos ind n n.
Proof. intros. left. reflexivity. Qed.

Lemma dos_trans : forall ind n x m, dos ind n x -> dos ind x m -> dos ind n m.
Proof.
  intros ind n x m [->|H1] [->|H2]; unfold dos; auto. right. eapply tc_trans; eassumption.
Qed.

Lemma dos_edge : forall ind n x m, dos ind n x -> edge g ind x m -> tc (edge g ind) n m.
Proof. intros ind n x m [->|H] He; [apply tc_one; assumption | eapply tc_r; eassumption]. Qed.

Lemma dsl_refl : forall (dsl : bool) n, if dsl then axis_rel g ADescSelf n n else n = n.
Proof. intros [] n; [left|]; reflexivity. Qed.

Lemma dsl_dos : forall (dsl : bool) n x, (if dsl then axis_rel g ADescSelf n x else n = x) -> dos true n x.
Proof. intros [] n x H; [exact H | left; exact H]. Qed.

(* [fuse] looks two steps ahead, so the statement is proved for a path
   together with every path that has one more step in front *)
Lemma fuse_sem_ext : forall q,
  (forall n m, sem (fuse q) n m <-> sem q n m) /\
  (forall dsl a t pr n m, sem (fuse (PCons dsl a t pr q)) n m <-> sem (PCons dsl a t pr q) n m).
Proof.
  induction q as [|dsl2 a2 t2 pr2 rest2 [IH1 IH2]]; [split; intros; reflexivity|].
  split; [apply IH2|]. intros dsl a t pr n m.
  assert (Hkeep : sem (PCons dsl a t pr (fuse (PCons dsl2 a2 t2 pr2 rest2))) n m <->
                  sem (PCons dsl a t pr (PCons dsl2 a2 t2 pr2 rest2)) n m)
    by (apply sem_congr; [reflexivity | apply IH2]).
  destruct a2; try exact Hkeep.
  cbn [fuse]. destruct (fusable a t pr) eqn:Ef; [clear Hkeep | exact Hkeep].
  apply star_step in Ef. destruct Ef as [-> [-> ->]].
  (* descendant = descendant-or-self, then child *)
  rewrite (sem_cons g sv false ADesc), (sem_cons g sv dsl ADescSelf). split.
  - intros [x [y [<- [Ht [H3 [H4 H5]]]]]].
    apply tc_last in Ht. destruct Ht as [x0 [Hd He]]. apply IH1 in H5.
    exists n, x0.
    split; [apply dsl_refl|]. split; [exact Hd|]. split; [reflexivity|]. split; [exact I|].
    exists x0, y. split; [apply dsl_refl | auto].
  - intros [x [y [Hd1 [Hd2 [_ [_ Hs]]]]]].
    destruct Hs as [x2 [y2 [Hd3 [He [H3 [H4 H5]]]]]]. apply IH1 in H5. apply dsl_dos in Hd1, Hd3.
    exists n, y2. split; [reflexivity|]. split; [|auto].
    eapply dos_edge; [|exact He]. eapply dos_trans; [exact Hd1|]. eapply dos_trans; [exact Hd2 | exact Hd3].
Qed.

Lemma norm_path_eq : forall q, norm_path q = fuse (drop_self (expand (norm_inner q))).
Proof. destruct q; reflexivity. Qed.

Lemma norm_path_sem : forall q, (forall n m, sem (norm_inner q) n m <-> sem q n m) ->
  forall n m, sem (norm_path q) n m <-> sem q n m.
Proof.
  intros q Hin n m. rewrite norm_path_eq, (proj1 (fuse_sem_ext _)), drop_self_sem, expand_sem. apply Hin.
Qed.

Lemma norm_correct :
  (forall p n, hold (norm_pred p) n <-> hold p n) /\
  (forall q n m, sem (norm_inner q) n m <-> sem q n m).
Proof.
  apply pred_path_ind.
  - intros n. reflexivity.
  - intros abs q IH n. cbn [norm_pred]. rewrite !holds_path.
    split; intros [m H]; exists m; apply (norm_path_sem q IH); assumption.
  - intros a IH n. cbn [norm_pred]. rewrite !holds_not, IH. reflexivity.
  - intros a IHa b IHb n. cbn [norm_pred]. rewrite !holds_and, IHa, IHb. reflexivity.
  - intros a IHa b IHb n. cbn [norm_pred]. rewrite !holds_or, IHa, IHb. reflexivity.
  - intros o l r n. reflexivity.
  - intros e n. reflexivity.
  - intros n m. reflexivity.
  - intros dsl a t pr IHp rest IHi n m. cbn [norm_inner]. apply sem_congr; assumption.
Qed.

End Norm.

(* the walk without queryAll reports a node exactly when it takes it out of
   'result' (Rs before, Rs' after): carries result_reported_once, and
   completeness once [settled] shows what cannot remain in Rs' *)
Definition reported (Rs : list node) (out : list (list node * node)) (Rs' : list node) : Prop :=
  incl Rs' Rs /\ NoDup (map snd out) /\ forall m, In m (map snd out) <-> In m Rs /\ ~ In m Rs'.

Lemma reported_nil : forall Rs, reported Rs [] Rs.
Proof.
  intros Rs. split; [apply incl_refl|]. split; [constructor|].
  intros m. split; [intros [] | intros [H1 H2]; exact (H2 H1)].
Qed.

Lemma reported_hit : forall stack n Rs, In n Rs -> reported Rs [(stack, n)] (remove1 n Rs).
Proof.
  intros stack n Rs Hn. split; [apply incl_filter|].
  split; [constructor; [intros [] | constructor]|].
  intros m. cbn [map snd In]. rewrite In_remove1. split.
  - intros [<-|[]]. split; [assumption | intros [_ H]; apply H; reflexivity].
  - intros [Hm H]. left. destruct (Nat.eq_dec n m); [assumption | exfalso; apply H; auto].
Qed.

Lemma reported_app : forall Rs o1 Rs1 o2 Rs2,
  reported Rs o1 Rs1 -> reported Rs1 o2 Rs2 -> reported Rs (o1 ++ o2) Rs2.
Proof.
  intros Rs o1 Rs1 o2 Rs2 [I1 [N1 H1]] [I2 [N2 H2]]. split; [eapply incl_tran; eassumption|].
  rewrite map_app. split.
  - apply ListFacts.NoDup_app_iff. split; [assumption | split; [assumption|]].
    intros x Hx Hx2. apply H1 in Hx. apply H2 in Hx2. destruct Hx, Hx2. contradiction.
  - intros m. rewrite in_app_iff. split.
    + intros [H|H]; [apply H1 in H | apply H2 in H]; destruct H as [Ha Hb]; split; auto.
    + intros [Ha Hb]. destruct (in_dec Nat.eq_dec m Rs1); [right; apply H2 | left; apply H1]; auto.
Qed.

Section Results.
Variable g : graph.
Hypothesis wf : wf_graph g.
Notation len := (length g).

Lemma In_insert_by_name : forall c l x, In x (insert_by_name g c l) <-> x = c \/ In x l.
Proof.
  induction l as [|y r IH]; intros x; cbn [insert_by_name In].
  - split; intros [H|H]; auto.
  - destruct (str_ltb (name g y) (name g c)); cbn [In]; [rewrite IH; split; intros [H|[H|H]]; auto|].
    split; [intros [<-|H]; auto | intros [->|H]; auto].
Qed.

Lemma In_sort_by_name : forall l x, In x (sort_by_name g l) <-> In x l.
Proof.
  induction l as [|y r IH]; intros x; cbn [sort_by_name fold_right In]; [reflexivity|].
  fold (sort_by_name g r). rewrite In_insert_by_name, IH. split; intros [H|H]; auto.
Qed.

Definition kidlist (V : list node) (n : node) : list node :=
  sort_by_name g (filter (fun c => memb c V) (map fst (kids g n))).

Lemma In_kidlist : forall V n c, In c (kidlist V n) <-> edge g true n c /\ In c V.
Proof.
  intros. unfold kidlist. rewrite In_sort_by_name, filter_In, memb_In, in_map_iff. split.
  - intros [[[c' d] [<- H]] Hv]. split; [exists d; auto | assumption].
  - intros [[d [H _]] Hv]. split; [exists (c, d); auto | assumption].
Qed.

Definition fstep (qa : bool) (f : nat) (stack : list node)
  (acc : list (list node * node) * rstate) (c : node) : list (list node * node) * rstate :=
  let '(o2, st2) := frn g qa f c (stack ++ [c]) (snd acc) in (fst acc ++ o2, st2).

Lemma fstep_eq : forall qa f stack acc c,
  fstep qa f stack acc c =
  (fst acc ++ fst (frn g qa f c (stack ++ [c]) (snd acc)), snd (frn g qa f c (stack ++ [c]) (snd acc))).
Proof. intros. unfold fstep. destruct (frn g qa f c (stack ++ [c]) (snd acc)). reflexivity. Qed.

Lemma frn_S : forall qa f n stack valid result,
  frn g qa (S f) n stack (valid, result) =
  let valid1 := if qa then valid else remove1 n valid in
  let hit := memb n result in
  let result1 := if hit && negb qa then remove1 n result else result in
  let out0 := if hit then [(stack, n)] else [] in
  fold_left (fstep qa f stack) (kidlist valid1 n) (out0, (valid1, result1)).
Proof. reflexivity. Qed.

Lemma frn_once_S : forall f n stack V Rs,
  frn g false (S f) n stack (V, Rs) =
  fold_left (fstep false f stack) (kidlist (remove1 n V) n)
    (if memb n Rs then [(stack, n)] else [], (remove1 n V, if memb n Rs then remove1 n Rs else Rs)).
Proof. intros. rewrite frn_S. cbv zeta. rewrite andb_true_r. reflexivity. Qed.

(* what holds of every pair reported by the call at n with this stack and
   state: carries result_paths_sound and the 'never leave valid' half of
   result_paths_through_steps_partial *)
Definition sound_out (n : node) (stack : list node) (st : rstate) (out : list (list node * node)) : Prop :=
  forall stk m, In (stk, m) out ->
    In m (snd st) /\ exists suf, stk = stack ++ suf /\ real_path g n suf m /\ incl suf (fst st).

Lemma sound_out_hit : forall n stack st, In n (snd st) -> sound_out n stack st [(stack, n)].
Proof.
  intros n stack st Hn stk m [[= <- <-]|[]]. split; [assumption|].
  exists []. rewrite app_nil_r. split; [reflexivity|]. split; [reflexivity | intros x []].
Qed.

Lemma sound_out_kid : forall n c stack st st' out,
  edge g true n c -> In c (fst st) -> incl (fst st') (fst st) -> incl (snd st') (snd st) ->
  sound_out c (stack ++ [c]) st' out -> sound_out n stack st out.
Proof.
  intros n c stack st st' out He Hc Hv Hr Hs stk m Hin.
  destruct (Hs stk m Hin) as [Hm [suf [-> [Hp Hall]]]]. split; [apply Hr, Hm|].
  exists (c :: suf). rewrite <- app_assoc. split; [reflexivity|]. split; [split; assumption|].
  intros x [<-|Hx]; [assumption | apply Hv, Hall, Hx].
Qed.

Lemma frn_sound : forall qa fuel n stack st,
  let r := frn g qa fuel n stack st in
  incl (fst (snd r)) (fst st) /\ incl (snd (snd r)) (snd st) /\ sound_out n stack st (fst r).
Proof.
  intros qa. induction fuel as [|f IH]; intros n stack [valid result].
  - cbn [frn fst snd]. split; [apply incl_refl|]. split; [apply incl_refl|]. intros stk m [].
  - rewrite frn_S. cbv zeta.
    set (valid1 := if qa then valid else remove1 n valid).
    set (result1 := if memb n result && negb qa then remove1 n result else result).
    assert (Hv1 : incl valid1 valid) by (unfold valid1; destruct qa; [apply incl_refl | apply incl_filter]).
    assert (Hr1 : incl result1 result)
      by (unfold result1; destruct (memb n result && negb qa); [apply incl_filter | apply incl_refl]).
    apply fold_left_ind; cbn [fst snd].
    + split; [assumption|]. split; [assumption|].
      destruct (memb n result) eqn:Em; [apply sound_out_hit, memb_In, Em | intros stk m []].
    + intros _ c acc Hc [Hav [Har Hao]]. rewrite fstep_eq. cbn [fst snd].
      destruct (IH c (stack ++ [c]) (snd acc)) as [Hcv [Hcr Hs]].
      apply In_kidlist in Hc. destruct Hc as [He Hc].
      split; [eapply incl_tran; eassumption|]. split; [eapply incl_tran; eassumption|].
      intros stk m [Hin|Hin]%in_app_iff; [apply Hao; assumption|].
      apply (sound_out_kid n c stack (valid, result) (snd acc) _ He (Hv1 c Hc) Hav Har Hs stk m Hin).
Qed.

Lemma frn_all_state : forall fuel n stack st, snd (frn g true fuel n stack st) = st.
Proof.
  induction fuel as [|f IH]; intros n stack [valid result]; [reflexivity|].
  rewrite frn_S. cbv zeta. rewrite andb_false_r.
  apply fold_left_ind; [reflexivity|].
  intros _ c acc _ Hacc. rewrite fstep_eq, Hacc. apply IH.
Qed.

Lemma frn_all_S : forall f n stack st,
  frn g true (S f) n stack st =
  ((if memb n (snd st) then [(stack, n)] else []) ++
   flat_map (fun c => fst (frn g true f c (stack ++ [c]) st)) (kidlist (fst st) n), st).
Proof.
  intros f n stack [valid result]. rewrite frn_S. cbv zeta. rewrite andb_false_r. cbn [fst snd].
  set (out0 := if memb n result then [(stack, n)] else []).
  set (F := fun c => fst (frn g true f c (stack ++ [c]) (valid, result))).
  apply fold_left_ind.
  - rewrite app_nil_r. reflexivity.
  - intros pre c acc _ ->. rewrite fstep_eq. cbn [fst snd].
    rewrite frn_all_state, flat_map_app, app_assoc. cbn [flat_map]. rewrite app_nil_r. reflexivity.
Qed.

Lemma frn_all_complete : forall fuel n stack st suf m,
  len - n < fuel ->
  real_path g n suf m -> incl suf (fst st) -> In m (snd st) ->
  In (stack ++ suf, m) (fst (frn g true fuel n stack st)).
Proof.
  induction fuel as [|f IH]; intros n stack st suf m Hf Hp Hv Hm; [destruct (Nat.nlt_0_r _ Hf)|].
  rewrite frn_all_S. apply in_app_iff. destruct suf as [|c suf]; cbn [real_path] in Hp.
  - subst m. left. apply memb_In in Hm. rewrite Hm, app_nil_r. left. reflexivity.
  - destruct Hp as [He Hp]. apply incl_cons_inv in Hv. destruct Hv as [Hc Hv]. right. apply in_flat_map. exists c.
    split; [apply In_kidlist; split; assumption|].
    replace (stack ++ c :: suf) with ((stack ++ [c]) ++ suf) by (rewrite <- app_assoc; reflexivity).
    apply IH; [apply (edge_fuel g wf _ _ _ _ He Hf) | assumption | assumption | assumption].
Qed.

Lemma frn_once_out : forall fuel n stack st,
  reported (snd st) (fst (frn g false fuel n stack st)) (snd (snd (frn g false fuel n stack st))).
Proof.
  induction fuel as [|f IH]; intros n stack [V Rs]; [apply reported_nil|].
  rewrite frn_once_S.
  apply fold_left_ind; cbn [fst snd].
  - destruct (memb n Rs) eqn:Em; [apply reported_hit, memb_In, Em | apply reported_nil].
  - intros _ c acc _ Hacc. rewrite fstep_eq. apply (reported_app _ _ _ _ _ Hacc), IH.
Qed.

End Results.

Section Inside.
Variable g : graph.

(* the nodes after n on the way to m lie in V: the paths the result walk can
   follow when V is 'valid' *)
Inductive inside (V : list node) : node -> node -> Prop :=
| inside_refl : forall n, inside V n n
| inside_step : forall n c m, edge g true n c -> In c V -> inside V c m -> inside V n m.

Lemma inside_mono : forall V V' n m, incl V V' -> inside V n m -> inside V' n m.
Proof.
  intros V V' n m Hi H. induction H as [|n c m He Hc _ IH]; [constructor|].
  exact (inside_step V' n c m He (Hi c Hc) IH).
Qed.

Lemma inside_trans : forall V n x m, inside V n x -> inside V x m -> inside V n m.
Proof.
  intros V n x m H Hm. induction H as [|n c x He Hc _ IH]; [assumption|].
  exact (inside_step V n c m He Hc (IH Hm)).
Qed.

Lemma inside_path : forall V n m, inside V n m -> exists stk, real_path g n stk m /\ incl stk V.
Proof.
  intros V n m H. induction H as [n|n c m He Hc _ [stk [Hp Hs]]].
  - exists []. split; [reflexivity | intros x []].
  - exists (c :: stk). split; [split; assumption | apply incl_cons; assumption].
Qed.

End Inside.

Section ResultsOnce.
Variable g : graph.
Hypothesis wf : wf_graph g.
Notation len := (length g).

(* Without queryAll a visited node leaves 'valid' and a reported one leaves
   'result', and nothing ever comes back.  So once the call that visits y has
   returned, no child of y is valid any more (each was either gone already or
   has been visited by that call) and y is not wanted any more; and this stays
   true.  The walk never asks what earlier calls did (the parent filters by
   'valid'), so there is no hypothesis on the state at entry. *)
Definition settled (st : rstate) (y : node) : Prop :=
  (forall c, edge g true y c -> ~ In c (fst st)) /\ ~ In y (snd st).

Lemma settled_later : forall st st' y,
  incl (fst st') (fst st) -> incl (snd st') (snd st) -> settled st y -> settled st' y.
Proof.
  intros st st' y Hv Hr [Hk Hy]. split; [intros c He Hc; apply (Hk c He), Hv, Hc | intros H; apply Hy, Hr, H].
Qed.

Lemma frn_once_settles : forall fuel n stack st,
  len - n < fuel ->
  let st' := snd (frn g false fuel n stack st) in
  ~ In n (fst st') /\ forall y, y = n \/ In y (fst st) -> ~ In y (fst st') -> settled st' y.
Proof.
  induction fuel as [|f IH]; intros n stack [V Rs] Hf; [destruct (Nat.nlt_0_r _ Hf)|].
  rewrite frn_once_S.
  set (valid1 := remove1 n V). set (result1 := if memb n Rs then remove1 n Rs else Rs).
  assert (Hnr1 : ~ In n result1).
  { unfold result1. destruct (memb n Rs) eqn:Em; [apply remove1_self | apply memb_false; assumption]. }
  set (out0 := if memb n Rs then [_] else []). clearbody result1 out0.
  destruct (fold_left_ind _ _ (fstep g false f stack)
              (fun pre acc => incl (fst (snd acc)) valid1 /\ incl (snd (snd acc)) result1 /\
                              (forall c, In c pre -> ~ In c (fst (snd acc))) /\
                              forall y, In y valid1 -> ~ In y (fst (snd acc)) -> settled (snd acc) y)
              (kidlist g valid1 n) (out0, (valid1, result1))) as [Lv [Lr [Lk Ls]]].
  { split; [apply incl_refl|]. split; [apply incl_refl|]. split; [intros c [] | intros y Hy Hn; contradiction]. }
  { intros pre c acc Hc [Hav [Har [Hpre Hset]]]. rewrite fstep_eq. cbn [snd].
    apply In_kidlist in Hc. destruct Hc as [He _].
    destruct (IH c (stack ++ [c]) (snd acc) (edge_fuel g wf _ _ _ _ He Hf)) as [Hcv Hcs].
    destruct (frn_sound g false f c (stack ++ [c]) (snd acc)) as [Sv [Sr _]].
    split; [eapply incl_tran; eassumption|]. split; [eapply incl_tran; eassumption|]. split.
    - intros c' [Hc'|[<-|[]]]%in_app_iff; [|assumption]. intros Hin. apply (Hpre c' Hc'), Sv, Hin.
    - intros y Hy Hgone. destruct (in_dec Nat.eq_dec y (fst (snd acc))) as [Hin|Hout]; [apply Hcs; [right|]; assumption|].
      apply (settled_later (snd acc)); [assumption | assumption|]. apply Hset; assumption. }
  set (st' := snd (fold_left _ _ _)) in *. clearbody st'.
  split; [intros Hn; apply (remove1_self n V), Lv, Hn|].
  intros y Hy Hgone. destruct (Nat.eq_dec y n) as [->|Hne].
  - split; [|intros Hn; apply Hnr1, Lr, Hn].
    intros c He Hc. apply (Lk c); [|assumption]. apply In_kidlist. split; [assumption | apply Lv, Hc].
  - apply Ls; [|assumption]. destruct Hy as [->|Hy]; [contradiction | apply In_remove1; auto].
Qed.

Lemma settled_inside : forall V st, (forall y, In y V -> ~ In y (fst st) -> settled st y) ->
  forall y m, inside g V y m -> settled st y -> settled st m.
Proof.
  intros V st Hs y m H. induction H as [|n c m He Hc _ IH]; intros Hy; [assumption|].
  apply IH, Hs; [assumption | apply (proj1 Hy), He].
Qed.

Lemma frn_once_complete : forall fuel n stack V Rs m,
  len - n < fuel -> inside g V n m -> In m Rs ->
  exists stk, In (stk, m) (fst (frn g false fuel n stack (V, Rs))).
Proof.
  intros fuel n stack V Rs m Hf Hp Hm.
  destruct (frn_once_settles fuel n stack (V, Rs) Hf) as [Hn Hs].
  destruct (frn_once_out g fuel n stack (V, Rs)) as [_ [_ Hout]].
  set (r := frn g false fuel n stack (V, Rs)) in *. cbn [fst snd] in Hs, Hout.
  assert (Hin : In m (map snd (fst r))).
  { apply Hout. split; [assumption|].
    apply (settled_inside V (snd r) (fun y Hy => Hs y (or_intror Hy)) n m Hp (Hs n (or_introl eq_refl) Hn)). }
  apply in_map_iff in Hin. destruct Hin as [[stk m'] [Heq Hin]]. cbn [snd] in Heq. subst. exists stk. assumption.
Qed.

End ResultsOnce.

Lemma frn_complete : forall g, wf_graph g -> forall qa n stack valid ns m,
  inside g valid n m -> In m ns ->
  exists stk, In (stk, m) (fst (frn g qa (S (length g)) n stack (valid, ns))).
Proof.
  intros g wf qa n stack valid ns m Hp Hm.
  assert (Hf : length g - n < S (length g)) by apply Nat.lt_succ_r, Nat.le_sub_l. destruct qa.
  - destruct (inside_path g _ _ _ Hp) as [suf [Hr Hs]]. exists (stack ++ suf). apply (frn_all_complete g wf); assumption.
  - apply (frn_once_complete g wf); assumption.
Qed.

Section Traverse.
Variable g : graph.
Hypothesis wf : wf_graph g.
Variable ind : bool.
Variable new : list node.
Notation len := (length g).
Notation Ei := (edge g ind).

Definition leads (v : node) : Prop := In v new \/ exists m, In m new /\ tc Ei v m.

(* state = (visited, intermediate).  A node becomes visited when its call
   returns; from then on all its children are visited and, if a node of new
   lies properly below it, it is intermediate; and this stays true, since both
   sets only grow.  The walk relies on it for the nodes it meets again. *)
Definition finished (st : list node * list node) (v : node) : Prop :=
  (forall c, Ei v c -> In c (fst st)) /\ (forall m, In m new -> tc Ei v m -> In v (snd st)).

Definition tinv (st : list node * list node) : Prop := forall v, In v (fst st) -> finished st v.

Lemma finished_later : forall st st' v,
  incl (fst st) (fst st') -> incl (snd st) (snd st') -> finished st v -> finished st' v.
Proof.
  intros st st' v Hv Hi [Hk Hm]. split; [intros c He; apply Hv, (Hk c He) | intros m Hn Ht; apply Hi, (Hm m Hn Ht)].
Qed.

Lemma traverse_S : forall f n stack st,
  traverse g ind new (S f) n stack st =
  if memb n (fst st) then
    (if memb n new || memb n (snd st) then (fst st, union (snd st) stack) else st)
  else
    let im1 := if memb n new then union (snd st) stack else snd st in
    let st' := fold_left (fun s c => traverse g ind new f c (stack ++ [n]) s) (kids_f g ind n) (fst st, im1) in
    (n :: fst st', snd st').
Proof. reflexivity. Qed.

Lemma leads_step : forall v c, Ei v c -> leads c -> exists m, In m new /\ tc Ei v m.
Proof.
  intros v c He [Hc|[m [Hm Ht]]].
  - exists c. split; [assumption | apply tc_one; assumption].
  - exists m. split; [assumption | eapply tc_more; eassumption].
Qed.

Lemma leads_first : forall v m, In m new -> tc Ei v m -> exists c, Ei v c /\ leads c.
Proof.
  intros v m Hm Ht. apply tc_first in Ht. destruct Ht as [c [He Hc]]. exists c. split; [assumption|].
  destruct Hc as [->|Ht]; [left; assumption | right; exists m; auto].
Qed.

Lemma tinv_more : forall st im, tinv st -> incl (snd st) im -> tinv (fst st, im).
Proof. intros st im I Him v Hv. apply (finished_later st); [apply incl_refl | assumption | apply I, Hv]. Qed.

Lemma tinv_seen : forall st n, tinv st -> In n (fst st) -> leads n -> memb n new || memb n (snd st) = true.
Proof.
  intros st n I Hn [Hnew|[m [Hm Ht]]]; apply orb_true_iff; [left | right]; apply memb_In; [assumption|].
  apply (proj2 (I n Hn) m Hm Ht).
Qed.

Lemma tinv_leave : forall r n, tinv r -> finished r n -> tinv (n :: fst r, snd r).
Proof.
  intros r n I Hn v Hv. apply (finished_later r); [apply incl_tl, incl_refl | apply incl_refl|].
  destruct Hv as [<-|Hv]; [assumption | apply I, Hv].
Qed.

Lemma traverse_post : forall fuel n stack st,
  len - n < fuel -> tinv st ->
  let r := traverse g ind new fuel n stack st in
  tinv r /\ incl (fst st) (fst r) /\ incl (snd st) (snd r) /\ In n (fst r) /\
  (leads n -> incl stack (snd r)).
Proof.
  induction fuel as [|f IH]; intros n stack st Hf I; [destruct (Nat.nlt_0_r _ Hf)|].
  rewrite traverse_S. destruct (memb n (fst st)) eqn:Ev.
  - (* seen before: it is marked already if it leads to new *)
    apply memb_In in Ev. pose proof (tinv_seen st n I Ev) as Hl.
    destruct (memb n new || memb n (snd st)); cbn [fst snd].
    + split; [apply tinv_more; [assumption | apply incl_union_l]|]. split; [apply incl_refl|].
      split; [apply incl_union_l|]. split; [assumption | intros _; apply incl_union_r].
    + split; [assumption|]. split; [apply incl_refl|]. split; [apply incl_refl|]. split; [assumption|].
      intros Hl'. apply Hl in Hl'. discriminate.
  - intros r0. cbv zeta in r0. set (im1 := if memb n new then union (snd st) stack else snd st) in r0.
    assert (Him1 : incl (snd st) im1) by (unfold im1; destruct (memb n new); [apply incl_union_l | apply incl_refl]).
    destruct (fold_left_ind _ _ (fun s c => traverse g ind new f c (stack ++ [n]) s)
                (fun pre s => tinv s /\ incl (fst st) (fst s) /\ incl im1 (snd s) /\
                              (forall c, In c pre -> In c (fst s)) /\
                              (forall c, In c pre -> leads c -> incl (stack ++ [n]) (snd s)))
                (kids_f g ind n) (fst st, im1)) as [L1 [L2 [L3 [L4 L5]]]].
    { split; [apply tinv_more; assumption|]. split; [apply incl_refl|]. split; [apply incl_refl|]. split; intros c []. }
    { intros pre c s Hc [Hs [H1 [H2 [H3 H4]]]]. apply (In_kids_f g) in Hc.
      destruct (IH c (stack ++ [n]) s) as [A1 [A2 [A3 [A4 A5]]]]; [apply (edge_fuel g wf _ _ _ _ Hc Hf) | assumption|].
      split; [assumption|]. split; [eapply incl_tran; eassumption|]. split; [eapply incl_tran; eassumption|].
      split; intros c' [Hc'|[<-|[]]]%in_app_iff; [apply A2, H3, Hc' | exact A4 | | exact A5].
      intros Hl. eapply incl_tran; [apply (H4 c'); assumption | assumption]. }
    set (r := fold_left _ (kids_f g ind n) (fst st, im1)) in *. clear IH. cbn [fst snd].
    assert (Hbelow : forall m, In m new -> tc Ei n m -> incl (stack ++ [n]) (snd r)).
    { intros m Hm Ht. destruct (leads_first n m Hm Ht) as [c [He Hc]]. apply (L5 c); [apply In_kids_f|]; assumption. }
    split; [apply (tinv_leave r n L1); split; [intros c He; apply L4, In_kids_f; assumption|]|].
    { intros m Hm Ht. eapply Hbelow; [eassumption | eassumption | apply in_app_iff; right; left; reflexivity]. }
    split; [intros x Hx; right; apply L2; assumption|]. split; [eapply incl_tran; eassumption|].
    split; [left; reflexivity|].
    intros [Hnew|[m [Hm Ht]]] x Hx.
    + apply memb_In in Hnew. apply L3. unfold im1. rewrite Hnew. apply incl_union_r. assumption.
    + eapply Hbelow; [eassumption | eassumption | apply in_app_iff; auto].
Qed.

Lemma find_intermediate_inside : forall old o m W,
  subset new old = false ->
  In o old -> In m new -> tc Ei o m ->
  incl (find_intermediate g old new ind) W -> In m W -> inside g W o m.
Proof.
  intros old o m W Hsub Ho Hm Ht. unfold find_intermediate. rewrite Hsub.
  destruct (fold_left_ind _ _ (fun s n => traverse g ind new (S len) n [] s)
              (fun pre s => tinv s /\ forall x, In x pre -> In x (fst s)) old ([], [])) as [F1 F3].
  { split; [intros v [] | intros x []]. }
  { intros pre a s Ha [Hs Hpre].
    destruct (traverse_post (S len) a [] s) as [A1 [A2 [_ [A4 _]]]]; [apply Nat.lt_succ_r, Nat.le_sub_l | assumption|].
    split; [assumption|]. intros x [Hx|[<-|[]]]%in_app_iff; auto. }
  set (r := fold_left _ old ([], [])) in *. intros HW HmW.
  apply F3 in Ho. clear F3 Hsub. revert Ho.
  (* every node on the way is visited, and marked since m lies properly below it *)
  induction Ht as [a b Hab | a b c Hab Hbc IH]; intros Ha.
  - exact (inside_step g W a b b (edge_weaken g _ _ _ Hab) HmW (inside_refl g W b)).
  - assert (Hb : In b (fst r)) by apply (proj1 (F1 a Ha) b Hab).
    exact (inside_step g W a b c (edge_weaken g _ _ _ Hab) (HW b (proj2 (F1 b Hb) c Hm Hbc)) (IH Hm HmW Hb)).
Qed.

End Traverse.

Section Reach.
Variable g : graph.
Hypothesis wf : wf_graph g.
Variable V : list node.       (* valid *)
Variable NS : list node.      (* the current context nodes *)
Notation len := (length g).

(* invariant of [reach_loop]; with the work list empty it says that 'ret' has
   the context nodes and is closed under parents, inside 'valid', which is all
   [reach_inside] uses *)
Definition rinv (todo ret : list node) : Prop :=
  forall x, In x V -> In x NS \/ (exists y, In y ret /\ edge g true x y) -> In x ret \/ In x todo.

Lemma parents_length : forall n, length (parents g true n) <= len.
Proof. intros. apply filter_seq_length. Qed.

(* fuel: every iteration shortens the work list, except when a node below
   [len] enters 'ret', which can happen [len] times and adds at most [len] parents *)
Lemma reach_loop_inv : forall fuel todo ret,
  length todo + len * measure len ret < fuel -> rinv todo ret ->
  rinv [] (reach_loop g V fuel todo ret).
Proof.
  induction fuel as [|f IH]; intros todo ret Hf I; [destruct (Nat.nlt_0_r _ Hf)|].
  cbn [reach_loop]. destruct todo as [|n rest]; [assumption|]. cbn [length] in Hf.
  destruct (negb (memb n V) || memb n ret) eqn:Ec.
  - apply IH; [apply Nat.succ_lt_mono, Hf|]. intros x Hx Hw. destruct (I x Hx Hw) as [H|[<-|H]]; auto.
    left. apply orb_true_iff in Ec. destruct Ec as [Ec|Ec]; [|apply memb_In; exact Ec].
    apply negb_true_iff, memb_false in Ec. contradiction.
  - apply orb_false_iff in Ec. destruct Ec as [Ev Er]. apply memb_false in Er.
    apply IH.
    + rewrite app_length. pose proof (parents_length n).
      assert (Hm : measure len (n :: ret) <= measure len ret) by apply measure_mono, incl_tl, incl_refl.
      destruct (parents g true n) as [|p ps] eqn:Ep; [clear - Hf Hm; cbn [length]; nia|].
      assert (Hin : edge g true p n) by (apply (In_parents g wf); rewrite Ep; left; reflexivity).
      apply (edge_bound g wf) in Hin.
      assert (Hlt : measure len (n :: ret) < measure len ret); [|clear - Hf H Hlt; nia].
      apply measure_lt with (x := n); [apply incl_tl, incl_refl | apply Hin | assumption | left; reflexivity].
    + intros x Hx Hw.
      assert (Hold : In x ret \/ In x (n :: rest) -> In x (n :: ret) \/ In x (parents g true n ++ rest)).
      { intros [H|[<-|H]]; [left; right | left; left | right; apply in_app_iff; right]; auto. }
      destruct Hw as [Hns|[y [[<-|Hy] He]]]; [apply Hold, I; auto | | apply Hold, I; eauto].
      right. apply in_app_iff. left. apply (In_parents g wf). exact He.
Qed.

Lemma reach_inside : forall x m,
  inside g V x m -> In m NS -> In x V -> In x (find_reachable_subset g V NS).
Proof.
  intros x m H Hm. unfold find_reachable_subset. set (R := reach_loop g V _ NS []).
  assert (I : rinv [] R).
  { apply reach_loop_inv; [rewrite Nat.add_1_r; apply Nat.lt_succ_r, Nat.add_le_mono_l, Nat.mul_le_mono_l, measure_le|]. intros y _ [Hy|[z [[] _]]]. auto. }
  induction H as [n|n c m He Hc _ IH]; intros Hx.
  - destruct (I n Hx (or_introl Hm)) as [H|[]]. assumption.
  - destruct (I n Hx (or_intror (ex_intro _ c (conj (IH Hm Hc) He)))) as [H|[]]. assumption.
Qed.

End Reach.

Section Conn.
Variable g : graph.
Variable sv : sexpr -> node -> str.
Hypothesis wf : wf_graph g.

Lemma trim_inside : forall V ns n m, In m ns -> inside g V n m ->
  inside g (inter V (find_reachable_subset g V ns)) n m.
Proof.
  intros V ns n m Hm H. induction H as [|n c m He Hc Hcm IH]; [constructor|].
  apply (inside_step g _ n c m He); [|apply IH, Hm].
  apply In_inter. split; [assumption | apply (reach_inside g wf V ns c m); assumption].
Qed.

Lemma next_valid_inside : forall a t pr st,
  bounded g (f_nodes st) -> (forall m, In m (f_nodes st) -> inside g (f_valid st) root m) ->
  let sf := step_fwd g sv a t pr (f_nodes st) in
  forall m, In m (fst (fst sf)) -> inside g (next_valid g st (fst (fst sf)) (snd (fst sf))) root m.
Proof.
  intros a t pr st HS HC sf m Hm. subst sf. apply (step_fwd_correct g sv wf _ _ _ _ HS) in Hm as Hsel.
  destruct Hsel as [[o [Ho Hr]] _]. apply (axis_rel_search g a (f_nodes st)) in Hr.
  rewrite step_fwd_search. set (ns := fst (fst (step_fwd g sv a t pr (f_nodes st)))) in *.
  unfold next_valid. set (search := snd (axis_fwd g a (f_nodes st))) in *.
  set (valid1 := match search with Some _ => _ | None => _ end).
  apply trim_inside; [assumption|].
  assert (Hv : incl (f_valid st) (union valid1 ns)).
  { eapply incl_tran; [|apply incl_union_l]. destruct search; apply incl_union_l. }
  pose proof (inside_mono g _ _ _ _ Hv (HC o Ho)) as Hco.
  assert (HmV : In m (union valid1 ns)) by (apply incl_union_r; assumption).
  destruct Hr as [<-|Hr]; [assumption|]. destruct search as [ind0|].
  - (* several hops: the nodes recorded by __findIntermediateNodes, unless its shortcut applies *)
    destruct (subset ns (f_nodes st)) eqn:Esub.
    + apply subset_spec in Esub. apply (inside_mono g _ _ _ _ Hv), HC, Esub, Hm.
    + apply (inside_trans g _ _ o _ Hco), (find_intermediate_inside g wf ind0 ns (f_nodes st) o m _ Esub Ho Hm Hr); [|assumption].
      intros x Hx. apply incl_union_l, incl_union_r, Hx.
  - exact (inside_trans g _ _ o _ Hco (inside_step g _ o m m Hr HmV (inside_refl g _ m))).
Qed.

Lemma eval_forward_inside : forall mode q,
  match eval_forward g sv mode q with
  | FOk ns valid => forall m, In m ns -> inside g valid root m
  | _ => True
  end.
Proof.
  intros mode q. unfold eval_forward.
  apply (fwd_loop_inv g sv mode
           (fun st => bounded g (f_nodes st) /\ forall m, In m (f_nodes st) -> inside g (f_valid st) root m)).
  - intros a t pr st [HS HC]. destruct (fwd_one_cases g sv mode a t pr st); [exact I | exact I|].
    split; [apply (step_fwd_bounded g sv wf); assumption | apply next_valid_inside; assumption].
  - intros st [_ HC]. exact HC.
  - cbn [f_nodes f_valid]. split; intros x [<-|[]]; [apply (wf_root g wf) | constructor].
Qed.

End Conn.

Lemma query_tree_ok : forall g sv mode q qa found,
  query_tree g sv mode q qa = QOk found ->
  exists ns valid, eval_forward g sv mode (norm_path q) = FOk ns valid /\
                   found = fst (frn g qa (S (length g)) root [] (valid, ns)).
Proof.
  intros g sv mode q qa found. unfold query_tree.
  destruct (eval_forward g sv mode (norm_path q)) as [ns valid|k|k]; intros H; try discriminate.
  exists ns, valid. split; [reflexivity | congruence].
Qed.

Lemma wf_graphb_sound : forall g, wf_graphb g = true -> wf_graph g.
Proof.
  intros g [H1 H2]%andb_true_iff.
  split; [apply Nat.ltb_lt; assumption|].
  intros n c d Hin.
  destruct (Nat.lt_ge_cases n (length g)) as [Hn|Hn].
  - apply forallb_forall with (x := n) in H2; [|apply In_nodes, Hn].
    apply forallb_forall with (x := (c, d)) in H2; [|exact Hin]. cbn [fst] in H2. apply andb_true_iff in H2.
    destruct H2 as [A%Nat.ltb_lt B%Nat.ltb_lt]. split; assumption.
  - exfalso. unfold kids, rec_of in Hin. rewrite nth_overflow in Hin by exact Hn. destruct Hin.
Qed.
