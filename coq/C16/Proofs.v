(* Paths: base ++ "/" ++ number determines the number, and the base up to a
   trailing slash ([join_inj]).
   Develop mode: the first pass sorts the presented keys into those that keep
   their stored path and those queued under a base ([fmt_inv]); numbering the
   queued ones cannot run out of fuel and hands out fresh, distinct paths
   ([write_groups_ok]); [refresh_facts] is what one refresh does to the table,
   and what every refresh preserves a history preserves ([run_history_inv]).
   Release mode: no assigned directory carries a number above its base's
   counter ([bn_inv]), so the next number is fresh.
   Clean: collectPaths is a depth-first search with a done list; [walk_post]
   says what one call adds to it.
   Prune: a stored state without the step's Variant-Id differs from the build
   digest and from the package digest the step would record
   ([other_variant_differs]), and a differing state means an emptied directory
   ([package_pruned]; the build half is a theorem of Properties.v). *)
From Coq Require Import List NArith Bool Lia PeanoNat Permutation Decimal.
From Coq Require DecimalN.
Require BobV.Common.ListFacts.
Require Import BobV.C16.Model.
Import ListNotations.
Open Scope N_scope.

Lemma str_eqb_spec : forall a b, reflect (a = b) (str_eqb a b).
Proof. exact (ListFacts.list_eqb_spec _ _ N.eqb_spec). Qed.

Lemma str_eqb_refl : forall a, str_eqb a a = true.
Proof. exact (ListFacts.list_eqb_refl _ _ N.eqb_spec). Qed.

Lemma mem_str_spec : forall s l, reflect (In s l) (mem_str s l).
Proof. intros s l. apply iff_reflect. symmetry. exact (ListFacts.mem_In _ _ str_eqb_spec s l). Qed.

Lemma mem_N_spec : forall n l, reflect (In n l) (mem_N n l).
Proof. intros n l. apply iff_reflect. symmetry. exact (ListFacts.mem_In _ _ N.eqb_spec n l). Qed.

Section AssocLemmas.
  Context {V : Type}.
  Implicit Types (l : list (str * V)).

  Lemma lookup_In : forall l k v, lookup l k = Some v -> In (k, v) l.
  Proof.
    induction l as [|[k' v'] l IH]; cbn; intros k v H; [discriminate|].
    destruct (str_eqb_spec k k') as [->|_]; [left; congruence | right; apply IH; exact H].
  Qed.

  Lemma lookup_dom : forall l k, lookup l k <> None <-> In k (map fst l).
  Proof.
    induction l as [|[k' v'] l IH]; cbn; intro k; [split; [intro H; destruct H; reflexivity | intros []]|].
    destruct (str_eqb_spec k k') as [->|NE]; [split; [left; reflexivity | discriminate]|].
    rewrite IH. split; [right; assumption | intros [E|I]; [destruct NE; symmetry; exact E | exact I]].
  Qed.

  Lemma lookup_None : forall l k, lookup l k = None <-> ~ In k (map fst l).
  Proof. intros l k. rewrite <- lookup_dom. destruct (lookup l k); intuition congruence. Qed.

  Lemma In_lookup : forall l k v, NoDup (map fst l) -> In (k, v) l -> lookup l k = Some v.
  Proof.
    induction l as [|[k' v'] l IH]; cbn; intros k v ND I; [contradiction|].
    apply NoDup_cons_iff in ND as [NI ND].
    destruct I as [[= -> ->]|I]; [rewrite str_eqb_refl; reflexivity|].
    destruct (str_eqb_spec k k') as [->|_]; [|apply IH; assumption].
    destruct NI. apply (in_map fst) in I. exact I.
  Qed.

  Lemma lookup_app : forall l1 l2 k,
    lookup (l1 ++ l2) k = match lookup l1 k with Some v => Some v | None => lookup l2 k end.
  Proof.
    induction l1 as [|[k' v'] l1 IH]; cbn; intros l2 k; [reflexivity|].
    destruct (str_eqb k k'); [reflexivity | apply IH].
  Qed.

  Lemma lookup_app_Some : forall l1 l2 k v, lookup l1 k = Some v -> lookup (l1 ++ l2) k = Some v.
  Proof. intros l1 l2 k v H. rewrite lookup_app, H. reflexivity. Qed.

  Lemma lookup_set_kv : forall l k v k',
    lookup (set_kv l k v) k' = if str_eqb k' k then Some v else lookup l k'.
  Proof.
    induction l as [|[k0 v0] l IH]; cbn; intros k v k'; [reflexivity|].
    destruct (str_eqb_spec k k0) as [<-|NE]; cbn.
    - destruct (str_eqb k' k); reflexivity.
    - rewrite IH. destruct (str_eqb_spec k' k0) as [->|_]; [|reflexivity].
      destruct (str_eqb_spec k0 k); congruence.
  Qed.
End AssocLemmas.

Lemma first_base_lookup : forall vs k, first_base vs k = lookup vs k.
Proof. induction vs as [|[k' b] vs IH]; intro k; cbn; [|rewrite IH]; reflexivity. Qed.

Lemma first_base_In : forall vs k b, first_base vs k = Some b -> In (k, b) vs.
Proof. intros vs k b. rewrite first_base_lookup. apply lookup_In. Qed.

Lemma in_snoc : forall {A} (l : list A) y x, In x (l ++ [y]) <-> y = x \/ In x l.
Proof. intros A l y x. rewrite in_app_iff. cbn. tauto. Qed.

Lemma NoDup_map_inj : forall {A B} (f : A -> B) l x y,
  NoDup (map f l) -> In x l -> In y l -> f x = f y -> x = y.
Proof.
  induction l as [|a l IH]; cbn; intros x y ND Ix Iy E; [contradiction|].
  apply NoDup_cons_iff in ND as [NI ND].
  destruct Ix as [<-|Ix], Iy as [<-|Iy]; [reflexivity | | | apply IH; assumption]; destruct NI.
  - rewrite E. apply in_map, Iy.
  - rewrite <- E. apply in_map, Ix.
Qed.

Lemma app_inv_same_length : forall (a1 a2 b1 b2 : str),
  length b1 = length b2 -> a1 ++ b1 = a2 ++ b2 -> a1 = a2 /\ b1 = b2.
Proof.
  intros a1 a2 b1 b2 L E. apply app_eq_app in E as [l [[-> E]|[-> E]]]; subst;
    rewrite app_length in L; (destruct l; cbn in L; [|lia]); rewrite app_nil_r; split; reflexivity.
Qed.

Lemma last_occurrence_unique : forall {A} (c : A) y1 y2 d1 d2,
  ~ In c d1 -> ~ In c d2 -> y1 ++ c :: d1 = y2 ++ c :: d2 -> y1 = y2 /\ d1 = d2.
Proof.
  intros A c y1 y2 d1 d2 N1 N2 E.
  apply app_eq_app in E as [[|x l] [[-> E]|[-> E]]]; injection E as E; subst;
    rewrite ?app_nil_r; try (split; reflexivity).
  - destruct N2. apply in_elt.
  - destruct N1. apply in_elt.
Qed.

Fixpoint undigits (s : str) : uint :=
  match s with
  | [] => Nil
  | c :: r => nth (N.to_nat (c - 48)) [D0; D1; D2; D3; D4; D5; D6; D7; D8; D9] D0 (undigits r)
  end.

Lemma undigits_digits : forall u, undigits (uint_digits u) = u.
Proof. induction u; cbn; [reflexivity | apply f_equal, IHu ..]. Qed.

Lemma uint_digits_inj : forall u v, uint_digits u = uint_digits v -> u = v.
Proof. intros u v H. rewrite <- (undigits_digits u), H. apply undigits_digits. Qed.

Lemma dec_inj : forall n m, dec n = dec m -> n = m.
Proof. intros n m H. apply DecimalN.Unsigned.to_uint_inj, uint_digits_inj, H. Qed.

Lemma uint_digits_no_slash : forall u, ~ In ch_slash (uint_digits u).
Proof. induction u; cbn; [tauto | ..]; (intros [H|H]; [discriminate H | contradiction]). Qed.

Lemma dec_no_slash : forall n, ~ In ch_slash (dec n).
Proof. intro n. apply uint_digits_no_slash. Qed.

Lemma dec_starts_slash : forall n, starts_slash (dec n) = false.
Proof.
  intro n. pose proof (dec_no_slash n) as H. destruct (dec n) as [|c r]; [reflexivity|]. cbn.
  destruct (N.eqb_spec c ch_slash) as [->|_]; [destruct H; left|]; reflexivity.
Qed.

Lemma join_dec : forall b n, path_join b (dec n) = norm b ++ dec n.
Proof.
  intros b n. unfold path_join, norm. rewrite dec_starts_slash.
  destruct (is_nil b || ends_slash b); [reflexivity | rewrite <- app_assoc; reflexivity].
Qed.

Lemma ends_slash_last : forall b, ends_slash b = true -> exists y, b = y ++ [ch_slash].
Proof.
  induction b as [|c [|c' b] IH]; cbn; intro H; [discriminate | |].
  - apply N.eqb_eq in H as ->. exists []. reflexivity.
  - destruct (IH H) as [y ->]. exists (c :: y). reflexivity.
Qed.

(* With a slash in front, the directory part always ends in a slash: no case for the empty one. *)
Lemma norm_shape : forall b, exists y, ch_slash :: norm b = y ++ [ch_slash].
Proof.
  intro b. unfold norm. destruct b as [|c b]; [exists []; reflexivity|]. cbn [is_nil orb].
  destruct (ends_slash (c :: b)) eqn:E.
  - apply ends_slash_last in E as [y ->]. exists (ch_slash :: y). reflexivity.
  - exists (ch_slash :: c :: b). reflexivity.
Qed.

Lemma join_inj : forall b1 b2 n m,
  path_join b1 (dec n) = path_join b2 (dec m) -> norm b1 = norm b2 /\ n = m.
Proof.
  intros b1 b2 n m H. rewrite !join_dec in H. apply (f_equal (cons ch_slash)) in H.
  destruct (norm_shape b1) as [y1 E1], (norm_shape b2) as [y2 E2].
  rewrite !app_comm_cons, E1, E2, <- !app_assoc in H.
  apply last_occurrence_unique in H as [-> H]; try apply dec_no_slash.
  split; [congruence | apply dec_inj, H].
Qed.

Lemma starts_with_app : forall a b, starts_with a (a ++ b) = true.
Proof. induction a as [|x a IH]; cbn; intro b; [reflexivity|]. rewrite N.eqb_refl. apply IH. Qed.

Lemma starts_with_join : forall b n, starts_with b (path_join b (dec n)) = true.
Proof.
  intros b n. rewrite join_dec. unfold norm.
  destruct (is_nil b || ends_slash b); [|rewrite <- app_assoc]; apply starts_with_app.
Qed.

Definition flat (g : list (str * list str)) : list str := concat (map snd g).
Definition keys_of (st : fstate) : list str := map fst (f_known st) ++ flat (f_groups st).

Lemma keys_of_flat_In : forall st b ks k, In (b, ks) (f_groups st) -> In k ks -> In k (keys_of st).
Proof.
  intros st b ks k I Ik. apply in_app_iff. right. apply in_concat. exists ks.
  split; [apply (in_map snd) in I; exact I | exact Ik].
Qed.

Definition entries (g : list (str * list str)) : list (str * str) :=
  flat_map (fun e => map (fun k => (k, fst e)) (snd e)) g.

Lemma flat_entries : forall g, flat g = map fst (entries g).
Proof.
  unfold flat. induction g as [|[b ks] g IH]; cbn; [reflexivity|].
  rewrite map_app, map_map, map_id, IH. reflexivity.
Qed.

Lemma entries_base : forall g k b, In (k, b) (entries g) -> In b (map fst g).
Proof.
  intros g k b I. apply in_flat_map in I as (e & Ie & I). apply in_map_iff in I as (k' & [= _ <-] & _).
  apply in_map, Ie.
Qed.

Lemma entries_group_add : forall b k g, Permutation (entries (group_add b k g)) ((k, b) :: entries g).
Proof.
  intros b k. induction g as [|[b' ks] g IH]; cbn; [reflexivity|].
  destruct (str_eqb_spec b b') as [<-|_]; cbn.
  - rewrite map_app, <- app_assoc. apply Permutation_sym, Permutation_middle.
  - apply (perm_trans (Permutation_app_head _ IH)), Permutation_sym, Permutation_middle.
Qed.

Lemma group_add_bases : forall b k g,
  map fst (group_add b k g) = if mem_str b (map fst g) then map fst g else map fst g ++ [b].
Proof.
  intros b k. induction g as [|[b0 ks0] g IH]; cbn; [reflexivity|].
  destruct (str_eqb_spec b b0) as [<-|_]; cbn; [reflexivity|].
  rewrite IH. destruct (mem_str b (map fst g)); reflexivity.
Qed.

Lemma group_add_bases_NoDup : forall b k g, NoDup (map fst g) -> NoDup (map fst (group_add b k g)).
Proof.
  intros b k g ND. rewrite group_add_bases. destruct (mem_str_spec b (map fst g)) as [_|NI]; [exact ND|].
  apply ListFacts.NoDup_app_iff. split; [exact ND | split; [repeat constructor; intros [] | intros x I [<-|[]]; exact (NI I)]].
Qed.

(* __fmt on a key not seen before: a stored directory that begins with the base is kept, every other key
   waits for a number under its base. *)
Definition kept (d : db) (k b : str) : option str :=
  match lookup d k with
  | Some p => if starts_with b p then Some p else None
  | None => None
  end.

Lemma kept_spec : forall d k b p, kept d k b = Some p <-> lookup d k = Some p /\ starts_with b p = true.
Proof.
  intros d k b p. unfold kept. destruct (lookup d k) as [p0|]; [destruct (starts_with b p0) eqn:S|];
    (split; [intros [= <-] | intros [[= <-] S']]; try split; congruence).
Qed.

Definition place (d : db) (st : fstate) (k b : str) : fstate :=
  match kept d k b with
  | Some p => {| f_visited := k :: f_visited st; f_known := f_known st ++ [(k, p)]; f_groups := f_groups st |}
  | None => {| f_visited := k :: f_visited st; f_known := f_known st; f_groups := group_add b k (f_groups st) |}
  end.

Lemma fmt_step_place : forall d st k b,
  fmt_step d st (k, b) = if mem_str k (f_visited st) then st else place d st k b.
Proof.
  intros d st k b. cbn. unfold place, kept. destruct (mem_str k (f_visited st)); [reflexivity|].
  destruct (lookup d k) as [p|]; [destruct (starts_with b p)|]; reflexivity.
Qed.

Lemma place_visited : forall d st k b, f_visited (place d st k b) = k :: f_visited st.
Proof. intros d st k b. unfold place. destruct (kept d k b); reflexivity. Qed.

Lemma keys_of_place : forall d st k b, Permutation (keys_of (place d st k b)) (k :: keys_of st).
Proof.
  intros d st k b. unfold place, keys_of. destruct (kept d k b); cbn [f_known f_groups].
  - rewrite map_app, <- app_assoc. apply Permutation_sym, Permutation_middle.
  - rewrite !flat_entries, entries_group_add. apply Permutation_sym, Permutation_middle.
Qed.

(* The state after the visits [vs]: each known entry was kept at the key's first visit, each queued key was
   not kept at its first visit and waits under the base of that visit. *)
Record fmt_inv (d : db) (vs : list visit) (st : fstate) : Prop := {
  fi_visited : forall k, In k (f_visited st) <-> In k (map fst vs);
  fi_keys : forall k, In k (keys_of st) <-> In k (map fst vs);
  fi_known : forall k p, In (k, p) (f_known st) -> exists b, lookup vs k = Some b /\ kept d k b = Some p;
  fi_groups : forall k b, In (k, b) (entries (f_groups st)) -> lookup vs k = Some b /\ kept d k b = None;
  fi_bases : NoDup (map fst (f_groups st))
}.

Lemma fmt_inv_step : forall d vs st v,
  fmt_inv d vs st -> fmt_inv d (vs ++ [v]) (fmt_step d st v).
Proof.
  intros d vs st [key base] [Iv Ik Ikn Ig Ibn]. rewrite fmt_step_place.
  assert (Dom : forall k, In k (map fst (vs ++ [(key, base)])) <-> key = k \/ In k (map fst vs))
    by (intro k; rewrite map_app; apply in_snoc).
  assert (Kn : forall k p, In (k, p) (f_known st) ->
                 exists b, lookup (vs ++ [(key, base)]) k = Some b /\ kept d k b = Some p).
  { intros k p I. destruct (Ikn k p I) as (b & F & K). exists b. split; [apply lookup_app_Some, F | exact K]. }
  assert (Gr : forall k b, In (k, b) (entries (f_groups st)) ->
                 lookup (vs ++ [(key, base)]) k = Some b /\ kept d k b = None).
  { intros k b I. destruct (Ig k b I) as [F K]. split; [apply lookup_app_Some, F | exact K]. }
  destruct (mem_str_spec key (f_visited st)) as [Ev|Ev].
  - apply Iv in Ev. constructor; try assumption.
    + intro k. rewrite Dom, Iv. split; [auto | intros [<-|I]; assumption].
    + intro k. rewrite Dom, Ik. split; [auto | intros [<-|I]; assumption].
  - assert (New : lookup (vs ++ [(key, base)]) key = Some base).
    { rewrite (lookup_app vs), (proj2 (lookup_None vs key)) by (rewrite <- Iv; exact Ev). cbn. rewrite str_eqb_refl. reflexivity. }
    constructor.
    + intro k. rewrite place_visited, Dom, <- Iv. reflexivity.
    + intro k. rewrite (keys_of_place d st key base), Dom, <- Ik. reflexivity.
    + unfold place. destruct (kept d key base) as [path|] eqn:K; cbn [f_known]; [|exact Kn].
      intros k p I. apply in_snoc in I as [[= <- <-]|I]; [exists base; split; assumption | exact (Kn k p I)].
    + unfold place. destruct (kept d key base) eqn:K; cbn [f_groups]; [exact Gr|].
      intros k b I. apply (Permutation_in _ (entries_group_add base key _)) in I as [[= <- <-]|I];
        [split; assumption | exact (Gr k b I)].
    + unfold place. destruct (kept d key base); cbn [f_groups]; [|apply group_add_bases_NoDup]; exact Ibn.
Qed.

Lemma fmt_pass_snoc : forall d vs v, fmt_pass d (vs ++ [v]) = fmt_step d (fmt_pass d vs) v.
Proof. intros. unfold fmt_pass. rewrite fold_left_app. reflexivity. Qed.

Lemma fmt_pass_inv : forall d vs, fmt_inv d vs (fmt_pass d vs).
Proof.
  intros d vs. induction vs as [|v vs IH] using rev_ind.
  - constructor; cbn; try tauto; constructor.
  - rewrite fmt_pass_snoc. apply fmt_inv_step, IH.
Qed.

Lemma alloc_spec : forall f b n kd r,
  alloc f b n kd = Some r ->
  exists m, n <= m /\ ~ In (path_join b (dec m)) kd /\ r = (path_join b (dec m), N.succ m).
Proof.
  induction f as [|f IH]; cbn; intros b n kd r H; [discriminate|].
  destruct (mem_str_spec (path_join b (dec n)) kd) as [I|NI].
  - apply IH in H as (m & A & B). exists m. split; [lia | exact B].
  - injection H as <-. exists n. split; [lia | split; [exact NI | reflexivity]].
Qed.

(* pigeonhole: every miss of the loop is a kept directory of its own ([seen]), so there are at most
   [length kd] of them *)
Lemma alloc_finds : forall b kd f n seen,
  NoDup seen -> incl seen kd -> (forall p, In p seen -> exists m, m < n /\ p = path_join b (dec m)) ->
  (length kd < f + length seen)%nat -> alloc f b n kd <> None.
Proof.
  intros b kd. induction f as [|f IH]; cbn; intros n seen D I Lt Len.
  - apply (NoDup_incl_length D) in I. lia.
  - destruct (mem_str_spec (path_join b (dec n)) kd) as [Ik|_]; [|discriminate].
    apply (IH _ (path_join b (dec n) :: seen)).
    + constructor; [|exact D]. intro J. apply Lt in J as (m & L & E). apply join_inj in E as [_ E]. lia.
    + apply incl_cons; assumption.
    + intros p [<-|J]; [exists n; split; [apply N.lt_succ_diag_r | reflexivity]|].
      apply Lt in J as (m & L & E). exists m. split; [apply N.lt_lt_succ_r, L | exact E].
    + cbn. rewrite Nat.add_succ_r. exact Len.
Qed.

Lemma alloc_fuel_enough : forall f b n kd, (length kd < f)%nat -> alloc f b n kd <> None.
Proof.
  intros f b n kd L. apply (alloc_finds b kd f n []); [constructor | intros x [] | intros p [] | cbn; lia].
Qed.

(* What the numbering promises of a new path: it is none of the kept ones, and it has the form [join_inj]
   takes apart; the bound [lo] keeps the numbers within one group apart. *)
Definition fresh_path (b : str) (lo : N) (kd : list str) (p : str) : Prop :=
  exists m, lo <= m /\ p = path_join b (dec m) /\ ~ In p kd.

Lemma assign_ok : forall f b kd, (length kd < f)%nat -> forall ks n,
  exists news, assign f b n ks kd = Some news /\
    map fst news = ks /\ (forall k p, In (k, p) news -> fresh_path b n kd p) /\ NoDup (map snd news).
Proof.
  intros f b kd L. induction ks as [|k ks IH]; cbn; intro n.
  - exists []. repeat split; [intros k p [] | constructor].
  - destruct (alloc f b n kd) as [a|] eqn:E; [|destruct (alloc_fuel_enough f b n kd L E)].
    apply alloc_spec in E as (m & A & NI & ->).
    destruct (IH (N.succ m)) as (r & -> & F1 & F2 & F3).
    exists ((k, path_join b (dec m)) :: r). cbn. rewrite F1. repeat split.
    + intros k' p [[= _ <-]|I]; [exists m; repeat split; assumption|].
      destruct (F2 k' p I) as (m' & A' & B'). exists m'. split; [lia | exact B'].
    + constructor; [|exact F3]. intro I. apply in_map_iff in I as ([k' p] & E & I). cbn in E. subst p.
      destruct (F2 k' _ I) as (m' & A' & B' & _). apply join_inj in B' as [_ B']. lia.
Qed.

Lemma write_groups_ok : forall f kd, (length kd < f)%nat -> forall g,
  exists news, write_groups f g kd = Some news /\
    map fst news = flat g /\
    (forall k p, In (k, p) news -> exists b, In (k, b) (entries g) /\ fresh_path b 1 kd p) /\
    (NoDup (map fst g) -> sep (map snd (entries g)) -> NoDup (map snd news)).
Proof.
  intros f kd L. induction g as [|[b ks] g IH]; cbn.
  - exists []. repeat split; [intros k p [] | constructor].
  - destruct (assign_ok f b kd L ks 1) as (a & -> & A1 & A2 & A3).
    destruct IH as (c & -> & C1 & C2 & C3).
    assert (HA : forall k p, In (k, p) a -> In (k, b) (map (fun k => (k, b)) ks)).
    { intros k p I. apply (in_map (fun k => (k, b))). rewrite <- A1. exact (in_map fst _ _ I). }
    exists (a ++ c). repeat split.
    + rewrite map_app, A1, C1. reflexivity.
    + intros k p I. apply in_app_iff in I as [I|I].
      * exists b. split; [apply in_app_iff; left; exact (HA k p I) | exact (A2 k p I)].
      * destruct (C2 k p I) as (b' & I' & Fr). exists b'. split; [apply in_app_iff; right; exact I' | exact Fr].
    + intros ND S. apply NoDup_cons_iff in ND as [NI ND]. rewrite map_app in *. apply ListFacts.NoDup_app_iff.
      split; [exact A3|]. split.
      * apply C3; [exact ND|]. intros b1 b2 I1 I2. apply S; apply in_app_iff; right; assumption.
      * (* a path of this group among those of a later group: that group has the same base *)
        intros x Ia Ic. apply in_map_iff in Ia as ([ka pa] & <- & Ia). apply in_map_iff in Ic as ([kc pc] & E & Ic).
        destruct (A2 ka pa Ia) as (m & _ & B & _). destruct (C2 kc pc Ic) as (b' & I' & m' & _ & B' & _).
        cbn in E. rewrite E, B in B'. apply join_inj in B' as [B' _].
        apply NI. replace b with b'; [exact (entries_base _ _ _ I')|].
        symmetry. apply S; [| |exact B']; apply in_app_iff.
        -- left. exact (in_map snd _ _ (HA ka pa Ia)).
        -- right. exact (in_map snd _ _ I').
Qed.

(* The invariant behind dev_dirs_injective: each refresh keeps it ([rf_vals]), so every history does. *)
Definition inj (d : db) : Prop :=
  forall k1 k2 p, lookup d k1 = Some p -> lookup d k2 = Some p -> k1 = k2.

(* All that the history theorems use of one refresh: [rf_vals] carries dev_dirs_injective, [rf_dom]
   dev_lookup_total; [rf_placed] carries the two stability theorems: a presented key gets a directory under
   its base, the stored one if that was kept. *)
Record refresh_facts (d : db) (vs : list visit) (d' : db) : Prop := {
  rf_vals : inj d -> sep (map snd vs) -> inj d';
  rf_placed : forall k b, lookup vs k = Some b ->
    exists p, lookup d' k = Some p /\ starts_with b p = true /\ forall p0, kept d k b = Some p0 -> p0 = p;
  rf_dom : forall k, lookup vs k <> None <-> lookup d' k <> None
}.

Lemma refresh_spec : forall d vs, exists d', refresh d vs = Some d' /\ refresh_facts d vs d'.
Proof.
  intros d vs. unfold refresh, write_back.
  destruct (fmt_pass_inv d vs) as [_ Ik Ikn Ig Ibn]. set (st := fmt_pass d vs) in *.
  destruct (write_groups_ok _ (map snd (f_known st)) (Nat.lt_succ_diag_r _) (f_groups st))
    as (news & -> & W1 & W2 & W3).
  exists (f_known st ++ news). split; [reflexivity|].
  assert (Dom : forall k, lookup vs k <> None <-> lookup (f_known st ++ news) k <> None).
  { intro k. rewrite !lookup_dom, map_app, W1. symmetry. apply Ik. }
  constructor.
  - intros Inj S k1 k2 p L1 L2. apply lookup_In, in_app_iff in L1, L2.
    assert (Old : forall k, In (k, p) (f_known st) -> lookup d k = Some p).
    { intros k I. destruct (Ikn k p I) as (b & _ & K). apply kept_spec in K as [K _]. exact K. }
    assert (Fr : forall k, In (k, p) news -> ~ In p (map snd (f_known st))).
    { intros k I. destruct (W2 k p I) as (b & _ & m & _ & _ & C). exact C. }
    destruct L1 as [I1|I1], L2 as [I2|I2].
    + exact (Inj _ _ _ (Old _ I1) (Old _ I2)).
    + destruct (Fr k2 I2). exact (in_map snd _ _ I1).
    + destruct (Fr k1 I1). exact (in_map snd _ _ I2).
    + assert (B : forall b, In b (map snd (entries (f_groups st))) -> In b (map snd vs)).
      { intros b' I. apply in_map_iff in I as ([k b] & <- & I). apply Ig in I as [I _].
        apply lookup_In, (in_map snd) in I. exact I. }
      assert (ND : NoDup (map snd news))
        by (apply W3; [exact Ibn|]; intros x y Ix Iy; apply S; apply B; assumption).
      assert (E := NoDup_map_inj snd _ _ _ ND I1 I2 eq_refl). congruence.
  - intros k b F.
    destruct (lookup (f_known st ++ news) k) as [p|] eqn:L; [|destruct (proj1 (Dom k)); congruence].
    exists p. split; [reflexivity|]. apply lookup_In, in_app_iff in L as [I|I].
    + destruct (Ikn k p I) as (b' & F' & K). assert (b' = b) as -> by congruence.
      split; [apply (kept_spec d k b p), K | congruence].
    + destruct (W2 k p I) as (b' & I' & m & _ & -> & _). destruct (Ig k b' I') as [F' K].
      assert (b' = b) as -> by congruence. split; [apply starts_with_join | congruence].
  - exact Dom.
Qed.

Lemma refresh_Some : forall d vs d', refresh d vs = Some d' -> refresh_facts d vs d'.
Proof. intros d vs d' H. destruct (refresh_spec d vs) as (d'' & E & F). congruence. Qed.

Lemma prime_visits_cases : forall s ck vs s',
  prime_visits s ck vs = Some s' ->
  (vsn_matches (fst s) ck = true /\ s' = s) \/
  (vsn_matches (fst s) ck = false /\ exists d', refresh (snd s) vs = Some d' /\ s' = (Some ck, d')).
Proof.
  intros s ck vs s' H. unfold prime_visits in H. destruct (vsn_matches (fst s) ck).
  - left. injection H as <-. split; reflexivity.
  - right. split; [reflexivity|]. destruct (refresh (snd s) vs) as [d'|]; [|discriminate].
    exists d'. injection H as <-. split; reflexivity.
Qed.

Lemma run_history_inv : forall (P : db -> Prop) (Q : list visit -> Prop),
  (forall d vs d', Q vs -> P d -> refresh_facts d vs d' -> P d') ->
  forall h s, (forall ck vs, In (ck, vs) h -> Q vs) -> P (snd s) ->
  exists s', run_history s h = Some s' /\ P (snd s').
Proof.
  intros P Q Step. induction h as [|[ck vs] h IH]; cbn; intros s HQ HP.
  - exists s. split; [reflexivity | exact HP].
  - assert (HQ' : forall ck' vs', In (ck', vs') h -> Q vs')
      by (intros ck' vs' I; apply (HQ ck' vs'); right; exact I).
    unfold prime_visits. destruct (vsn_matches (fst s) ck); [exact (IH s HQ' HP)|].
    destruct (refresh_spec (snd s) vs) as (d' & -> & F).
    apply (IH (Some ck, d') HQ'), (Step _ _ _ (HQ ck vs (or_introl eq_refl)) HP F).
Qed.

Lemma run_history_injective : forall h s s',
  hist_sep h -> inj (snd s) -> run_history s h = Some s' -> inj (snd s').
Proof.
  intros h s s' S I H.
  destruct (run_history_inv inj (fun vs => sep (map snd vs)) (fun d vs d' Q P F => rf_vals _ _ _ F P Q) h s
              (fun ck vs I0 => proj1 (Forall_forall _ _) S _ I0) I) as (s'' & E & I').
  rewrite H in E. injection E as <-. exact I'.
Qed.

(* self.__byNameDirs.setdefault(baseDir, 0) *)
Definition cnt (m : bnmap) (b : str) : N :=
  match lookup m b with Some (BCnt n) => n | _ => 0 end.

Definition bn_fresh (m : bnmap) (b g : str) (s : bool) : bnmap :=
  set_kv (set_kv m b (BCnt (cnt m b + 1))) g (BDir (path_join b (dec (cnt m b + 1))) s).

Lemma bn_get_fresh : forall m b g s,
  lookup m g = None -> bn_assigned m b = None ->
  bn_get m b g s = (bn_fresh m b g s, RDir (path_join b (dec (cnt m b + 1)))).
Proof.
  intros m b g s Lg Lb. unfold bn_get, bn_fresh, cnt. rewrite Lg. unfold bn_assigned in Lb.
  destruct (lookup m b) as [[n|d s']|]; [reflexivity | discriminate | reflexivity].
Qed.

Lemma bn_fresh_lookup : forall m b g s k,
  lookup (bn_fresh m b g s) k =
  if str_eqb k g then Some (BDir (path_join b (dec (cnt m b + 1))) s)
  else if str_eqb k b then Some (BCnt (cnt m b + 1)) else lookup m k.
Proof. intros m b g s k. unfold bn_fresh. rewrite !lookup_set_kv. reflexivity. Qed.

Lemma bn_fresh_assigned : forall m b g s g',
  bn_assigned m b = None ->
  bn_assigned (bn_fresh m b g s) g' =
  if str_eqb g' g then Some (path_join b (dec (cnt m b + 1))) else bn_assigned m g'.
Proof.
  intros m b g s g' N0. unfold bn_assigned at 1. rewrite bn_fresh_lookup.
  destruct (str_eqb g' g); [reflexivity|]. destruct (str_eqb_spec g' b) as [->|_]; [symmetry; exact N0 | reflexivity].
Qed.

Lemma bn_fresh_cnt : forall m b g s b0,
  b0 <> g -> cnt (bn_fresh m b g s) b0 = if str_eqb b0 b then cnt m b + 1 else cnt m b0.
Proof.
  intros m b g s b0 NE. unfold cnt at 1. rewrite bn_fresh_lookup.
  destruct (str_eqb_spec b0 g); [contradiction|]. destruct (str_eqb b0 b); reflexivity.
Qed.

Lemma bn_get_mono : forall m b g s g' d,
  bn_assigned m g' = Some d -> bn_assigned (fst (bn_get m b g s)) g' = Some d.
Proof.
  intros m b g s g' d A.
  destruct (lookup m g) as [v|] eqn:Lg; [unfold bn_get; rewrite Lg; destruct v; exact A|].
  destruct (bn_assigned m b) as [d0|] eqn:Lb.
  - unfold bn_get, bn_assigned in *. rewrite Lg. destruct (lookup m b) as [[n|d1 s1]|]; [discriminate | exact A | discriminate].
  - rewrite (bn_get_fresh m b g s Lg Lb). cbn [fst]. rewrite (bn_fresh_assigned m b g s g' Lb).
    destruct (str_eqb_spec g' g) as [->|_]; [|exact A]. unfold bn_assigned in A. rewrite Lg in A. discriminate.
Qed.

Lemma bn_run_mono : forall ops m m' rs g d,
  bn_run m ops = (m', rs) -> bn_assigned m g = Some d -> bn_assigned m' g = Some d.
Proof.
  induction ops as [|[[b g0] s] ops IH]; cbn; intros m m' rs g d H A.
  - injection H as <- _. exact A.
  - apply (bn_get_mono m b g0 s) in A. destruct (bn_get m b g0 s) as [m1 x].
    destruct (bn_run m1 ops) as [m2 xs] eqn:E. injection H as <- _. exact (IH _ _ _ _ _ E A).
Qed.

Section Release.
  (* BL: the base directories, GL: the digests that may be presented.  Counters and directories share
     one dict, and a string that is both is the RInternal case of bn_get: hence [disjoint]. *)
  Variable BL GL : list str.
  Hypothesis BL_sep : sep BL.
  Hypothesis disjoint : forall x, In x BL -> In x GL -> False.

  Record bn_inv (m : bnmap) : Prop := {
    bi_key : forall k v, lookup m k = Some v -> match v with BCnt _ => In k BL | BDir _ _ => In k GL end;
    bi_le : forall g b j, In b BL -> bn_assigned m g = Some (path_join b (dec j)) -> j <= cnt m b;
    bi_inj : forall g1 g2 d, bn_assigned m g1 = Some d -> bn_assigned m g2 = Some d -> g1 = g2
  }.

  Lemma bn_inv_nil : bn_inv [].
  Proof. constructor; cbn; intros; discriminate. Qed.

  Lemma bn_get_step : forall m b g s m' r,
    bn_inv m -> In b BL -> In g GL -> bn_get m b g s = (m', r) ->
    bn_inv m' /\ exists d, r = RDir d /\ bn_assigned m' g = Some d.
  Proof.
    intros m b g s m' r [K Le J] Hb Hg H.
    destruct (lookup m g) as [[n|d0 s0]|] eqn:Lg.
    - destruct (disjoint g (K _ _ Lg) Hg).
    - unfold bn_get in H. rewrite Lg in H. injection H as <- <-.
      split; [constructor; assumption|].
      exists d0. split; [reflexivity|]. unfold bn_assigned. rewrite Lg. reflexivity.
    - assert (N0 : bn_assigned m b = None).
      { unfold bn_assigned. destruct (lookup m b) as [[?|d s']|] eqn:L; try reflexivity.
        destruct (disjoint b Hb (K _ _ L)). }
      rewrite (bn_get_fresh m b g s Lg N0) in H. injection H as <- <-.
      pose proof (fun g' => bn_fresh_assigned m b g s g' N0) as AS.
      (* the new directory carries a number above the counter: nobody has it yet *)
      assert (Fresh : forall g', bn_assigned m g' <> Some (path_join b (dec (cnt m b + 1)))).
      { intros g' A. apply (Le _ _ _ Hb) in A. lia. }
      split; [constructor|].
      + intros k v L. rewrite bn_fresh_lookup in L.
        destruct (str_eqb_spec k g) as [->|_]; [injection L as <-; exact Hg|].
        destruct (str_eqb_spec k b) as [->|_]; [injection L as <-; exact Hb | exact (K k v L)].
      + intros g' b0 j I A. rewrite AS in A. rewrite bn_fresh_cnt by (intros ->; exact (disjoint g I Hg)).
        destruct (str_eqb_spec g' g) as [->|_].
        * injection A as A. apply join_inj in A as [E <-].
          rewrite (BL_sep b b0 Hb I E), str_eqb_refl. reflexivity.
        * apply (Le _ _ _ I) in A. destruct (str_eqb_spec b0 b) as [->|_]; [lia | exact A].
      + intros g1 g2 d A1 A2. rewrite AS in A1, A2.
        destruct (str_eqb_spec g1 g) as [->|_], (str_eqb_spec g2 g) as [->|_];
          [reflexivity | | | exact (J _ _ _ A1 A2)].
        * injection A1 as <-. destruct (Fresh _ A2).
        * injection A2 as <-. destruct (Fresh _ A1).
      + eexists. split; [reflexivity|]. rewrite AS, str_eqb_refl. reflexivity.
  Qed.

  Lemma bn_run_spec : forall ops m m' rs,
    bn_inv m -> bn_wf BL GL ops -> bn_run m ops = (m', rs) ->
    bn_inv m' /\ length rs = length ops /\
    (forall b g s r, In ((b, g, s), r) (combine ops rs) -> exists d, r = RDir d /\ bn_assigned m' g = Some d).
  Proof.
    induction ops as [|[[b g] s] ops IH]; cbn; intros m m' rs I W H.
    - injection H as <- <-. split; [exact I | split; [reflexivity | intros ? ? ? ? []]].
    - apply Forall_cons_iff in W as [[Wb Wg] W].
      destruct (bn_get m b g s) as [m1 x] eqn:E1. destruct (bn_run m1 ops) as [m2 xs] eqn:E2.
      injection H as <- <-. destruct (bn_get_step _ _ _ _ _ _ I Wb Wg E1) as (I1 & d & -> & A).
      destruct (IH m1 m2 xs I1 W E2) as (I2 & Len & Res).
      split; [exact I2 | split; [cbn; rewrite Len; reflexivity|]].
      intros b' g' s' r [[= <- <- <- <-]|In0]; [|exact (Res b' g' s' r In0)].
      exists d. split; [reflexivity | exact (bn_run_mono _ _ _ _ _ _ E2 A)].
  Qed.
End Release.

Lemma insert_sorted_perm : forall x l, Permutation (insert_sorted x l) (x :: l).
Proof.
  intros x. induction l as [|z l IH]; cbn; [reflexivity|]. destruct (str_leb x z); [reflexivity|].
  apply (perm_trans (perm_skip z IH)), perm_swap.
Qed.

Lemma sort_strs_perm : forall l, Permutation (sort_strs l) l.
Proof.
  induction l as [|x l IH]; cbn; [constructor|].
  apply (perm_trans (insert_sorted_perm x _)), perm_skip, IH.
Qed.

Fixpoint pkg_ind' (P : pkg -> Prop)
  (H : forall id r n co bu pk deps, Forall P deps -> P (Pkg id r n co bu pk deps)) (p : pkg) : P p :=
  match p with
  | Pkg id r n co bu pk deps =>
      H id r n co bu pk deps
        ((fix go (l : list pkg) : Forall P l :=
            match l with
            | [] => Forall_nil P
            | d :: t => Forall_cons d (pkg_ind' P H d) (go t)
            end) deps)
  end.

Section Walk.
  Variable wp : kind -> pkg -> option str.
  Variable ds : dirstates.

  Fixpoint walk_list (l : list pkg) (s : list N * list str) : option (list N * list str) :=
    match l with
    | [] => Some s
    | d :: r => match walk wp ds d s with
                | Some s' => walk_list r s'
                | None => None
                end
    end.

  Lemma walk_unfold : forall p st,
    walk wp ds p st =
    if mem_N (p_id p) (fst st) then Some st
    else match own_paths wp ds p with
         | None => None
         | Some own => walk_list (p_deps p) (p_id p :: fst st, snd st ++ own)
         end.
  Proof. intros [id r n co bu pk deps] st. reflexivity. Qed.

  Variable root : pkg.
  Hypothesis cons : consistent root.

  (* [n] is finished; when the root's walk returns, every package it entered is: that is [collect_covers]. *)
  Definition closed_in (n : pkg) (s : list N * list str) : Prop :=
    (exists own, own_paths wp ds n = Some own /\ incl own (snd s)) /\
    (forall c, In c (p_deps n) -> In (p_id c) (fst s)).

  (* a package entered further up the stack is not finished yet: the claim is about those this walk entered *)
  Definition walk_post (s s' : list N * list str) : Prop :=
    incl (fst s) (fst s') /\ incl (snd s) (snd s') /\
    (forall n, subnode root n -> In (p_id n) (fst s') -> ~ In (p_id n) (fst s) -> closed_in n s').

  Lemma walk_post_refl : forall s, walk_post s s.
  Proof. intro s. split; [apply incl_refl | split; [apply incl_refl | intros n _ I NI; contradiction]]. Qed.

  Lemma walk_post_trans : forall s1 s2 s3, walk_post s1 s2 -> walk_post s2 s3 -> walk_post s1 s3.
  Proof.
    intros s1 s2 s3 (A1 & B1 & C1) (A2 & B2 & C2).
    split; [exact (incl_tran A1 A2) | split; [exact (incl_tran B1 B2)|]].
    intros n U I3 N1. destruct (in_dec N.eq_dec (p_id n) (fst s2)) as [I2|N2]; [|apply C2; assumption].
    destruct (C1 n U I2 N1) as [(own & O & Inc) K].
    split; [exists own; split; [exact O | exact (incl_tran Inc B2)] | intros c Ic; apply A2, K, Ic].
  Qed.

  Definition walk_ok (p : pkg) : Prop :=
    subnode root p -> forall st st', walk wp ds p st = Some st' ->
    walk_post st st' /\ In (p_id p) (fst st').

  Lemma walk_list_spec : forall l,
    Forall walk_ok l -> (forall d, In d l -> subnode root d) ->
    forall s s', walk_list l s = Some s' ->
    walk_post s s' /\ (forall d, In d l -> In (p_id d) (fst s')).
  Proof.
    induction l as [|d l IH]; cbn; intros F U s s' H.
    - injection H as <-. split; [apply walk_post_refl | intros d []].
    - apply Forall_cons_iff in F as [Fd Fl].
      destruct (walk wp ds d s) as [s1|] eqn:E; [|discriminate].
      destruct (Fd (U d (or_introl eq_refl)) s s1 E) as [P1 I1].
      destruct (IH Fl (fun x Ix => U x (or_intror Ix)) s1 s' H) as [P2 I2].
      split; [exact (walk_post_trans _ _ _ P1 P2)|].
      intros x [<-|Ix]; [apply (proj1 P2), I1 | apply I2, Ix].
  Qed.

  Lemma walk_spec : forall p, walk_ok p.
  Proof.
    apply pkg_ind'. intros id r n co bu pk deps F U st st' H.
    set (p := Pkg id r n co bu pk deps) in *.
    rewrite walk_unfold in H. cbn [p p_id p_deps] in H.
    destruct (mem_N_spec id (fst st)) as [M|M].
    - injection H as <-. split; [apply walk_post_refl | exact M].
    - destruct (own_paths wp ds p) as [own|] eqn:O; [|discriminate].
      destruct (walk_list_spec deps F (fun d Id => sn_child root p d U Id) _ _ H) as [(A & B & C) D].
      cbn [fst snd] in A, B, C. apply incl_cons_inv in A as [A0 A]. apply incl_app_inv in B as [B B0].
      split; [|exact A0]. split; [exact A | split; [exact B|]].
      intros x Ux Ix NIx. destruct (N.eq_dec (p_id x) id) as [E|NE].
      + rewrite (cons x p Ux U E). split; [exists own; split; [exact O | exact B0] | exact D].
      + apply C; [exact Ux | exact Ix | intros [E|I]; [exact (NE (eq_sym E)) | exact (NIx I)]].
  Qed.

  Lemma collect_covers : forall used,
    collect_paths wp ds root = Some used ->
    forall n, subnode root n -> exists own, own_paths wp ds n = Some own /\ incl own used.
  Proof.
    intros used H. unfold collect_paths in H.
    destruct (walk wp ds root ([], [])) as [st'|] eqn:E; [|discriminate]. injection H as <-.
    destruct (walk_spec root (sn_root root) _ _ E) as [(_ & _ & C) I].
    assert (All : forall n, subnode root n -> In (p_id n) (fst st')).
    { intros n U. induction U as [|p c Up IHp Ic]; [exact I|]. apply (C p Up IHp (fun F => F)), Ic. }
    intros n U. apply (C n U (All n U) (fun F => F)).
  Qed.

  Lemma uptodate_in_own : forall k n path own,
    own_paths wp ds n = Some own -> wp k n = Some path -> uptodate ds k n path -> In path own.
  Proof.
    intros k n path own O W Up. unfold own_paths in O.
    match type of O with
    | match ?B with Some _ => _ | None => _ end = _ => destruct B as [bl|] eqn:EB; [|discriminate]
    end.
    injection O as <-.
    destruct k; cbn in Up.
    - destruct (p_vid KSrc n); [|congruence]. rewrite W. left. reflexivity.
    - destruct Up as [v [V L]]. rewrite V, W in EB. apply in_or_app. right. apply in_or_app. left.
      destruct L as [L|[rest L]]; rewrite L, ?str_eqb_refl in EB; injection EB as <-; left; reflexivity.
    - destruct Up as [v [V L]]. rewrite V, W. apply in_or_app. right. apply in_or_app. right.
      destruct L as [L|L]; rewrite L, ?str_eqb_refl; left; reflexivity.
  Qed.
End Walk.

Section CleanProofs.
  Variable expendable : str -> bool.

  Lemma del_paths_In : forall f all used fs d,
    In d (del_paths expendable f all used fs) <->
    exists s, In (d, s) all /\ ~ In d used /\ In d fs /\ (s = false \/ may_clean expendable f d = true).
  Proof.
    intros f all used fs d. unfold del_paths.
    rewrite (Permutation_in' eq_refl (sort_strs_perm _)), in_flat_map. split.
    - intros ([d' s] & I & C). cbn [fst snd] in C.
      destruct (mem_str_spec d' used) as [|NU]; [contradiction|].
      destruct (mem_str_spec d' fs) as [IF|]; [|contradiction].
      destruct (negb s || may_clean expendable f d') eqn:E; [|contradiction].
      destruct C as [<-|[]]. exists s. repeat split; try assumption.
      apply orb_true_iff in E as [E|E]; [left; apply negb_true_iff, E | right; exact E].
    - intros (s & I & NU & IF & M). exists (d, s). split; [exact I|]. cbn [fst snd].
      destruct (mem_str_spec d used); [contradiction|]. destruct (mem_str_spec d fs); [|contradiction].
      destruct M as [->| ->]; [|rewrite orb_true_r]; left; reflexivity.
  Qed.

  Lemma clean_core_spec : forall mode f wp root bn ds fs r,
    clean_core expendable mode f wp root bn ds fs = Some r ->
    exists used, collect_paths wp ds root = Some used /\
      r = clean_apply f (del_paths expendable f (all_paths mode bn ds) used fs) fs ds.
  Proof.
    intros mode f wp root bn ds fs r H. unfold clean_core in H.
    destruct (collect_paths wp ds root) as [used|]; [|discriminate]. injection H as <-.
    exists used. split; reflexivity.
  Qed.
End CleanProofs.

Lemma clean_apply_del : forall f del fs ds, c_del (clean_apply f del fs ds) = del.
Proof. intros f del fs ds. unfold clean_apply. destruct (cf_dry f); reflexivity. Qed.

Lemma clean_apply_fs : forall f del fs ds d,
  In d (c_fs (clean_apply f del fs ds)) <-> In d fs /\ (cf_dry f = true \/ ~ In d del).
Proof.
  intros f del fs ds d. unfold clean_apply. destruct (cf_dry f); cbn [c_fs].
  - split; [intro F; split; [exact F | left; reflexivity] | intros [F _]; exact F].
  - rewrite filter_In. apply and_iff_compat_l. destruct (mem_str_spec d del) as [I|NI]; cbn.
    + split; [discriminate | intros [[=]|NI]; destruct (NI I)].
    + split; [intros _; right; exact NI | reflexivity].
Qed.

Lemma strs_eqb_eq : forall a b, strs_eqb a b = true -> a = b.
Proof. exact (fun a b => proj1 (ListFacts.list_eqb_eq _ _ str_eqb_spec a b)). Qed.

Lemma strs_eqb_refl : forall a, strs_eqb a a = true.
Proof. exact (ListFacts.list_eqb_refl _ _ str_eqb_spec). Qed.

Lemma dstate_eqb_eq : forall a b, dstate_eqb a b = true -> a = b.
Proof.
  intros [|x|x] [|y|y]; cbn; intro H; try discriminate; [reflexivity | apply strs_eqb_eq in H | destruct (str_eqb_spec x y)];
    congruence.
Qed.

(* a stored state equal to the one the step would record carries its Variant-Id *)
Lemma other_variant_differs : forall st old vid,
  stored_vid (Some st) = Some vid -> stored_vid old <> Some vid -> dstate_opt_eqb (Some st) old = false.
Proof.
  intros st old vid S N. destruct (dstate_opt_eqb (Some st) old) eqn:E; [|reflexivity].
  destruct old as [o|]; [|discriminate]. apply dstate_eqb_eq in E. congruence.
Qed.

Lemma package_pruned : forall (content : Type) (empty : content) (t : there content) old vid,
  dstate_opt_eqb (Some (DPkg vid)) old = false ->
  package_prepare content empty t old vid = (empty, Some (DPkg vid)).
Proof.
  intros content empty t old vid E. unfold package_prepare, construct_dir. destruct t; rewrite ?E; reflexivity.
Qed.
