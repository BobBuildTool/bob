(* Develop mode: over every history the dirs table stays injective, a key that
   keeps being presented keeps its directory, and the numbering terminates
   ([run_history] iterates DevelopDirOracle.prime over project states: cache
   key, formatter calls in visit order).
   Release mode: the same for every sequence of BobState.getByNameDirectory
   calls ([bn_run]).
   Prune: a directory whose stored state belongs to another variant is empty
   when the script starts.
   Clean: what is deleted is unused, what is up to date survives, and -s,
   --force, --dry-run do what they say.
   Closed examples of each part stand at the end. *)
From Coq Require Import List NArith Bool.
Require Import BobV.C16.Model BobV.C16.Proofs.
Import ListNotations.
Open Scope N_scope.

(* After every refresh of every history in which no two base directories of a
   project state differ only by a trailing slash, the dirs table is injective:
   one directory is never assigned to two different keys (recipe name + Variant-Id). *)
Theorem dev_dirs_injective : forall h s',
  hist_sep h -> run_history ostate0 h = Some s' ->
  forall k1 k2 d, lookup (snd s') k1 = Some d -> lookup (snd s') k2 = Some d -> k1 = k2.
Proof.
  intros h s' S H. apply (run_history_injective h ostate0 s' S); [discriminate | exact H].
Qed.

(* ... hence two steps that share a develop-mode directory have the same
   recipe name (as utf-8 bytes) and the same Variant-Id, provided the two
   Variant-Ids have one length: the key is the concatenation of the two, and
   splits in one way only then.  (In bob a Variant-Id is 20 bytes, or 40 when a
   fingerprint enters it: DigestHasher.digest.) *)
Theorem dev_same_dir_same_variant : forall h s' p1 p2 k1 k2 v1 v2 d,
  hist_sep h -> run_history ostate0 h = Some s' ->
  p_vid k1 p1 = Some v1 -> p_vid k2 p2 = Some v2 -> length v1 = length v2 ->
  dev_dir (snd s') k1 p1 = Some d -> dev_dir (snd s') k2 p2 = Some d ->
  utf8 (p_recipe p1) = utf8 (p_recipe p2) /\ v1 = v2.
Proof.
  intros h s' p1 p2 k1 k2 v1 v2 d S H V1 V2 L D1 D2. unfold dev_dir in *. rewrite V1 in D1. rewrite V2 in D2.
  apply (app_inv_same_length _ _ _ _ L), (dev_dirs_injective h s' S H _ _ _ D1 D2).
Qed.

(* A key that still exists (is first presented under the same base directory
   in every later project state) keeps its directory, whatever else appears,
   disappears or is renumbered around it. *)
Theorem dev_dirs_stable : forall h s s' k b p,
  lookup (snd s) k = Some p -> starts_with b p = true ->
  (forall ck vs, In (ck, vs) h -> first_base vs k = Some b) ->
  run_history s h = Some s' -> lookup (snd s') k = Some p.
Proof.
  intros h s s' k b p L S F H.
  destruct (run_history_inv (fun d => lookup d k = Some p) (fun vs => first_base vs k = Some b)) with (h := h) (s := s)
    as (s'' & E & L'); [|exact F | exact L | congruence].
  intros d vs d' Fb Ld R. rewrite first_base_lookup in Fb. destruct (rf_placed _ _ _ R k b Fb) as (p' & L' & _ & U).
  rewrite (U p (proj2 (kept_spec d k b p) (conj Ld S))). exact L'.
Qed.

(* A key presented to a refresh has a directory from then on, and the same one
   for as long as it keeps being presented under that base. *)
Theorem dev_dirs_stable_from_refresh : forall d vs d' rest vsn s' k b,
  refresh d vs = Some d' -> first_base vs k = Some b ->
  (forall ck vs', In (ck, vs') rest -> first_base vs' k = Some b) ->
  run_history (vsn, d') rest = Some s' ->
  exists p, lookup d' k = Some p /\ lookup (snd s') k = Some p.
Proof.
  intros d vs d' rest vsn s' k b R F A H. rewrite first_base_lookup in F.
  destruct (rf_placed _ _ _ (refresh_Some _ _ _ R) k b F) as (p & L & S & _).
  exists p. split; [exact L | exact (dev_dirs_stable rest (vsn, d') s' k b p L S A H)].
Qed.

(* The numbering loop of __writeBack terminates: no history runs out of fuel. *)
Theorem dev_oracle_total : forall h s, run_history s h <> None.
Proof.
  intros h s.
  destruct (run_history_inv (fun _ => True) (fun _ => True) (fun _ _ _ _ _ _ => I) h s (fun _ _ _ => I) I) as (s' & -> & _).
  discriminate.
Qed.

(* After a refresh exactly the presented keys have a directory (the assertion
   "missing" of the ready formatter cannot fail, stale keys are dropped). *)
Theorem dev_lookup_total : forall s ck vs s',
  vsn_matches (fst s) ck = false -> prime_visits s ck vs = Some s' ->
  forall k, first_base vs k <> None <-> lookup (snd s') k <> None.
Proof.
  intros s ck vs s' M H. apply prime_visits_cases in H as [[M' _]|(_ & d' & E & ->)]; [congruence|].
  intro k. rewrite first_base_lookup. apply (rf_dom _ _ _ (refresh_Some _ _ _ E)).
Qed.

(* For every sequence of getByNameDirectory calls (base directories BL, no two
   differing only by a trailing slash, and digests GL in disjoint name
   spaces): no call fails, every answer is the final table's entry for that
   digest (a digest keeps its directory), and the final table is injective
   (different digests never share a directory). *)
Theorem release_dirs_injective_and_stable : forall BL GL ops m' rs,
  sep BL -> (forall x, In x BL -> In x GL -> False) -> bn_wf BL GL ops ->
  bn_run [] ops = (m', rs) ->
  length rs = length ops /\
  (forall b g s r, In ((b, g, s), r) (combine ops rs) -> exists d, r = RDir d /\ bn_assigned m' g = Some d) /\
  (forall g1 g2 d, bn_assigned m' g1 = Some d -> bn_assigned m' g2 = Some d -> g1 = g2).
Proof.
  intros BL GL ops m' rs S D W H.
  destruct (bn_run_spec BL GL S D ops [] m' rs (bn_inv_nil BL GL) W H) as (I & L & R).
  split; [exact L | split; [exact R | exact (bi_inj _ _ _ I)]].
Qed.

(* Later calls never move a directory.  This needs nothing of the table or of
   the calls ([bn_run_mono]). *)
Theorem release_dirs_survive_later_calls : forall BL GL ops1 ops2 m1 rs1 m2 rs2 g d,
  sep BL -> (forall x, In x BL -> In x GL -> False) -> bn_wf BL GL ops1 -> bn_wf BL GL ops2 ->
  bn_run [] ops1 = (m1, rs1) -> bn_run m1 ops2 = (m2, rs2) ->
  bn_assigned m1 g = Some d -> bn_assigned m2 g = Some d.
Proof.
  intros BL GL ops1 ops2 m1 rs1 m2 rs2 g d _ _ _ _ _. apply bn_run_mono.
Qed.

(* Any difference in the stored build digest (variant id or execution paths) prunes. *)
Theorem build_digest_change_prunes : forall (content : Type) (empty : content) (t : there content) old digest,
  dstate_opt_eqb (Some (DBuild digest)) old = false ->
  build_prepare content empty t old digest = (empty, true, Some (DBuild digest)).
Proof.
  intros content empty t old digest E. unfold build_prepare, construct_dir. destruct t; rewrite ?E; reflexivity.
Qed.

(* ... and only a difference does: the incremental build keeps its tree. *)
Theorem build_same_digest_keeps : forall (content : Type) (empty : content) c old digest,
  old = Some (DBuild digest) ->
  build_prepare content empty (IsDir c) old digest = (c, false, old).
Proof.
  intros content empty c old digest ->. unfold build_prepare. cbn. rewrite strs_eqb_refl. reflexivity.
Qed.

(* A build or package directory whose stored state does not carry the
   Variant-Id of the step that is about to use it is empty when the script
   starts (whatever was there: nothing, a directory with content, a link). *)
Theorem reused_dir_is_pruned : forall (content : Type) (empty : content) (run_script : content -> content)
    (t : there content) old vid rest,
  stored_vid old <> Some vid ->
  build_result content empty run_script t old (vid :: rest) = run_script empty /\
  package_result content empty run_script t old vid = run_script empty.
Proof.
  intros content empty run_script t old vid rest H. unfold build_result, package_result.
  rewrite build_digest_change_prunes, package_pruned by (apply (other_variant_differs _ old vid); [reflexivity | exact H]).
  split; reflexivity.
Qed.

(* Everything deleted is a known workspace that exists and is not among the
   paths collected from the packages of the current recipes. *)
Theorem clean_deletes_only_unused : forall expendable mode f wp root bn ds fs r d,
  clean_core expendable mode f wp root bn ds fs = Some r -> In d (c_del r) ->
  exists used, collect_paths wp ds root = Some used /\ ~ In d used /\ In d fs /\
               exists s, In (d, s) (all_paths mode bn ds).
Proof.
  intros expendable mode f wp root bn ds fs r d H I. apply clean_core_spec in H as (used & C & ->).
  rewrite clean_apply_del in I. apply del_paths_In in I as (s & A & NU & F & _).
  exists used. repeat split; try assumption. exists s. exact A.
Qed.

(* No up-to-date result is lost: the workspace of every step of every package
   reachable from the root whose stored state matches the step (or is absent),
   and every checkout workspace of a valid step, survives. *)
Theorem clean_keeps_uptodate : forall expendable mode f wp root bn ds fs r n k path,
  consistent root -> clean_core expendable mode f wp root bn ds fs = Some r ->
  subnode root n -> wp k n = Some path -> uptodate ds k n path ->
  ~ In path (c_del r) /\ (In path fs -> In path (c_fs r)).
Proof.
  intros expendable mode f wp root bn ds fs r n k path Cons H U W Up.
  apply clean_core_spec in H as (used & C & ->). rewrite clean_apply_del.
  destruct (collect_covers wp ds root Cons used C n U) as (own & O & Inc).
  assert (ND : ~ In path (del_paths expendable f (all_paths mode bn ds) used fs)).
  { intro I. apply del_paths_In in I as (_ & _ & NU & _). apply NU, Inc, (uptodate_in_own wp ds k n path own O W Up). }
  split; [exact ND|]. intro F. apply clean_apply_fs. split; [exact F | right; exact ND].
Qed.

Theorem dry_run_noop : forall expendable mode f wp root bn ds fs r,
  cf_dry f = true -> clean_core expendable mode f wp root bn ds fs = Some r -> c_fs r = fs /\ c_ds r = ds.
Proof.
  intros expendable mode f wp root bn ds fs r Dry H. apply clean_core_spec in H as (used & _ & ->).
  unfold clean_apply. rewrite Dry. split; reflexivity.
Qed.

(* Source workspaces go only with -s, and then only if --force is given or the
   SCM status says they are expendable. *)
Theorem sources_only_on_request_and_expendable : forall expendable mode f wp root bn ds fs r d,
  clean_core expendable mode f wp root bn ds fs = Some r -> In d (c_del r) ->
  (forall s, In (d, s) (all_paths mode bn ds) -> s = true) ->
  cf_src f = true /\ (cf_force f = true \/ expendable d = true).
Proof.
  intros expendable mode f wp root bn ds fs r d H I S.
  apply clean_core_spec in H as (used & _ & ->). rewrite clean_apply_del in I. apply del_paths_In in I as (s & A & _ & _ & M).
  rewrite (S s A) in M. destruct M as [M|M]; [discriminate|].
  unfold may_clean in M. destruct (cf_src f); [|discriminate]. split; [reflexivity|].
  destruct (cf_force f); [left; reflexivity | right; exact M].
Qed.

Theorem clean_removes_exactly_the_delete_set : forall expendable mode f wp root bn ds fs r d,
  cf_dry f = false -> clean_core expendable mode f wp root bn ds fs = Some r ->
  (In d (c_fs r) <-> In d fs /\ ~ In d (c_del r)).
Proof.
  intros expendable mode f wp root bn ds fs r d Dry H. apply clean_core_spec in H as (used & _ & ->).
  rewrite clean_apply_fs, clean_apply_del, Dry. apply and_iff_compat_l. split; [intros [[=]|N]; exact N | intro N; right; exact N].
Qed.

Definition bx : str := [100; 101; 118; 47; 98; 117; 105; 108; 100; 47; 120].           (* "dev/build/x" *)
Definition kA : str := [120; 1; 1].    (* recipe "x" + (short) variant ids *)
Definition kB : str := [120; 2; 2].
Definition kC : str := [120; 3; 3].
Definition hist4 : list (str * list visit) :=
  [ ([1], [(kA, bx); (kB, bx)]);             (* A, B appear        -> x/1, x/2 *)
    ([2], [(kB, bx)]);                       (* A disappears                    *)
    ([3], [(kB, bx); (kC, bx)]);             (* C appears          -> x/1       *)
    ([4], [(kA, bx); (kB, bx); (kC, bx)]) ]. (* A re-appears: 1 and 2 are taken -> x/3 *)

Example dev_history_nonvacuous :
  hist_sep hist4 /\
  exists s, run_history ostate0 hist4 = Some s /\
    lookup (snd s) kA = Some [100; 101; 118; 47; 98; 117; 105; 108; 100; 47; 120; 47; 51] /\ lookup (snd s) kB = Some [100; 101; 118; 47; 98; 117; 105; 108; 100; 47; 120; 47; 50] /\ lookup (snd s) kC = Some [100; 101; 118; 47; 98; 117; 105; 108; 100; 47; 120; 47; 49].
Proof.
  assert (S : forall n, sep (repeat bx n)).
  { intros n b1 b2 I1 I2 _. rewrite (repeat_spec _ _ _ I1), (repeat_spec _ _ _ I2). reflexivity. }
  split; [repeat apply Forall_cons; [apply (S 2%nat) | apply (S 1%nat) | apply (S 2%nat) | apply (S 3%nat) | apply Forall_nil]|].
  eexists. split; [vm_compute; reflexivity|]. repeat apply conj; reflexivity.
Qed.

(* The keep rule is a string prefix test: the stored "dev/dist/foo-bar/1" is
   kept for base "dev/dist/foo" (harmless for injectivity, recorded here). *)
Example startswith_prefix_confusion :
  refresh [(kA, [100; 101; 118; 47; 100; 105; 115; 116; 47; 102; 111; 111; 45; 98; 97; 114; 47; 49])] [(kA, [100; 101; 118; 47; 100; 105; 115; 116; 47; 102; 111; 111])] = Some [(kA, [100; 101; 118; 47; 100; 105; 115; 116; 47; 102; 111; 111; 45; 98; 97; 114; 47; 49])].
Proof. reflexivity. Qed.

(* ("work/a/dist", "1"), ("work/a/dist", "2"), ("work/a/dist", "1") once more,
   ("work/b/src", "3", a source directory): work/a/dist/1, work/a/dist/2,
   work/a/dist/1 again, work/b/src/1; the counters end at 2 and 1. *)
Example release_nonvacuous :
  bn_run [] [([119; 111; 114; 107; 47; 97; 47; 100; 105; 115; 116], [49], false); ([119; 111; 114; 107; 47; 97; 47; 100; 105; 115; 116], [50], false); ([119; 111; 114; 107; 47; 97; 47; 100; 105; 115; 116], [49], false); ([119; 111; 114; 107; 47; 98; 47; 115; 114; 99], [51], true)] =
  ([([119; 111; 114; 107; 47; 97; 47; 100; 105; 115; 116], BCnt 2); ([49], BDir [119; 111; 114; 107; 47; 97; 47; 100; 105; 115; 116; 47; 49] false); ([50], BDir [119; 111; 114; 107; 47; 97; 47; 100; 105; 115; 116; 47; 50] false); ([119; 111; 114; 107; 47; 98; 47; 115; 114; 99], BCnt 1); ([51], BDir [119; 111; 114; 107; 47; 98; 47; 115; 114; 99; 47; 49] true)],
   [RDir [119; 111; 114; 107; 47; 97; 47; 100; 105; 115; 116; 47; 49]; RDir [119; 111; 114; 107; 47; 97; 47; 100; 105; 115; 116; 47; 50]; RDir [119; 111; 114; 107; 47; 97; 47; 100; 105; 115; 116; 47; 49]; RDir [119; 111; 114; 107; 47; 98; 47; 115; 114; 99; 47; 49]]).
Proof. reflexivity. Qed.

(* A build digest is the variant id, then the execution path "work/a/dist";
   the directory holds the files "a" and "b". *)
Example reused_dir_nonvacuous :   (* directory of variant [1] with files, handed to variant [2] *)
  build_prepare (list str) [] (IsDir [[97]; [98]]) (Some (DBuild [[1]; [119; 111; 114; 107; 47; 97; 47; 100; 105; 115; 116]])) [[2]; [119; 111; 114; 107; 47; 97; 47; 100; 105; 115; 116]] = ([], true, Some (DBuild [[2]; [119; 111; 114; 107; 47; 97; 47; 100; 105; 115; 116]])) /\
  build_prepare (list str) [] (IsDir [[97]; [98]]) (Some (DBuild [[1]; [119; 111; 114; 107; 47; 97; 47; 100; 105; 115; 116]])) [[1]; [119; 111; 114; 107; 47; 97; 47; 100; 105; 115; 116]] = ([[97]; [98]], false, Some (DBuild [[1]; [119; 111; 114; 107; 47; 97; 47; 100; 105; 115; 116]])) /\
  package_prepare (list str) [] (IsDir [[97]]) (Some (DPkg [1])) [2] = ([], Some (DPkg [2])).
Proof. repeat apply conj; reflexivity. Qed.

(* bob clean --develop -s on package "x" (build Variant-Id [7], package [8], no
   checkout step) with "dev/dist/x/1/workspace" up to date (DPkg [8]),
   "dev/build/x/1/workspace" stale (stored [9]), "dev/src/x/1/workspace" no
   longer used and not expendable, "dev/src/y/1/workspace" unused and
   expendable: the build workspace and src/y go. *)
Definition pk0 : pkg := Pkg 0 [120] [120] None (Some [7]) (Some [8]) [].
Definition wp0 (k : kind) (p : pkg) : option str :=
  match k with KSrc => None | KBuild => Some [100; 101; 118; 47; 98; 117; 105; 108; 100; 47; 120; 47; 49; 47; 119; 111; 114; 107; 115; 112; 97; 99; 101] | KDist => Some [100; 101; 118; 47; 100; 105; 115; 116; 47; 120; 47; 49; 47; 119; 111; 114; 107; 115; 112; 97; 99; 101] end.
Definition ds0 : dirstates :=
  [([100; 101; 118; 47; 100; 105; 115; 116; 47; 120; 47; 49; 47; 119; 111; 114; 107; 115; 112; 97; 99; 101], DPkg [8]); ([100; 101; 118; 47; 98; 117; 105; 108; 100; 47; 120; 47; 49; 47; 119; 111; 114; 107; 115; 112; 97; 99; 101], DBuild [[9]; [1]]); ([100; 101; 118; 47; 115; 114; 99; 47; 120; 47; 49; 47; 119; 111; 114; 107; 115; 112; 97; 99; 101], DSrc); ([100; 101; 118; 47; 115; 114; 99; 47; 121; 47; 49; 47; 119; 111; 114; 107; 115; 112; 97; 99; 101], DSrc)].
Example clean_nonvacuous :
  clean_core (fun d => str_eqb d [100; 101; 118; 47; 115; 114; 99; 47; 121; 47; 49; 47; 119; 111; 114; 107; 115; 112; 97; 99; 101]) Develop {| cf_src := true; cf_force := false; cf_dry := false |}
             wp0 pk0 [] ds0 [[100; 101; 118; 47; 100; 105; 115; 116; 47; 120; 47; 49; 47; 119; 111; 114; 107; 115; 112; 97; 99; 101]; [100; 101; 118; 47; 98; 117; 105; 108; 100; 47; 120; 47; 49; 47; 119; 111; 114; 107; 115; 112; 97; 99; 101]; [100; 101; 118; 47; 115; 114; 99; 47; 120; 47; 49; 47; 119; 111; 114; 107; 115; 112; 97; 99; 101]; [100; 101; 118; 47; 115; 114; 99; 47; 121; 47; 49; 47; 119; 111; 114; 107; 115; 112; 97; 99; 101]] =
  Some {| c_del := [[100; 101; 118; 47; 98; 117; 105; 108; 100; 47; 120; 47; 49; 47; 119; 111; 114; 107; 115; 112; 97; 99; 101]; [100; 101; 118; 47; 115; 114; 99; 47; 121; 47; 49; 47; 119; 111; 114; 107; 115; 112; 97; 99; 101]]; c_fs := [[100; 101; 118; 47; 100; 105; 115; 116; 47; 120; 47; 49; 47; 119; 111; 114; 107; 115; 112; 97; 99; 101]; [100; 101; 118; 47; 115; 114; 99; 47; 120; 47; 49; 47; 119; 111; 114; 107; 115; 112; 97; 99; 101]]; c_ds := [([100; 101; 118; 47; 100; 105; 115; 116; 47; 120; 47; 49; 47; 119; 111; 114; 107; 115; 112; 97; 99; 101], DPkg [8]); ([100; 101; 118; 47; 115; 114; 99; 47; 120; 47; 49; 47; 119; 111; 114; 107; 115; 112; 97; 99; 101], DSrc)] |}.
Proof. vm_compute. reflexivity. Qed.
